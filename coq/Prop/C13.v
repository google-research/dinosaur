(** Property C13 - vertical (sigma) calculus.  The proofs are in Thm/Sigma.v and
    Thm/SigmaSrc.v.  Every theorem is for an arbitrary field [F] (hence the
    reals), an arbitrary number of layers [K] and arbitrary boundaries. *)
From Dino Require Import Base.Ops Base.Sums Base.Inst Base.Ord Model.Sigma Thm.Sigma.
From Dino Require Import Model.ArrDSL Gen.SigmaSrc Thm.SigmaSrc.
From Coq Require Import Reals Qcanon Lra.
Local Open Scope F_scope.

Section C13.
  Context {F : Type} {o : Ops F} {Fc : FieldC o}.
  Hypothesis two_nz : two <> 0.

  (** cumulative integrals end at the total integral (both strategies, both directions) *)
  Theorem C13_cumint_last_is_total (dot : bool) K (b x : nat -> F) :
    (0 < K)%nat ->
    cum_sigma_integral dot true K b x (K - 1) = sigma_integral K b x /\
    cum_sigma_integral dot false K b x 0 = sigma_integral K b x.
  Proof. exact (cumint_last_is_total dot K b x). Qed.

  (** downward + upward = total + local layer contribution, any mix of strategies *)
  Theorem C13_down_plus_up (d1 d2 : bool) K (b x : nat -> F) j :
    (j < K)%nat ->
    cum_sigma_integral d1 true K b x j + cum_sigma_integral d2 false K b x j
    = sigma_integral K b x + x j * thickness b j.
  Proof. exact (down_plus_up d1 d2 K b x j). Qed.

  (** matmul-with-mask cumsum = sequential cumsum, forward and reverse *)
  Theorem C13_cumsum_methods_agree K (x : nat -> F) j (d1 d2 : bool) :
    (j < K)%nat ->
    cumsum_m d1 K x j = cumsum_m d2 K x j /\ revcumsum_m d1 K x j = revcumsum_m d2 K x j.
  Proof. exact (cumsum_methods_agree K x j d1 d2). Qed.

  Theorem C13_centered_difference_affine (b x : nat -> F) (a c : F) k :
    c2c b k <> 0 ->
    x k = a * centers b k + c -> x (S k) = a * centers b (S k) + c ->
    centered_difference b x k = a.
  Proof. exact (centered_difference_affine b x a c k). Qed.

  (** summation by parts: thickness-weighted column sum of advection equals
      the column sum of x times the velocity convergence (zero boundary velocity) *)
  Theorem C13_advection_sbp K (b w x : nat -> F) (dt db : F) :
    (0 < K)%nat ->
    (forall k, (S k < K)%nat -> c2c b k <> 0) ->
    sumn K (fun n => thickness b n * centered_vertical_advection K b w x 0 0 dt db n)
    = sumn K (fun n => x n * (pad_tb K 0 0 w (S n) - pad_tb K 0 0 w n)).
  Proof. exact (advection_sbp two_nz K b w x dt db). Qed.

  Theorem C13_geopotential_is_trapezoid (dot : bool) K R (ls T : nat -> F) j :
    (j < K)%nat ->
    geo_diff_dense K R ls T j = R * cum_log_sigma_integral dot false K ls T j.
  Proof. exact (geopotential_is_trapezoid two_nz dot K R ls T j). Qed.

  Theorem C13_geo_sparse_eq_dense K R (ls T : nat -> F) j :
    (j < K)%nat -> geo_diff_sparse K R ls T j = geo_diff_dense K R ls T j.
  Proof. exact (geo_sparse_eq_dense K R ls T j). Qed.

  Theorem C13_rejects_bad_levels tol0 tol1 K (b : nat -> F) :
    sigma_accepts tol0 tol1 K b = true <->
    (fleb (fabs (b 0%nat)) tol0 = true /\ fleb (fabs (b K - 1)) tol1 = true /\
     forall k, (k < K)%nat -> fleb (b (S k)) (b k) = false).
  Proof. exact (rejects_bad_levels tol0 tol1 K b). Qed.
End C13.

(** Over the reals: a level set is accepted iff the end points are within the
    [isclose] tolerances of 0 and 1 and every difference is strictly positive. *)
Theorem C13_rejects_bad_levels_R (tol0 tol1 : R) K (b : nat -> R) :
  sigma_accepts tol0 tol1 K b = true <->
  ((Rabs (b 0%nat) <= tol0)%R /\ (Rabs (b K - 1) <= tol1)%R /\
   forall k, (k < K)%nat -> (b k < b (S k))%R).
Proof.
  rewrite rejects_bad_levels.
  assert (A : forall x : R, @fabs R ROps x = Rabs x).
  { intros x. unfold fabs; cbn. unfold Rleb. destruct (Rle_dec 0 x).
    - now rewrite Rabs_right by lra.
    - rewrite Rabs_left by lra. reflexivity. }
  rewrite !A. cbn. rewrite !Rleb_true.
  split; intros (H1 & H2 & H3); repeat split; auto; intros k Hk; apply Rleb_false; auto.
Qed.

(** Non-vacuity: the hypotheses are met by a concrete uneven 3-layer level set over Qc. *)
Example C13_hyps_satisfiable :
  let b := fun k : nat => Q2Qc (nth k [0; 1#4; 3#4; 1]%Q 0%Q) in
  (@two Qc QcOps <> 0) /\ (forall k, (S k < 3)%nat -> c2c b k <> 0) /\
  sigma_accepts (Q2Qc (1#100000000)) (Q2Qc (1#100000)) 3 b = true.
Proof.
  cbv zeta. split; [|split].
  - intro H. discriminate H.
  - intros k Hk. destruct k as [|[|k]]; [| |lia]; intro H; vm_compute in H; discriminate H.
  - vm_compute. reflexivity.
Qed.

(** The model is the source: every array program of dinosaur/sigma_coordinates.py along the
    vertical axis, transcribed from the AST on every run (Gen/SigmaSrc.v, tools/translate/gen_sigma.py)
    into the array DSL of Model/ArrDSL.v, has the lengths and the entries of the hand-written
    Model/Sigma.v, for every layer count, boundaries, column, velocities, cumsum method, direction
    and default / explicit boundary values.  [ls] is the table log(centers).
    (The two validity tests of __init__ need the order axioms: see C13_init_is_source.) *)
Theorem C13_model_is_source {F : Type} {o : Ops F} {Fc : FieldC o}
    (K : nat) (bf xf wf ls : nat -> F) (flog : F -> F) (dot downward : bool) (wbv dbv : option (F * F)) (y : arr F) :
  let b : arr F := (S K, bf) in let x : arr F := (K, xf) in let w : arr F := ((K - 1)%nat, wf) in
  (0 < K)%nat -> (forall k, (k < K)%nat -> flog (centers bf k) = ls k) ->
  (fst (internal_boundaries_src b) = (K - 1)%nat /\
   forall k, (k < K - 1)%nat -> snd (internal_boundaries_src b) k = bf (S k)) /\
  (fst (centers_src b) = K /\ forall k, (k < K)%nat -> snd (centers_src b) k = centers bf k) /\
  (fst (layer_thickness_src b) = K /\ forall k, (k < K)%nat -> snd (layer_thickness_src b) k = thickness bf k) /\
  (fst (center_to_center_src b) = (K - 1)%nat /\
   forall k, (k < K - 1)%nat -> snd (center_to_center_src b) k = c2c bf k) /\
  layers_src b = K /\
  (centered_difference_accepts_src y b = Nat.eqb K (fst y) /\
   cumulative_sigma_integral_accepts_src y b = Nat.eqb K (fst y) /\
   sigma_integral_accepts_src y b = Nat.eqb K (fst y) /\
   cumulative_log_sigma_integral_accepts_src y b = Nat.eqb K (fst y)) /\
  (fst (centered_difference_src x b) = (K - 1)%nat /\
   forall k, (k < K - 1)%nat -> snd (centered_difference_src x b) k = centered_difference bf xf k) /\
  (fst (cumulative_sigma_integral_src dot downward x b) = K /\
   forall j, (j < K)%nat ->
     snd (cumulative_sigma_integral_src dot downward x b) j = cum_sigma_integral dot downward K bf xf j) /\
  sigma_integral_src x b = sigma_integral K bf xf /\
  (fst (centered_vertical_advection_src w x b wbv dbv) = K /\
   forall n, (n < K)%nat ->
     snd (centered_vertical_advection_src w x b wbv dbv) n
     = centered_vertical_advection K bf wf xf (fst (bv_or wbv (0, 0))) (snd (bv_or wbv (0, 0)))
                                   (fst (bv_or dbv (0, 0))) (snd (bv_or dbv (0, 0))) n) /\
  (fst (cumulative_log_sigma_integral_src flog dot downward x b) = K /\
   forall j, (j < K)%nat ->
     snd (cumulative_log_sigma_integral_src flog dot downward x b) j
     = cum_log_sigma_integral dot downward K ls xf j) /\
  (fst (upwind_vertical_advection_src w x b) = K /\
   forall n, (n < K)%nat ->
     snd (upwind_vertical_advection_src w x b) n = upwind_vertical_advection K bf wf xf n).
Proof.
  intros b x w HK Hls.
  split; [exact (internal_boundaries_matches K bf)|].
  split; [exact (centers_matches K bf)|].
  split; [exact (layer_thickness_matches K bf)|].
  split; [exact (center_to_center_matches K bf)|].
  split; [exact (layers_matches K bf)|].
  split; [exact (guards_match K bf y)|].
  split; [exact (centered_difference_matches K bf xf)|].
  split; [exact (cumulative_sigma_integral_matches K bf xf dot downward)|].
  split; [exact (sigma_integral_matches K bf xf)|].
  split; [exact (centered_vertical_advection_matches K bf xf wf wbv dbv HK)|].
  split; [exact (cumulative_log_sigma_integral_matches K bf xf flog ls dot downward Hls)|].
  exact (upwind_vertical_advection_matches K bf xf wf HK).
Qed.

(** the two validity tests of SigmaCoordinates.__init__, transcribed over an abstract [isclose]
    whose uses with targets 0 and 1 are the tolerance tests, are the acceptance predicate of the model *)
Theorem C13_init_is_source {F : Type} {o : Ops F} {Oc : OrdFieldC o}
    (isclose : F -> F -> bool) (tol0 tol1 : F) K (bf : nat -> F) :
  (forall a, isclose a 0 = fleb (fabs a) tol0) ->
  (forall a, isclose a 1 = fleb (fabs (a - 1)) tol1) ->
  init_accepts_src isclose (S K, bf) = sigma_accepts tol0 tol1 K bf.
Proof. exact (init_accepts_matches isclose tol0 tol1 K bf). Qed.

(** the translator understood every statement it is meant to transcribe (fail closed) *)
Theorem C13_gen_sigma_complete : gen_sigma_ok = true.
Proof. reflexivity. Qed.

Print Assumptions C13_cumint_last_is_total.
Print Assumptions C13_down_plus_up.
Print Assumptions C13_cumsum_methods_agree.
Print Assumptions C13_centered_difference_affine.
Print Assumptions C13_advection_sbp.
Print Assumptions C13_geopotential_is_trapezoid.
Print Assumptions C13_geo_sparse_eq_dense.
Print Assumptions C13_rejects_bad_levels.
Print Assumptions C13_rejects_bad_levels_R.
Print Assumptions C13_hyps_satisfiable.
Print Assumptions C13_model_is_source.
Print Assumptions C13_gen_sigma_complete.
Print Assumptions C13_init_is_source.
