(** Property C02 - spectral differential operators.  Proofs are in Thm/Deriv.v and
    Thm/LegendrePoly.v.  Every theorem holds for an arbitrary field [F] (hence
    the reals), arbitrary truncation (M, L), arbitrary padded shape (R, C),
    arbitrary radius r <> 0 and - unless a table hypothesis is stated -
    arbitrary recurrence-weight tables a, b.

    Modal arrays are index functions (row i on the longitudinal axis, column l
    on the total-wavenumber axis).  The arithmetic expressions of the weights
    and eigenvalues are those of Gen/DerivExprs.v (regenerated from the source).

    Not provable here (the nodal transforms are not part of this model): the
    identities that need the sec^2 multiplication in nodal space.  They are
    derived from the two abstract hypotheses of [C02_vecid_sec2], which the
    plugin checks as table obligations on every basis vector, and evaluated as
    oracles on the implementation. *)
From Dino Require Import Base.Ops Base.Sums Base.Inst Gen.DerivExprs Gen.Legendre Model.Deriv Model.Legendre Thm.Deriv Thm.Legendre Thm.LegendrePoly.
From Coq Require Import Reals Qcanon Lra.
Local Open Scope F_scope.

Section C02.
  Context {F : Type} {o : Ops F} {Fc : FieldC o}.

  (** the translator understood every construct of the source it reads *)
  Theorem C02_gen_complete : gen_derivexprs_complete = true.
  Proof. exact gen_derivexprs_complete_ok. Qed.

  (** jax_numpy_utils.shift by -1 / +1 (zero padded) *)
  Theorem C02_shift_down n (x : nat -> F) k :
    shift1 n (-1) x k = if Nat.ltb (S k) n then x (S k) else 0.
  Proof. exact (shift1_m1 n x k). Qed.
  Theorem C02_shift_up n (x : nat -> F) k :
    (k < n)%nat -> shift1 n 1 x k = if Nat.eqb k 0 then 0 else x (k - 1)%nat.
  Proof. exact (shift1_p1 n x k). Qed.

  (** d_dlon on the (cos, sin) pair of wavenumber j; m = 0 is annihilated *)
  Theorem C02_dlon_pairs_ref R (x : arr2) j l :
    (1 <= j)%nat -> (2 * j < R)%nat ->
    dlon_ref R x (2 * j - 1)%nat l = lit j * x (2 * j)%nat l /\
    dlon_ref R x (2 * j)%nat l = - (lit j * x (2 * j - 1)%nat l) /\
    dlon_ref R x 0%nat l = 0.
  Proof. exact (dlon_pairs_ref R x j l). Qed.

  Theorem C02_dlon_pairs_fast R off (x : arr2) j l :
    (2 * j + 1 < R)%nat ->
    dlon_fast R off x (2 * j)%nat l = lit (off + j) * x (2 * j + 1)%nat l /\
    dlon_fast R off x (2 * j + 1)%nat l = - (lit (off + j) * x (2 * j)%nat l).
  Proof. exact (dlon_pairs_fast R off x j l). Qed.

  Theorem C02_dlon_twice_ref R (x : arr2) i l :
    (R mod 2 = 1)%nat -> (i < R)%nat ->
    dlon_ref R (dlon_ref R x) i l = - (lit (dref_j i) * lit (dref_j i)) * x i l.
  Proof. exact (dlon_twice_ref R x i l). Qed.
  Theorem C02_dlon_twice_fast R off (x : arr2) i l :
    (R mod 2 = 0)%nat -> (i < R)%nat ->
    dlon_fast R off (dlon_fast R off x) i l = - (lit (dfast_j off i) * lit (dfast_j off i)) * x i l.
  Proof. exact (dlon_twice_fast R off x i l). Qed.

  (** the multiplier used by the derivative is |m| of [modal_axes] *)
  Theorem C02_dlon_index_is_wavenumber M i :
    mabs false M i = dref_j i /\ ((i < 2 * M)%nat -> mabs true M i = dfast_j 0 i).
  Proof. exact (dlon_index_is_wavenumber M i). Qed.

  (** cos_lat_d_dlat couples l to l+1 with (l+2) a[l+1] and to l-1 with -(l-1) b[l-1] *)
  Theorem C02_D1_entries L C (a b x : arr2) i l :
    (l < C)%nat ->
    D1 L C a b x i l =
    (if Nat.ltb (S l) C then (lit (laxis L (S l)) + 1) * a i (S l) * x i (S l) else 0) +
    (if Nat.eqb l 0 then 0 else - lit (laxis L (l - 1)) * b i (l - 1)%nat * x i (l - 1)%nat).
  Proof. intros Hl. rewrite D1_entries by assumption. reflexivity. Qed.

  (** D2 = D1 - 2 M_mu, arbitrary weight tables *)
  Theorem C02_D2_eq_D1_minus_2mu L C (a b x : arr2) i l :
    (l < C)%nat -> D2 L C a b x i l = D1 L C a b x i l - (1 + 1) * Mmu C a b x i l.
  Proof. exact (D2_eq_D1_minus_2mu L C a b x i l). Qed.

  (** the generated expressions under the square roots *)
  Theorem C02_weight_exprs (l m : F) :
    (lit 4 * (l * l) - lit 1 <> 0 -> a2_expr 1 l m * (lit 4 * (l * l) - lit 1) = l * l - m * m) /\
    (forall mask, b2_expr mask l m = a2_expr mask (l + lit 1) m).
  Proof. exact (weight_exprs l m). Qed.

  (** the algebraic heart: cos^2 Laplacian identity on coefficients, |m| <= l <= L-3.
      Table hypotheses: H_b_shift (Hb0, Hb1) and H_eps2 (Ha1, Ha0) at the entries used;
      Hd1, Hd0, H2l1 hold in characteristic 0 (see the instance over R below). *)
  Theorem C02_cos2_laplacian_identity L C (a b x : nat -> nat -> F) r i l mn :
    r <> 0 -> (L <= C)%nat -> (l + 2 < L)%nat -> (mn <= l)%nat ->
    b i l = a i (S l) -> ((1 <= l)%nat -> b i (l - 1)%nat = a i l) ->
    a i (S l) * a i (S l) = a2_expr 1 (lit (S l)) (lit mn) ->
    ((1 <= l)%nat -> a i l * a i l = a2_expr 1 (lit l) (lit mn)) ->
    lit 4 * (lit (S l) * lit (S l)) - lit 1 <> 0 ->
    lit 4 * (lit l * lit l) - lit 1 <> 0 ->
    (1 + 1) * lit l + 1 <> 0 ->
    D1 L C a b (D1 L C a b x) i l - lit mn * lit mn * x i l
    = laplacian L r x i l * (r * r)
      - Mmu C a b (Mmu C a b (fun i l => laplacian L r x i l * (r * r))) i l.
  Proof. exact (cos2_laplacian_identity L C a b x r i l mn). Qed.

  Theorem C02_lap_inverse L r (x : arr2) i l :
    r <> 0 -> (1 <= l < L)%nat -> lit l <> 0 -> lit l + 1 <> 0 ->
    laplacian L r (inverse_laplacian L r x) i l = x i l /\
    inverse_laplacian L r (laplacian L r x) i l = x i l.
  Proof. exact (lap_inverse L r x i l). Qed.
  Theorem C02_inverse_laplacian_zero L r (x : arr2) i l :
    (l = 0 \/ L <= l)%nat -> inverse_laplacian L r x i l = 0.
  Proof. exact (inverse_laplacian_zero L r x i l). Qed.

  (** homogeneity in the radius: -2 (laplacian), +2 (inverse), -1 (grad, div, curl) *)
  Theorem C02_radius_scaling fast L R C r k (a b x : arr2) (v : vec2) c i l :
    r <> 0 -> k <> 0 ->
    laplacian L (k * r) x i l = laplacian L r x i l / (k * k) /\
    ((1 <= l < L)%nat -> lit l <> 0 -> lit l + 1 <> 0 ->
     inverse_laplacian L (k * r) x i l = inverse_laplacian L r x i l * (k * k)) /\
    fst (cos_lat_grad fast L R C (k * r) a b c x) i l = fst (cos_lat_grad fast L R C r a b c x) i l / k /\
    snd (cos_lat_grad fast L R C (k * r) a b c x) i l = snd (cos_lat_grad fast L R C r a b c x) i l / k /\
    div_cos_lat fast L R C (k * r) a b c v i l = div_cos_lat fast L R C r a b c v i l / k /\
    curl_cos_lat fast L R C (k * r) a b c v i l = curl_cos_lat fast L R C r a b c v i l / k.
  Proof. exact (radius_scaling fast L R C r k a b x v c i l). Qed.

  (** d_dlon commutes with the latitude operators (weights of the cos and sin rows agree: H_pair_sym) *)
  Theorem C02_dlon_commutes fast L R C (a b x : arr2) i l :
    layout_ok fast R -> (i < R)%nat -> (l < C)%nat -> sym_rows fast R a -> sym_rows fast R b ->
    d_dlon fast R (D1 L C a b x) i l = D1 L C a b (d_dlon fast R x) i l /\
    d_dlon fast R (D2 L C a b x) i l = D2 L C a b (d_dlon fast R x) i l /\
    d_dlon fast R (Mmu C a b x) i l = Mmu C a b (d_dlon fast R x) i l.
  Proof. exact (dlon_commutes fast L R C a b x i l). Qed.

  (** div (k x v) = - curl v,  curl (k x v) = div v   (purely algebraic) *)
  Theorem C02_div_kcross fast L R C r (a b : arr2) c (v : vec2) i l :
    r <> 0 -> (i < R)%nat -> (l < C)%nat ->
    div_cos_lat fast L R C r a b c (k_cross v) i l = - curl_cos_lat fast L R C r a b c v i l.
  Proof. exact (div_kcross fast L R C r a b c v i l). Qed.
  Theorem C02_curl_kcross fast L R C r (a b : arr2) c (v : vec2) i l :
    r <> 0 -> (i < R)%nat -> (l < C)%nat ->
    curl_cos_lat fast L R C r a b c (k_cross v) i l = div_cos_lat fast L R C r a b c v i l.
  Proof. exact (curl_kcross fast L R C r a b c v i l). Qed.

  (** without the sec^2 factor curl(grad) is 2 M_mu d_dlon / r^2 and
      div(grad) is (d_dlon^2 + D1 D1 - 2 M_mu D1)/r^2 *)
  Theorem C02_curl_grad_spectral fast L R C r (a b x : arr2) i l :
    r <> 0 -> layout_ok fast R -> (i < R)%nat -> (l < C)%nat -> sym_rows fast R a -> sym_rows fast R b ->
    curl_cos_lat fast L R C r a b false (cos_lat_grad fast L R C r a b false x) i l
    = (1 + 1) * Mmu C a b (d_dlon fast R x) i l / (r * r).
  Proof. exact (curl_grad_spectral fast L R C r a b x i l). Qed.
  Theorem C02_div_grad_spectral fast L R C r (a b x : arr2) i l :
    r <> 0 -> (i < R)%nat -> (l < C)%nat ->
    div_cos_lat fast L R C r a b false (cos_lat_grad fast L R C r a b false x) i l
    = (d_dlon fast R (d_dlon fast R x) i l + D1 L C a b (D1 L C a b x) i l
       - (1 + 1) * Mmu C a b (D1 L C a b x) i l) / (r * r).
  Proof. exact (div_grad_spectral fast L R C r a b x i l). Qed.

  (** curl grad = 0, div (k x grad) = 0, div grad = Laplacian through the nodal sec^2 step [S],
      from the two hypotheses H_sec2 (table obligations; [S] itself is not modelled) *)
  Theorem C02_vecid_sec2 fast L R C r (a b : arr2) (S : arr2 -> arr2) (psi : arr2) i l :
    r <> 0 -> (i < R)%nat -> (l < C)%nat ->
    let g := cos_lat_grad fast L R C r a b true psi in
    let sg := (S (fst g), S (snd g)) in
    d_dlon fast R (S (snd g)) i l = D2 L C a b (S (fst g)) i l ->
    d_dlon fast R (S (fst g)) i l + D2 L C a b (S (snd g)) i l = r * laplacian L r psi i l ->
    curl_cos_lat fast L R C r a b true sg i l = 0 /\
    div_cos_lat fast L R C r a b true (k_cross sg) i l = 0 /\
    div_cos_lat fast L R C r a b true sg i l = clip L C 1 (laplacian L r psi) i l.
  Proof. exact (vecid_sec2 fast L R C r a b S psi i l). Qed.

  (** which coefficient the default clip removes: for a field of degree L-2 the coefficient L-1 of
      cos(lat) d/dlat is -(L-2) b[L-2] x[L-2] / r (correct and in general non-zero) but
      cos_lat_grad(clip=True) returns 0 there; all lower coefficients are untouched.  This is why
      identities through the default-clip path need the top TWO wavenumbers of the input to vanish. *)
  Theorem C02_grad_top_clipped fast L R C r (a b x : arr2) i :
    r <> 0 -> (2 <= L <= C)%nat -> ((L < C)%nat -> x i L = 0) ->
    snd (cos_lat_grad fast L R C r a b true x) i (L - 1)%nat = 0 /\
    snd (cos_lat_grad fast L R C r a b false x) i (L - 1)%nat
    = - lit (L - 2) * b i (L - 2)%nat * x i (L - 2)%nat / r /\
    (forall l, (l + 1 < L)%nat ->
       snd (cos_lat_grad fast L R C r a b true x) i l = snd (cos_lat_grad fast L R C r a b false x) i l).
  Proof. exact (grad_top_clipped fast L R C r a b x i). Qed.
End C02.

(** Over the reals the characteristic-0 side conditions hold. *)
Lemma lit_INR n : @lit R ROps n = INR n.
Proof. induction n as [|n IH]; [reflexivity|]. cbn [lit]. rewrite IH, S_INR. reflexivity. Qed.

Theorem C02_cos2_laplacian_identity_R L C (a b x : nat -> nat -> R) r i l mn :
  r <> 0%R -> (L <= C)%nat -> (l + 2 < L)%nat -> (mn <= l)%nat ->
  b i l = a i (S l) -> ((1 <= l)%nat -> b i (l - 1)%nat = a i l) ->
  (a i (S l) * a i (S l))%R = a2_expr 1 (lit (S l)) (lit mn) ->
  ((1 <= l)%nat -> (a i l * a i l)%R = a2_expr 1 (lit l) (lit mn)) ->
  (D1 L C a b (D1 L C a b x) i l - INR mn * INR mn * x i l)%R
  = (laplacian L r x i l * (r * r)
     - Mmu C a b (Mmu C a b (fun i l => laplacian L r x i l * (r * r))) i l)%R.
Proof.
  intros Hr HLC Hl Hm Hb0 Hb1 Ha1 Ha0.
  rewrite <- (lit_INR mn).
  refine (@cos2_laplacian_identity R ROps RFieldC L C a b x r i l mn Hr HLC Hl Hm Hb0 Hb1 Ha1 Ha0 _ _ _).
  - cbn [lit]. rewrite !lit_INR. pose proof (pos_INR l) as P. cbn [fadd fmul fsub f0 f1 ROps]. nra.
  - cbn [lit]. rewrite !lit_INR. cbn [fadd fmul fsub f0 f1 ROps].
    destruct l as [|l']; [cbn; lra|]. rewrite S_INR. pose proof (pos_INR l'). nra.
  - rewrite !lit_INR. pose proof (pos_INR l). cbn [fadd fmul fsub f0 f1 ROps]. lra.
Qed.

(** Non-vacuity (Qc): radius 7/3, l = 2 < L = 5 meets the hypotheses of [C02_lap_inverse]; a weight
    table depending on |m| only meets [sym_rows] in both layouts; the shapes meet [layout_ok]. *)
Example C02_hyps_satisfiable :
  let r : Qc := Q2Qc (7 # 3) in
  let w : nat -> nat -> Qc := fun i l => Q2Qc (inject_Z (Z.of_nat (l + 1))) in
  r <> 0 /\ @lit Qc QcOps 2 <> 0 /\ @lit Qc QcOps 2 + 1 <> 0 /\
  layout_ok false 7 /\ layout_ok true 8 /\ sym_rows false 7 w /\ sym_rows true 8 w /\
  laplacian 5 r (inverse_laplacian 5 r w) 3%nat 2%nat = w 3%nat 2%nat.
Proof.
  cbv zeta. split; [|split; [|split; [|split; [|split; [|split; [|split]]]]]].
  - intro H; discriminate H.
  - intro H; vm_compute in H; discriminate H.
  - intro H; vm_compute in H; discriminate H.
  - reflexivity.
  - reflexivity.
  - intros i l _ _. reflexivity.
  - intros i l _ _. reflexivity.
  - apply Qc_is_canon. vm_compute. reflexivity.
Qed.

(** Non-vacuity (R): square-root tables meet H_eps2 / H_b_shift of the cos^2 identity at
    L = C = 5, l = 1, m = 1, and the identity's conclusion follows for every x. *)
Example C02_cos2_hyps_satisfiable_R :
  exists a b : nat -> nat -> R,
    (b 0 1 = a 0 2)%nat /\ (b 0 0 = a 0 1)%nat /\
    (a 0%nat 2%nat * a 0%nat 2%nat)%R = a2_expr 1 (lit 2) (lit 1) /\
    (a 0%nat 1%nat * a 0%nat 1%nat)%R = a2_expr 1 (lit 1) (lit 1) /\
    a 0%nat 2%nat <> 0%R /\
    forall x : nat -> nat -> R,
      (D1 5 5 a b (D1 5 5 a b x) 0%nat 1%nat - INR 1 * INR 1 * x 0%nat 1%nat)%R
      = (laplacian 5 1%R x 0%nat 1%nat * (1 * 1)
         - Mmu 5 a b (Mmu 5 a b (fun i l => laplacian 5 1%R x i l * (1 * 1))) 0%nat 1%nat)%R.
Proof.
  set (a := fun (i l : nat) => sqrt (@a2_expr R ROps 1 (lit l) (lit 1))).
  exists a, (fun i l => a i (S l)).
  assert (E2 : @a2_expr R ROps (@f1 R ROps) (lit 2) (lit 1) = (1 / 5)%R) by (unfold a2_expr; cbn; field).
  assert (E1 : @a2_expr R ROps (@f1 R ROps) (lit 1) (lit 1) = 0%R) by (unfold a2_expr; cbn; field).
  assert (P2 : (0 < @a2_expr R ROps (@f1 R ROps) (lit 2) (lit 1))%R) by (rewrite E2; lra).
  assert (P1 : (0 <= @a2_expr R ROps (@f1 R ROps) (lit 1) (lit 1))%R) by (rewrite E1; lra).
  assert (A2 : (a 0%nat 2%nat * a 0%nat 2%nat)%R = a2_expr 1 (lit 2) (lit 1)).
  { unfold a. apply sqrt_sqrt. lra. }
  assert (A1 : (a 0%nat 1%nat * a 0%nat 1%nat)%R = a2_expr 1 (lit 1) (lit 1)).
  { unfold a. apply sqrt_sqrt. exact P1. }
  repeat split; try reflexivity; try assumption.
  - unfold a. intro H. apply sqrt_eq_0 in H; lra.
  - intros x. apply (C02_cos2_laplacian_identity_R 5 5 a (fun i l => a i (S l)) x 1%R 0 1 1); try lia; try assumption.
    + lra.
    + reflexivity.
    + intros _. reflexivity.
    + intros _. exact A1.
Qed.

(** the analytic-derivative relation of the Legendre basis functions, from the recurrence of
    associated_legendre.py (Thm/LegendrePoly.v, section DerivRel): for the coefficient lists
    q_{m,l} = leg_q sq m l of the code's recurrence and their formal derivative,
      (1 - x^2) q_{m,l}' - m x q_{m,l} = (l+1) eps(m,l) q_{m,l-1} - l eps(m,l+1) q_{m,l+1},
    the relation that Grid.cos_lat_d_dlat implements with the weights d1_wm = (l+1) a, d1_wp = -l b.
    Abstract form: the relation for ANY value sequences Q k, dQ k that satisfy the normalised
    three-term recurrence and its formal derivative (product rule), for every field, every order m
    (field value M), every point t and every degree l = m + k; together with the identity
    1 + (2l-1) eps_l^2 = (2l+3) eps_{l+1}^2 of the closed form a2_expr (Gen/DerivExprs.v) it uses.
    The instantiation with the code's coefficient lists is C02_legendre_derivative_relation below; a Qc
    instance of these hypotheses (M = 1/2 makes eps = 1/2 rational) is C02_legendre_derivative_nonvacuous. *)
Theorem C02_legendre_derivative_relation_abstract {F : Type} {o : Ops F} {Fc : FieldC o}
  (t M : F) (Q dQ e Lf : nat -> F) :
  Lf 0%nat = M -> (forall k, Lf (S k) = Lf k + 1) ->
  e 0%nat = 0 -> (forall k, e (S k) <> 0) ->
  e 1%nat * Q 1%nat = t * Q 0%nat ->
  (forall k, e (S (S k)) * Q (S (S k)) = t * Q (S k) - e (S k) * Q k) ->
  dQ 0%nat = 0 ->
  e 1%nat * dQ 1%nat = Q 0%nat + t * dQ 0%nat ->
  (forall k, e (S (S k)) * dQ (S (S k)) = Q (S k) + t * dQ (S k) - e (S k) * dQ k) ->
  (forall k, 1 + ((1 + 1) * Lf k - 1) * (e k * e k) = ((1 + 1) * Lf k + 1 + 1 + 1) * (e (S k) * e (S k))) ->
  (forall k, (1 - t * t) * dQ k - M * t * Q k
             = (Lf k + 1) * (e k * (match k with O => 0 | S k' => Q k' end)) - Lf k * (e (S k) * Q (S k)))
  /\ (forall l m : F, lit 4 * (l * l) - 1 <> 0 -> lit 4 * ((l + 1) * (l + 1)) - 1 <> 0 ->
        1 + ((1 + 1) * l - 1) * a2_expr 1 l m = ((1 + 1) * l + 1 + 1 + 1) * a2_expr 1 (l + 1) m).
Proof.
  intros H1 H2 H3 H4 H5 H6 H7 H8 H9 H10. split; [|exact eps2_key].
  apply (deriv_relation_abstract t M Q dQ e Lf H1 H2 H3 H4); [| exact H7 | | exact H10].
  - exact (prev_rec e (fun k => e (S k) * Q (S k)) (fun k => t * Q k) Q H3 H5 H6).
  - exact (prev_rec e (fun k => e (S k) * dQ (S k)) (fun k => Q k + t * dQ k) dQ H3 H8 H9).
Qed.

(** the relation for the recurrence of associated_legendre.py: Q k, dQ k are the coefficient
    lists leg_q sq m (m+k) (built by the generated leg_step) and their formal derivative (Leibniz rule
    proved in Thm/LegendrePoly.v).  With P[m,i,l] = evaluate(n_m, n_l, x)[m,i,l] = y_i^m q_{m,l}(x_i),
    the quantity y_i^m ((1 - x^2) q' - m x q)(x_i) = value at node i of (1 - x^2) d/dx (y^m q) (when
    y^2 = 1 - x^2) is the d1_wm / d1_wp weighted combination of the neighbouring table entries with
    a = eps(m,l), b = eps(m,l+1): exactly what Grid.cos_lat_d_dlat applies (transposed) to spectra.
    Hypotheses on sq = np.sqrt: squares to the b-radicands; 0 on the zero radicand; a_k b_{k+1} = 1
    (the radicands are reciprocal: C01_legendre_radicands); 4 l^2 - 1 <> 0 in F. *)
Theorem C02_legendre_derivative_relation {F : Type} {o : Ops F} {Fc : FieldC o}
  (sq : F -> F) nx (x y : nat -> F) n_m n_l m i k :
  (forall j, leg_eb sq m (S j) * leg_eb sq m (S j) = rad_b (llit m) (llit (S j))) ->
  leg_eb sq m 1 = 0 ->
  (forall j, leg_ea sq m (S j) * leg_eb sq m (S (S j)) = 1) ->
  (forall j, lit 4 * (llit (m + j)%nat * llit (m + j)%nat) - 1 <> 0) ->
  (n_m <= n_l)%nat -> (i < nx)%nat -> (m < n_m)%nat -> (m + k + 1 < n_l)%nat ->
  lpow (y i) m * peval (leg_Dm m (leg_q sq m (m + k)%nat)) (x i)
  = d1_wm (lit (m + k)%nat) (leg_eps sq m (m + k)%nat)
      * (match k with O => 0 | S k' => legendre_evaluate sq nx x y n_m n_l m i (m + k')%nat end)
    + d1_wp (lit (m + k)%nat) (leg_eps sq m (m + k + 1)%nat) * legendre_evaluate sq nx x y n_m n_l m i (m + k + 1)%nat.
Proof. exact (legendre_derivative_relation sq nx x y n_m n_l m i k). Qed.

(** what leg_Dm evaluates to, and the squares of the eps used are the a/b tables' closed forms *)
Theorem C02_legendre_derivative_meaning {F : Type} {o : Ops F} {Fc : FieldC o} (sq : F -> F) (m : nat) (q : list F) (t : F) :
  peval (leg_Dm m q) t = (1 - t * t) * peval (pderiv q) t - llit m * t * peval q t /\
  (forall p r : list F, peval (pderiv (pmul p r)) t = peval (pderiv p) t * peval r t + peval p t * peval (pderiv r) t) /\
  (forall k, leg_eb sq m (S k) * leg_eb sq m (S k) = rad_b (llit m) (llit (S k)) ->
             leg_eps sq m (m + k)%nat * leg_eps sq m (m + k)%nat = a2_expr 1 (llit (m + k)%nat) (llit m)).
Proof.
  split; [exact (peval_leg_Dm m t q)|]. split; [intros; apply pderiv_pmul|].
  intros k H. rewrite leg_eps_mk, H, rad_b_eps2, (llit_mk m k). reflexivity.
Qed.

(** non-vacuity of the hypotheses of the abstract relation: in any field with 1 + 1 <> 0 (then over
    Qc), M = 1/2 gives eps(M, M+k) = 1/2 for k >= 1; Q, dQ generated by the recurrences from Q_0 = 1 *)
Definition deriv_hyps {F : Type} {o : Ops F} (t M : F) (Q dQ e Lf : nat -> F) : Prop :=
  Lf 0%nat = M /\ (forall k, Lf (S k) = Lf k + 1) /\ e 0%nat = 0 /\ (forall k, e (S k) <> 0) /\
  e 1%nat * Q 1%nat = t * Q 0%nat /\
  (forall k, e (S (S k)) * Q (S (S k)) = t * Q (S k) - e (S k) * Q k) /\
  dQ 0%nat = 0 /\
  e 1%nat * dQ 1%nat = Q 0%nat + t * dQ 0%nat /\
  (forall k, e (S (S k)) * dQ (S (S k)) = Q (S k) + t * dQ (S k) - e (S k) * dQ k) /\
  (forall k, 1 + ((1 + 1) * Lf k - 1) * (e k * e k) = ((1 + 1) * Lf k + 1 + 1 + 1) * (e (S k) * e (S k))).

Section C02_deriv_example.
  Context {F : Type} {o : Ops F} {Fc : FieldC o}.
  Add Field FFex : (field_c : FieldTh o).
  Hypothesis H2 : (1 + 1 : F) <> 0.
  Definition exh : F := 1 / (1 + 1).
  Definition exE (k : nat) : F := match k with O => 0 | S _ => exh end.
  Definition exL (k : nat) : F := exh + llit k.
  Fixpoint exQ (t : F) (k : nat) : (F * F) * (F * F) :=
    match k with
    | O => ((1, (1 + 1) * t), (0, 1 + 1))
    | S k' => let s := exQ t k' in
              ((snd (fst s), (1 + 1) * (t * snd (fst s) - exE (S k') * fst (fst s))),
               (snd (snd s), (1 + 1) * (snd (fst s) + t * snd (snd s) - exE (S k') * fst (snd s))))
    end.
  Definition exQ0 t k : F := fst (fst (exQ t k)).
  Definition exD0 t k : F := fst (snd (exQ t k)).

  Lemma exh_nz : exh <> 0.
  Proof.
    intro E. apply (F_1_neq_0 (field_c : FieldTh o)).
    transitivity ((1 + 1) * exh); [unfold exh; field; exact H2|]. rewrite E. ring.
  Qed.

  Lemma C02_deriv_example_hyps t : deriv_hyps t exh (exQ0 t) (exD0 t) exE exL.
  Proof.
    unfold deriv_hyps.
    split. { unfold exL. cbn [llit]. ring. }
    split. { intros k. unfold exL. cbn [llit]. ring. }
    split. { reflexivity. }
    split. { intros k. exact exh_nz. }
    split. { unfold exQ0. cbn [exQ exE fst snd]. unfold exh. field. exact H2. }
    split. { intros k. unfold exQ0. cbn [exQ exE fst snd]. generalize (exQ t k). intros s. unfold exh. field. exact H2. }
    split. { reflexivity. }
    split. { unfold exQ0, exD0. cbn [exQ exE fst snd]. unfold exh. field. exact H2. }
    split. { intros k. unfold exQ0, exD0. cbn [exQ exE fst snd]. generalize (exQ t k). intros s. unfold exh. field. exact H2. }
    intros [|k]; unfold exL; cbn [exE llit]; unfold exh; field; exact H2.
  Qed.
End C02_deriv_example.

Example C02_legendre_derivative_nonvacuous :
  let t : Qc := Q2Qc (1#3) in
  deriv_hyps (o := QcOps) t exh (exQ0 t) (exD0 t) exE exL /\
  (* the sequences are not trivial, and the conclusion holds on them: Q_2(1/3) = 4/9 - 1, dQ_2(1/3) = 8/3 *)
  exQ0 t 2%nat = Q2Qc (-5#9) /\ exD0 t 2%nat = Q2Qc (8#3) /\
  (1 - t * t) * exD0 t 2%nat - exh * t * exQ0 t 2%nat
  = (exL 2%nat + 1) * (exE 2%nat * exQ0 t 1%nat) - exL 2%nat * (exE 3%nat * exQ0 t 3%nat).
Proof.
  intros t. split.
  { apply (C02_deriv_example_hyps (o := QcOps)). intro H. discriminate H. }
  split. { apply Qc_is_canon; vm_compute; reflexivity. }
  split. { apply Qc_is_canon; vm_compute; reflexivity. }
  apply Qc_is_canon; vm_compute; reflexivity.
Qed.

Print Assumptions C02_gen_complete.
Print Assumptions C02_shift_down.
Print Assumptions C02_shift_up.
Print Assumptions C02_dlon_pairs_ref.
Print Assumptions C02_dlon_pairs_fast.
Print Assumptions C02_dlon_twice_ref.
Print Assumptions C02_dlon_twice_fast.
Print Assumptions C02_dlon_index_is_wavenumber.
Print Assumptions C02_D1_entries.
Print Assumptions C02_D2_eq_D1_minus_2mu.
Print Assumptions C02_weight_exprs.
Print Assumptions C02_cos2_laplacian_identity.
Print Assumptions C02_cos2_laplacian_identity_R.
Print Assumptions C02_lap_inverse.
Print Assumptions C02_inverse_laplacian_zero.
Print Assumptions C02_radius_scaling.
Print Assumptions C02_dlon_commutes.
Print Assumptions C02_div_kcross.
Print Assumptions C02_curl_kcross.
Print Assumptions C02_curl_grad_spectral.
Print Assumptions C02_div_grad_spectral.
Print Assumptions C02_vecid_sec2.
Print Assumptions C02_grad_top_clipped.
Print Assumptions C02_hyps_satisfiable.
Print Assumptions C02_cos2_hyps_satisfiable_R.
Print Assumptions C02_legendre_derivative_relation_abstract.
Print Assumptions C02_legendre_derivative_relation.
Print Assumptions C02_legendre_derivative_meaning.
Print Assumptions C02_legendre_derivative_nonvacuous.
