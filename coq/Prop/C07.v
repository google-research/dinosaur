(** Property C07 - sharded (model-parallel) execution equals single-device
    execution; the proofs are in Thm/Sharding.v.  Every theorem
    is for an arbitrary field [F] (hence the reals), an arbitrary ring size
    [n] (1 or ANY even number, not only <= 8 devices), arbitrary chunk sizes
    and arbitrary data.

    Not modelled (exercised by the correspondence on <= 8 devices): that XLA's
    collectives implement rotation / concatenation as in Model/Sharding.v and
    that [shard_map] partitions as the specs say. *)
From Dino Require Import Base.Ops Base.Sums Base.Inst Model.Sigma Model.Sharding Thm.Sharding Gen.ShardingSrc Thm.ShardingSrc.
From Coq Require Import Qcanon.
Local Open Scope F_scope.

Section C07.
  Context {F : Type} {o : Ops F} {Fc : FieldC o}.

  (** [_allgather_matmul_twoway]: every device d obtains, for each of its rows a,
      the full contraction over the reduced axis of length n*c with the
      concatenation of all shards (both argument orders). *)
  Theorem C07_allgather_twoway_correct n c rev (lhs : nat -> nat -> nat -> F) (rhs : nat -> nat -> F) :
    (n = 1 \/ (0 < n /\ n mod 2 = 0))%nat ->
    exists out, allgather_matmul_twoway n c rev lhs rhs = Some out /\
      forall d a, (d < n)%nat ->
        out d a = sumn (n * c) (fun j => lhs d a j * all_gather_tiled c rhs j).
  Proof. exact (allgather_twoway_correct n c rev lhs rhs). Qed.

  (** [_matmul_reducescatter_twoway]: device d ends with rows [d*c, (d+1)*c) of
      the full product, summed over the reduced-axis blocks of ALL devices. *)
  Theorem C07_reducescatter_twoway_correct n c cj rev (lhs : nat -> nat -> nat -> F) (rhs : nat -> nat -> F) :
    (n = 1 \/ (0 < n /\ n mod 2 = 0))%nat ->
    exists out, matmul_reducescatter_twoway n c cj rev lhs rhs = Some out /\
      forall d a, (d < n)%nat ->
        out d a = sumn (n * cj) (fun g => all_gather_tiled cj (fun e j => lhs e (d * c + a)%nat j) g
                                          * all_gather_tiled cj rhs g).
  Proof. exact (reducescatter_twoway_correct n c cj rev lhs rhs). Qed.

  (** odd mesh sizes > 1 are rejected ('axis_size must be 1 or even') *)
  Theorem C07_odd_mesh_rejected n c cj rev (lhs : nat -> nat -> nat -> F) (rhs : nat -> nat -> F) :
    (1 < n)%nat -> (n mod 2 = 1)%nat ->
    allgather_matmul_twoway n c rev lhs rhs = None /\
    matmul_reducescatter_twoway n c cj rev lhs rhs = None.
  Proof.
    intros H1 H2. split; [exact (allgather_odd_rejected n c rev lhs rhs H1 H2)
                         |exact (reducescatter_odd_rejected n c cj rev lhs rhs H1 H2)].
  Qed.

  (** [_parallel_dot_cumsum] (forward and reverse), per device, against the
      masked-matmul cumsum of the concatenated data ... *)
  Theorem C07_parallel_cumsum_per_device n c (x : nat -> nat -> F) d j :
    (d < n)%nat -> (j < c)%nat ->
    parallel_dot_cumsum n c false x d j = cumsum_dot (n * c) (all_gather_tiled c x) (d * c + j) /\
    parallel_dot_cumsum n c true x d j = revcumsum_dot (n * c) (all_gather_tiled c x) (d * c + j).
  Proof.
    intros Hd Hj. split; [exact (parallel_cumsum_rv false n c x d j Hd Hj)|exact (parallel_cumsum_rv true n c x d j Hd Hj)].
  Qed.

  (** ... and [_dot_cumsum] as a whole: sharded = unsharded = sequential prefix
      (suffix) sum, for every number of devices n >= 1 and shard length c. *)
  Theorem C07_parallel_cumsum_correct n c (X : nat -> F) g :
    (0 < c)%nat -> (g < n * c)%nat ->
    (forall rv, dot_cumsum true rv n c X g = dot_cumsum false rv n c X g) /\
    dot_cumsum true false n c X g = cumsum_seq X g /\
    dot_cumsum true true n c X g = revcumsum_seq (n * c) X g.
  Proof. exact (parallel_cumsum_correct n c X g). Qed.

  (** [_unstack_m]/[_stack_m] under shard_map = global reshape when the shard
      length is even; stack inverts unstack *)
  Theorem C07_stack_unstack_sharded Z nx Kh (X : nat -> nat -> nat -> F) (Y : nat -> nat -> nat -> nat -> F) :
    (0 < Kh)%nat ->
    (forall z s kg l, (z < Z)%nat -> (s < 2)%nat -> (kg < nx * Kh)%nat ->
       unstack_m_sharded Z (2 * Kh) X z s kg l = unstack_m Z (nx * (2 * Kh)) X z s kg l) /\
    (forall z mg l, (z < Z)%nat -> (mg < nx * (2 * Kh))%nat ->
       stack_m_sharded Z Kh Y z mg l = stack_m Z (nx * Kh) Y z mg l) /\
    (forall z m l, (z < Z)%nat -> (m < 2 * Kh)%nat ->
       stack_m Z Kh (unstack_m Z (2 * Kh) X) z m l = X z m l).
  Proof.
    intros HK. repeat split.
    - intros z s kg l. exact (unstack_sharded_eq_global Z nx Kh X z s kg l).
    - intros z mg l Hz. exact (stack_sharded_eq_global Z nx Kh Y z mg l Hz HK).
    - intros z m l. exact (stack_unstack_id Z Kh X z m l).
  Qed.

  (** frequency-offset longitude derivative: per-shard = global *)
  Theorem C07_sharded_dlon_correct nx Kh (X : nat -> F) g :
    (0 < Kh)%nat -> (g < nx * (2 * Kh))%nat ->
    dlon_sharded (2 * Kh) X g = dlon_global (nx * (2 * Kh)) X g.
  Proof. exact (sharded_dlon_eq_global nx Kh X g). Qed.
End C07.

(** the divisibility [modal_shape] / [nodal_shape] guarantee, for every base
    multiple, every number of shards and every resolution: the padded modal
    x-extent splits into [xs] shards of even length and the padding is minimal *)
Theorem C07_modal_shape_divisible lw base xs :
  (0 < base)%nat -> (0 < xs)%nat ->
  let M := modal_shape_x lw base xs in
  (exists q, M = (xs * (2 * q))%nat /\ (M / xs = 2 * q)%nat) /\
  (2 * lw <= M)%nat /\ (M < 2 * lw + 2 * base * xs)%nat.
Proof. exact (modal_shape_x_divisible lw base xs). Qed.

Theorem C07_shapes_divisible n base s :
  (0 < base)%nat -> (0 < s)%nat ->
  let N := round_to_multiple n (base * s) in
  (exists q, N = (s * q)%nat) /\ (n <= N)%nat /\ (N < n + base * s)%nat.
Proof. exact (shapes_divisible n base s). Qed.

(** crop o pad = id, the padded level count is a multiple of the z-mesh size,
    and the wrapper commutes with every level-wise map (levels are any payload) *)
Theorem C07_vertical_pad_crop {T : Type} (zero : T) K zs (phi : nat -> T -> T)
        (f : nat -> (nat -> T) -> nat -> T) (x : nat -> T) :
  (0 < zs)%nat ->
  (forall Kp y k, f Kp y k = phi k (y k)) ->
  let r := with_vertical_padding zero K zs f x in
  fst r = K /\ (exists q, (K + vertical_padding K zs = zs * q)%nat) /\
  (vertical_padding K zs < zs)%nat /\
  forall k, (k < K)%nat -> snd r k = phi k (x k).
Proof. exact (vertical_pad_crop_levelwise zero K zs phi f x). Qed.

(** the reduce / transfer subscripts picked by [sharded_einsum] are subscripts of
    [lhs] with the required roles, and they differ *)
Theorem C07_einsum_subscripts_sound lhs rhs out rspec ospec s t :
  determine_reduce_subscript lhs rhs out rspec = Some s ->
  determine_transfer_subscript lhs rhs out ospec = Some t ->
  (In s lhs /\ sub_in s out = false /\ sub_in s rhs = true /\ is_some (spec_at rspec (sub_index s rhs)) = true) /\
  (In t lhs /\ sub_in t rhs = false /\ sub_in t out = true /\ is_some (spec_at ospec (sub_index t out)) = true) /\
  s <> t.
Proof.
  intros Hs Ht.
  destruct (reduce_subscript_sound _ _ _ _ _ Hs) as (A1 & A2 & A3 & A4 & _).
  destruct (transfer_subscript_sound _ _ _ _ _ Ht) as (B1 & B2 & B3 & B4 & _).
  repeat split; auto. intros ->. congruence.
Qed.

(** The model is the source: the index expressions, operand offsets, ring
    permutations, loop bounds, guards, comparison operators and index ranges that
    tools/translate/gen_sharding.py regenerates from dinosaur/jax_numpy_utils.py
    on every run (Gen/ShardingSrc.v) coincide with those of Model/Sharding.v for
    every axis size (so a source change that only shows on more than 8 devices
    still breaks this theorem). *)
Theorem C07_allgather_matches_source :
  src_complete = true /\
  (forall n, Nat.eqb n 1 = src_ag_trivial (Z.of_nat n) /\ Nat.eqb (n mod 2) 1 = src_ag_reject (Z.of_nat n)) /\
  (forall n d i, ag_chunk_index n d i = Z.to_nat (src_ag_chunk_index (Z.of_nat n) (Z.of_nat d) i)) /\
  (forall q c j : nat, Z.of_nat (q * c + j) = (src_ag_slice_start (Z.of_nat q) (Z.of_nat c) + Z.of_nat j)%Z) /\
  (forall i : Z, src_ag_fwd_arg i = (- i)%Z /\ src_ag_bwd_arg i = (i + 1)%Z) /\
  (forall n j, perm_fwd n j = Z.to_nat (src_ag_perm_fwd (Z.of_nat n) (Z.of_nat j)) /\
               perm_bwd n j = Z.to_nat (src_ag_perm_bwd (Z.of_nat n) (Z.of_nat j))) /\
  src_ag_init_arg = 0%Z /\
  (forall n, Z.of_nat 1 = src_ag_loop_lo (Z.of_nat n) /\ Z.of_nat (n / 2) = src_ag_loop_hi (Z.of_nat n)).
Proof. exact allgather_matches_source. Qed.

Theorem C07_reducescatter_matches_source :
  src_complete = true /\
  (forall n, Nat.eqb n 1 = src_rs_trivial (Z.of_nat n) /\ Nat.eqb (n mod 2) 1 = src_rs_reject (Z.of_nat n)) /\
  (forall n d i, rs_chunk_index n d i = Z.to_nat (src_rs_chunk_index (Z.of_nat n) (Z.of_nat d) i)) /\
  (forall q c j : nat, Z.of_nat (q * c + j) = (src_rs_slice_start (Z.of_nat q) (Z.of_nat c) + Z.of_nat j)%Z) /\
  (forall i : Z, src_rs_fwd_arg i = (- i)%Z /\ src_rs_bwd_arg i = (i + 1)%Z) /\
  (forall n j, perm_fwd n j = Z.to_nat (src_rs_perm_fwd (Z.of_nat n) (Z.of_nat j)) /\
               perm_bwd n j = Z.to_nat (src_rs_perm_bwd (Z.of_nat n) (Z.of_nat j))) /\
  (src_rs_init_fwd_arg = 0%Z /\ src_rs_init_bwd_arg = 1%Z) /\
  (forall n, Z.of_nat 1 = src_rs_loop_lo (Z.of_nat n) /\ Z.of_nat (n / 2) = src_rs_loop_hi (Z.of_nat n)).
Proof. exact reducescatter_matches_source. Qed.

Theorem C07_cumsum_matches_source :
  src_complete = true /\
  (forall rv i d, pc_op rv i d = src_pc_op rv (Z.of_nat i) (Z.of_nat d)) /\
  (forall rv n k, (0 < n)%nat ->
     Z.of_nat (pc_index rv k) = (src_pc_range_lo rv (Z.of_nat n) + Z.of_nat k)%Z /\
     Z.of_nat (n - 1) = (src_pc_range_hi rv (Z.of_nat n) - src_pc_range_lo rv (Z.of_nat n))%Z) /\
  (forall rv, src_pc_last_index rv = if rv then 0%Z else (-1)%Z).
Proof. exact cumsum_matches_source. Qed.

(** Non-vacuity: a concrete 4-device ring over Qc with chunk size 2 (so the
    fori_loop really iterates), non-constant data: the model produces, on
    device 3, the full inner product; and a padded-shape example (L = 9,
    base multiple 4). *)
Example C07_hyps_satisfiable :
  let lhs := fun (d a j : nat) => Q2Qc (inject_Z (Z.of_nat (1 + d + 2 * a + j * j))) in
  let rhs := fun (d j : nat) => Q2Qc (inject_Z (Z.of_nat (3 * d + j + 1))) in
  (exists out, allgather_matmul_twoway 4 2 false lhs rhs = Some out /\
               out 3%nat 1%nat = sumn 8 (fun j => lhs 3%nat 1%nat j * all_gather_tiled 2 rhs j) /\
               out 3%nat 1%nat = Q2Qc (inject_Z 1562)) /\
  (exists out, matmul_reducescatter_twoway 4 1 2 true (fun d a j => lhs d a j) rhs = Some out /\
               out 2%nat 0%nat = Q2Qc (inject_Z 368)) /\
  parallel_dot_cumsum 4 2 true rhs 1 1 = Q2Qc (inject_Z 41) /\
  modal_shape_x 9 4 2 = 32%nat /\ modal_shape_y 9 4 1 = 12%nat /\
  vertical_padding 7 4 = 1%nat.
Proof.
  cbv zeta. repeat apply conj.
  - eexists. split; [reflexivity|]. split; vm_compute; reflexivity.
  - eexists. split; [reflexivity|]. vm_compute. reflexivity.
  - vm_compute. reflexivity.
  - reflexivity.
  - reflexivity.
  - reflexivity.
Qed.

Print Assumptions C07_allgather_twoway_correct.
Print Assumptions C07_reducescatter_twoway_correct.
Print Assumptions C07_odd_mesh_rejected.
Print Assumptions C07_parallel_cumsum_per_device.
Print Assumptions C07_parallel_cumsum_correct.
Print Assumptions C07_stack_unstack_sharded.
Print Assumptions C07_sharded_dlon_correct.
Print Assumptions C07_modal_shape_divisible.
Print Assumptions C07_shapes_divisible.
Print Assumptions C07_vertical_pad_crop.
Print Assumptions C07_einsum_subscripts_sound.
Print Assumptions C07_allgather_matches_source.
Print Assumptions C07_reducescatter_matches_source.
Print Assumptions C07_cumsum_matches_source.
Print Assumptions C07_hyps_satisfiable.
