(** Property C04 - the full tendency does not depend on the reference-temperature
    split.  The general theorems are those of Thm/PrimEq.v (one column; the modal layer
    over abstract linear operators) and Thm/PrimEqFull.v (the executable whole-state
    model), stated here with the hypotheses of the property; the instances over Qc that
    meet these hypotheses, and the refutations of the two excluded cases, are proved
    here.  Every general theorem is for an arbitrary field [F] (hence the reals), an
    arbitrary number of layers K, arbitrary levels, arbitrary nodal / modal data and
    any two reference profiles [T1], [T2]; "the same atmosphere" means that the
    temperature variation is [T - T1] resp. [T - T2] for one absolute temperature [T].

    Scope notes (see also the plugin):
    - the invariance needs [include_vertical_advection = True] (the default):
      with the option off the code drops the vertical advection of T' but keeps
      that of T_ref (explicitly and inside H), which is split dependent;
    - the cloud-moist class is NOT invariant when the condensate is non-zero:
      [C04_tref_split_cloud_refuted]. *)
From Dino Require Import Base.Ops Base.Sums Base.Inst Base.Ord Model.Sigma Model.Implicit Model.PrimEq Thm.PrimEq.
From Dino Require Import Model.Filters Model.PrimEq Model.Implicit Gen.PrimEqSrc Thm.PrimEqSrc.
From Dino Require Model.SHT Model.Deriv.
From Dino Require Import Model.PrimEqFull Thm.Implicit Thm.PrimEqFull.
From Coq Require Import Reals Qcanon Lra.
Local Open Scope F_scope.

Section C04.
  Context {F : Type} {o : Ops F} {Fc : FieldC o}.
  Hypothesis two_nz : two <> 0.
  (** the boolean equality test of the carrier decides equality (np.unique branch) *)
  Hypothesis feqb_sound : forall x y : F, feqb x y = true -> x = y.
  Variable c : @PEcfg F.
  (** admissible levels: no two adjacent layers cancel (thicknesses of one sign are enough) *)
  Hypothesis th2_nz : forall k, (S k < cK c)%nat -> thickness (cb c) k + thickness (cb c) (S k) <> 0.

  (** temperature equation, nodal layer, dry / with-time classes: explicit vertical
      + adiabatic tendency plus the implicit term -H.divergence (H is a column
      operator, so it may be applied on the nodal side: [C04_column_commutes]) *)
  Theorem C04_tref_split_invariance (T1 T2 T : nat -> F) (x : NCol) n :
    (n < cK c)%nat -> (forall k, (k < cK c)%nat -> thickness (cb c) k <> 0) ->
    let c1 := with_tref c T1 in let c2 := with_tref c T2 in
    let x1 := with_temp x (fun k => T k - T1 k) in let x2 := with_temp x (fun k => T k - T2 k) in
    temp_vertical_tendency c1 true x1 n + temp_adiabatic c1 x1 n + temp_implicit_col c1 (n_div x) n
    = temp_vertical_tendency c2 true x2 n + temp_adiabatic c2 x2 n + temp_implicit_col c2 (n_div x) n.
  Proof. intros Hn _. exact (tref_split_invariance two_nz feqb_sound c th2_nz T1 T2 T x n Hn). Qed.

  (** moist classes (virtual-temperature factors; 1 + (cp_v/cp - 1) q must not vanish) *)
  Theorem C04_tref_split_invariance_moist (m : Moist) (T1 T2 T q : nat -> F) (x : NCol) n :
    (n < cK c)%nat -> (forall k, (k < cK c)%nat -> thickness (cb c) k <> 0) ->
    1 + (mCpv m / (cR c / ckappa c) - 1) * q n <> 0 ->
    let c1 := with_tref c T1 in let c2 := with_tref c T2 in
    let x1 := with_temp x (fun k => T k - T1 k) in let x2 := with_temp x (fun k => T k - T2 k) in
    temp_vertical_tendency c1 true x1 n + temp_adiabatic_moist c1 m x1 q n + temp_implicit_col c1 (n_div x) n
    = temp_vertical_tendency c2 true x2 n + temp_adiabatic_moist c2 m x2 q n + temp_implicit_col c2 (n_div x) n.
  Proof. intros Hn _ Hq. exact (tref_split_invariance_moist two_nz feqb_sound c th2_nz m T1 T2 T q x n Hn Hq). Qed.

  (** what both sides are equal to: the tendency written with the absolute temperature *)
  Theorem C04_tref_split_closed_form (Tref T : nat -> F) (x : NCol) n :
    (n < cK c)%nat ->
    let ci := with_tref c Tref in let xi := with_temp x (fun k => T k - Tref k) in
    temp_vertical_tendency ci true xi n + temp_adiabatic ci xi n + temp_implicit_col ci (n_div x) n
    = vertical_tendency c (sigma_dot_full c x) T n
      + ckappa c * (T n * (u_dot_grad x n - g_part c (g_full_adiabatic x) n)).
  Proof. intros Hn. exact (tref_split_closed two_nz feqb_sound c th2_nz Tref T x n Hn). Qed.

  (** the implicit temperature operator, entry by entry, is the advection of T_ref by the
      divergent part of sigma_dot minus kappa T_ref (omega/p)[divergence] *)
  Theorem C04_H_is_explicit_counterpart (d : nat -> F) r :
    (r < cK c)%nat ->
    temp_implicit_col c d r
    = vertical_tendency c (sigma_dot c d) (cTref c) r - ckappa c * (cTref c r * g_part c d r).
  Proof. exact (implicit_temperature_is_explicit_counterpart two_nz c th2_nz d r). Qed.

  Theorem C04_lnps_invariance (T1 T2 T : nat -> F) (x : NCol) :
    let c1 := with_tref c T1 in let c2 := with_tref c T2 in
    let x1 := with_temp x (fun k => T k - T1 k) in let x2 := with_temp x (fun k => T k - T2 k) in
    log_pressure_tendency c1 x1 + lnps_implicit_col c1 (n_div x)
    = log_pressure_tendency c2 x2 + lnps_implicit_col c2 (n_div x).
  Proof. exact (lnps_invariance c T1 T2 T x). Qed.

  (** divergence / vorticity equations, nodal layer: combined_(u,v) plus the vector
      (R T_ref + (Rv - R) T_ref q) sec2 grad(lnps) represented by the implicit term and the
      humidity corrections depends on the absolute temperature only (dry: q = 0) *)
  Theorem C04_effective_pgf_invariant (va : bool) (m : Moist) (T1 T2 T q : nat -> F) (x : NCol) k :
    cR c <> 0 ->
    let c1 := with_tref c T1 in let c2 := with_tref c T2 in
    let x1 := with_temp x (fun j => T j - T1 j) in let x2 := with_temp x (fun j => T j - T2 j) in
    effective_pgf_u c1 va m x1 (rt_moist c1 m x1 q) q k = effective_pgf_u c2 va m x2 (rt_moist c2 m x2 q) q k /\
    effective_pgf_v c1 va m x1 (rt_moist c1 m x1 q) q k = effective_pgf_v c2 va m x2 (rt_moist c2 m x2 q) q k.
  Proof. intros HR. exact (effective_pgf_invariant c HR va m T1 T2 T q x k). Qed.

  Theorem C04_effective_pgf_invariant_dry (va : bool) (m : Moist) (T1 T2 T : nat -> F) (x : NCol) k :
    let c1 := with_tref c T1 in let c2 := with_tref c T2 in
    let x1 := with_temp x (fun j => T j - T1 j) in let x2 := with_temp x (fun j => T j - T2 j) in
    let z := fun _ : nat => 0 in
    effective_pgf_u c1 va m x1 (rt_dry c1 x1) z k = effective_pgf_u c2 va m x2 (rt_dry c2 x2) z k /\
    effective_pgf_v c1 va m x1 (rt_dry c1 x1) z k = effective_pgf_v c2 va m x2 (rt_dry c2 x2) z k.
  Proof. exact (effective_pgf_invariant_dry c va m T1 T2 T x k). Qed.

  (** cloud class: the split dependence, exactly *)
  Theorem C04_effective_pgf_cloud_defect (va : bool) (m : Moist) (T1 T2 T q qc qi : nat -> F) (x : NCol) k :
    cR c <> 0 ->
    let c1 := with_tref c T1 in let c2 := with_tref c T2 in
    let x1 := with_temp x (fun j => T j - T1 j) in let x2 := with_temp x (fun j => T j - T2 j) in
    effective_pgf_u c1 va m x1 (rt_cloud c1 m x1 q qc qi) q k - effective_pgf_u c2 va m x2 (rt_cloud c2 m x2 q qc qi) q k
    = cR c * (T1 k - T2 k) * (qc k + qi k) * n_gx x * n_sec2 x.
  Proof. intros HR. exact (effective_pgf_cloud_defect c HR va m T1 T2 T q qc qi x k). Qed.

  (** when the code skips the branch, the skipped term is exactly zero *)
  Theorem C04_unique_branch_zero (w : nat -> F) n :
    (n < cK c)%nat -> tref_nonuniform c = false -> vertical_tendency c w (cTref c) n = 0.
  Proof. exact (unique_branch_zero feqb_sound c w n). Qed.
  (** hence the vertical temperature tendency is the same function whichever way the test goes *)
  Theorem C04_unique_branch_free (va : bool) (x : NCol) n :
    (n < cK c)%nat ->
    temp_vertical_tendency c va x n
    = (if va then vertical_tendency c (sigma_dot_full c x) (n_temp x) n else 0)
      + vertical_tendency c (sigma_dot_explicit c x) (cTref c) n.
  Proof. exact (temp_vertical_tendency_branch_free feqb_sound c va x n). Qed.
  (** and the test is exactly "some entry differs from the first" *)
  Theorem C04_unique_test_iff :
    (forall x : F, feqb x x = true) ->
    (tref_nonuniform c = true <-> exists k, (k < cK c)%nat /\ cTref c k <> cTref c 0%nat).
  Proof. intros Hr. exact (tref_nonuniform_iff feqb_sound c Hr). Qed.

  (** include_vertical_advection = False (outside the property): the sum keeps the advection of
      the reference profile by the full sigma_dot; invariant only for level-uniform profiles *)
  Theorem C04_no_vertical_advection_closed_form (Tref T : nat -> F) (x : NCol) n :
    (n < cK c)%nat ->
    let ci := with_tref c Tref in let xi := with_temp x (fun k => T k - Tref k) in
    temp_vertical_tendency ci false xi n + temp_adiabatic ci xi n + temp_implicit_col ci (n_div x) n
    = vertical_tendency c (sigma_dot_full c x) Tref n
      + ckappa c * (T n * (u_dot_grad x n - g_part c (g_full_adiabatic x) n)).
  Proof. intros Hn. exact (tref_split_closed_no_va two_nz feqb_sound c th2_nz Tref T x n Hn). Qed.
  Theorem C04_no_vertical_advection_uniform_invariance (T1 T2 T : nat -> F) (x : NCol) n :
    (n < cK c)%nat ->
    (forall k, (k < cK c)%nat -> T1 k = T1 0%nat) -> (forall k, (k < cK c)%nat -> T2 k = T2 0%nat) ->
    let c1 := with_tref c T1 in let c2 := with_tref c T2 in
    let x1 := with_temp x (fun k => T k - T1 k) in let x2 := with_temp x (fun k => T k - T2 k) in
    temp_vertical_tendency c1 false x1 n + temp_adiabatic c1 x1 n + temp_implicit_col c1 (n_div x) n
    = temp_vertical_tendency c2 false x2 n + temp_adiabatic c2 x2 n + temp_implicit_col c2 (n_div x) n.
  Proof. intros Hn U1 U2. exact (tref_split_invariance_no_va_uniform two_nz feqb_sound c th2_nz T1 T2 T x n Hn U1 U2). Qed.
End C04.

(** the modal layer: explicit_terms + implicit_terms over abstract linear
    horizontal operators (to_nodal, to_modal, div_cos_lat, curl_cos_lat,
    laplacian, clip_wavenumbers), with the exactness facts about the grid as
    named hypotheses (numerically re-checked per explored grid by the plugin). *)
Section C04_modal.
  Context {F : Type} {o : Ops F} {Fc : FieldC o}.
  Hypothesis two_nz : two <> 0.
  Hypothesis feqb_sound : forall x y : F, feqb x y = true -> x = y.
  Variables W P : Type.
  Variable toN : (W -> F) -> P -> F.
  Variable toM : (P -> F) -> W -> F.
  Variable divc curlc : (W -> F) -> (W -> F) -> W -> F.
  Variable lap clip : (W -> F) -> W -> F.
  Hypothesis toM_lin : Thm.PrimEq.linear toM.
  Hypothesis divc_lin : Thm.PrimEq.linear2 divc.
  Hypothesis curlc_lin : Thm.PrimEq.linear2 curlc.
  Hypothesis lap_lin : Thm.PrimEq.linear lap.
  Hypothesis clip_lin : Thm.PrimEq.linear clip.
  Variable c : @PEcfg F.
  Hypothesis th2_nz : forall k, (S k < cK c)%nat -> thickness (cb c) k + thickness (cb c) (S k) <> 0.
  Variable grav : F.
  (** the state: nodal columns, absolute nodal temperature, modal divergence, modal
      absolute temperature, modal lnps, modal coefficients of the constant one, orography *)
  Variable X : P -> @NCol F.
  Variable T : nat -> P -> F.
  Variable dv Tm : nat -> W -> F.
  Variable lnps onem orog : W -> F.
  Hypothesis div_nodal : forall p k, n_div (X p) k = toN (dv k) p.
  (** admissible state: divergence survives to_nodal -> to_modal -> clip; the velocity has that divergence *)
  Hypothesis H_roundtrip : forall s w, clip (toM (toN (dv s))) w = dv s w.
  Hypothesis H_div_vel : forall r w,
      clip (divc (toM (fun p => n_u (X p) r * n_sec2 (X p))) (toM (fun p => n_v (X p) r * n_sec2 (X p)))) w
      = clip (toM (fun p => n_div (X p) r)) w.
  (** div(sec2 grad lnps) = laplacian lnps, curl(sec2 grad lnps) = 0, laplacian(const) = 0 *)
  Hypothesis H_div_grad : forall w,
      clip (divc (toM (fun p => n_gx (X p) * n_sec2 (X p))) (toM (fun p => n_gy (X p) * n_sec2 (X p)))) w = lap lnps w.
  Hypothesis H_curl_grad : forall w,
      clip (curlc (toM (fun p => n_gx (X p) * n_sec2 (X p))) (toM (fun p => n_gy (X p) * n_sec2 (X p)))) w = 0.
  Hypothesis lap_const : forall w, lap onem w = 0.

  (** a column operator commutes with a linear horizontal operator acting level by level *)
  Theorem C04_column_commutes {A B} (L : (A -> F) -> B -> F) (HL : Thm.PrimEq.linear L)
          (K : nat) (M : Mat) (xs : nat -> A -> F) (r : nat) (b : B) :
    L (fun a => matvec K M (fun s => xs s a) r) b = matvec K M (fun s => L (xs s) b) r.
  Proof. exact (column_commutes L HL K M xs r b). Qed.

  (** modal temperature tendency, explicit (clipped) + implicit, every coefficient *)
  Theorem C04_temperature_modal_invariance (T1 T2 : nat -> F) r w :
    (r < cK c)%nat ->
    temp_tendency_explicit W P toM divc clip (with_tref c T1) (Xs P X T T1) r w
    + temp_tendency_implicit W (with_tref c T1) dv r w
    = temp_tendency_explicit W P toM divc clip (with_tref c T2) (Xs P X T T2) r w
      + temp_tendency_implicit W (with_tref c T2) dv r w.
  Proof. intros Hr. eapply temperature_modal_invariance; eassumption. Qed.

  (** modal divergence tendency (dry / with-time classes, any orography) *)
  Theorem C04_divergence_invariance (T1 T2 : nat -> F) r w :
    div_tendency_explicit W P toM divc lap clip (with_tref c T1) grav (Xs P X T T1)
                          (fun p => rt_dry (with_tref c T1) (Xs P X T T1 p)) orog (fun _ => 0) r w
    + div_tendency_implicit W lap (with_tref c T1) (Tms W Tm onem T1) lnps r w
    = div_tendency_explicit W P toM divc lap clip (with_tref c T2) grav (Xs P X T T2)
                            (fun p => rt_dry (with_tref c T2) (Xs P X T T2 p)) orog (fun _ => 0) r w
      + div_tendency_implicit W lap (with_tref c T2) (Tms W Tm onem T2) lnps r w.
  Proof. eapply divergence_modal_invariance; eassumption. Qed.

  (** modal vorticity tendency (its implicit part is zero) *)
  Theorem C04_vorticity_invariance (T1 T2 : nat -> F) r w :
    vort_tendency_explicit W P toM curlc clip (with_tref c T1) (Xs P X T T1)
                           (fun p => rt_dry (with_tref c T1) (Xs P X T T1 p)) (fun _ => 0) r w
    = vort_tendency_explicit W P toM curlc clip (with_tref c T2) (Xs P X T T2)
                             (fun p => rt_dry (with_tref c T2) (Xs P X T T2 p)) (fun _ => 0) r w.
  Proof. eapply vorticity_modal_invariance; eassumption. Qed.
  (** moist classes (MoistPrimitiveEquations; the cloud class with zero condensate) *)
  Variable m : @Moist F.
  Hypothesis R_nz : cR c <> 0.
  (** nodal specific humidity, its nodal cos_lat_grad, nodal laplacian(lnps) *)
  Variable q gqx gqy : P -> nat -> F.
  Variable lapn : P -> F.
  (** Leibniz rule on the nodal side (alias-free product q * grad lnps):
      div(q sec2 grad lnps) = q lap(lnps) + sec2 grad q . grad lnps,
      curl(q sec2 grad lnps) = - sec2 (grad lnps x grad q) *)
  Hypothesis H_leibniz : forall r w,
      clip (fun w' => divc (toM (qgx P X q r)) (toM (qgy P X q r)) w' - toM (leib_div P X q gqx gqy lapn r) w') w = 0.
  Hypothesis H_leibniz_curl : forall r w,
      clip (fun w' => curlc (toM (qgx P X q r)) (toM (qgy P X q r)) w' + toM (leib_curl P X gqx gqy r) w') w = 0.

  (** modal divergence tendency with virtual temperature and divergence_tendency_due_to_humidity *)
  Theorem C04_divergence_invariance_moist (T1 T2 : nat -> F) r w :
    div_tendency_explicit W P toM divc lap clip (with_tref c T1) grav (Xs P X T T1)
        (fun p => rt_moist (with_tref c T1) m (Xs P X T T1 p) (q p)) orog
        (fun w' => humidity_div_modal W P toM lap (with_tref c T1) m (Xs P X T T1) q gqx gqy lapn r w') r w
    + div_tendency_implicit W lap (with_tref c T1) (Tms W Tm onem T1) lnps r w
    = div_tendency_explicit W P toM divc lap clip (with_tref c T2) grav (Xs P X T T2)
          (fun p => rt_moist (with_tref c T2) m (Xs P X T T2 p) (q p)) orog
          (fun w' => humidity_div_modal W P toM lap (with_tref c T2) m (Xs P X T T2) q gqx gqy lapn r w') r w
      + div_tendency_implicit W lap (with_tref c T2) (Tms W Tm onem T2) lnps r w.
  Proof. eapply divergence_modal_invariance_moist; eassumption. Qed.

  (** modal vorticity tendency with virtual temperature and vorticity_tendency_due_to_humidity *)
  Theorem C04_vorticity_invariance_moist (T1 T2 : nat -> F) r w :
    vort_tendency_explicit W P toM curlc clip (with_tref c T1) (Xs P X T T1)
        (fun p => rt_moist (with_tref c T1) m (Xs P X T T1 p) (q p))
        (fun w' => humidity_curl_modal W P toM (with_tref c T1) m (Xs P X T T1) gqx gqy r w') r w
    = vort_tendency_explicit W P toM curlc clip (with_tref c T2) (Xs P X T T2)
          (fun p => rt_moist (with_tref c T2) m (Xs P X T T2 p) (q p))
          (fun w' => humidity_curl_modal W P toM (with_tref c T2) m (Xs P X T T2) gqx gqy r w') r w.
  Proof. eapply vorticity_modal_invariance_moist; eassumption. Qed.
  (** modal temperature tendency with the moist adiabatic term *)
  Theorem C04_temperature_modal_invariance_moist (T1 T2 : nat -> F) r w :
    (r < cK c)%nat ->
    (forall p, 1 + (mCpv m / (cR c / ckappa c) - 1) * q p r <> 0) ->
    temp_tendency_explicit_moist W P toM divc clip (with_tref c T1) m (Xs P X T T1) q r w
    + temp_tendency_implicit W (with_tref c T1) dv r w
    = temp_tendency_explicit_moist W P toM divc clip (with_tref c T2) m (Xs P X T T2) q r w
      + temp_tendency_implicit W (with_tref c T2) dv r w.
  Proof. intros Hr Hq. eapply temperature_modal_invariance_moist; eassumption. Qed.
End C04_modal.

(** the END-TO-END executable whole-state model (Model/PrimEqFull.v): compute_diagnostic_state,
    explicit_terms, implicit_terms, implicit_inverse composed from the concrete transforms of Model/SHT.v
    and the concrete spectral operators of Model/Deriv.v on the reference layout.  What the plugin
    executes against the real explicit_terms / implicit_terms / implicit_inverse is, field by field,
    the ModalAssembly instance the theorems above are about. *)
Section C04_whole_state.
  Context {F : Type} {o : Ops F} {Fc : FieldC o}.
  Hypothesis two_nz : two <> 0.
  Hypothesis feqb_sound : forall x y : F, feqb x y = true -> x = y.
  Variable g : @HGrid F.
  Variable c : @PEcfg F.
  Variable grav : F.

  (** (a) executed = assembled: every coefficient of every field of explicit_terms_full *)
  Theorem C04_whole_state_is_assembly (orog : nat -> nat -> F) (s : @State F) k a l :
    (k < cK c)%nat -> (a < hR g)%nat -> (l < hL g)%nat ->
    let X := X_of g (diagnostic_state g (cK c) s) in
    s_vort (explicit_terms_full g c grav orog s) k a l
    = vort_tendency_explicit Wi Wi (toM_c g) (curlc_c g) (clip_c g) c X (fun p => rt_dry c (X p)) (fun _ => 0) k (a, l) /\
    s_div (explicit_terms_full g c grav orog s) k a l
    = div_tendency_explicit Wi Wi (toM_c g) (divc_c g) (lap_c g) (clip_c g) c grav X (fun p => rt_dry c (X p))
                            (unc orog) (fun _ => 0) k (a, l) /\
    s_temp (explicit_terms_full g c grav orog s) k a l
    = temp_tendency_explicit Wi Wi (toM_c g) (divc_c g) (clip_c g) c X k (a, l) /\
    s_lnps (explicit_terms_full g c grav orog s) a l = lnps_tendency_explicit_c g c X (a, l).
  Proof. exact (explicit_terms_full_is_assembly g c grav orog s k a l). Qed.

  (** (b) the concrete operators are linear and the concrete laplacian kills the (0,0)-only field:
      the linearity / lap_const premises of the modal theorems are discharged for the executable model *)
  Theorem C04_concrete_operators_linear :
    Thm.PrimEq.linear (toM_c g) /\ Thm.PrimEq.linear2 (divc_c g) /\ Thm.PrimEq.linear2 (curlc_c g) /\
    Thm.PrimEq.linear (lap_c g) /\ Thm.PrimEq.linear (clip_c g) /\ (forall v w, lap_c g (onem00 v) w = 0).
  Proof.
    split; [apply toM_c_lin|]. split; [apply divc_c_lin|]. split; [apply curlc_c_lin|].
    split; [apply lap_c_lin|]. split; [apply clip_c_lin|]. intros v w. apply lap_c_const.
  Qed.

  (** ... hence explicit + implicit of the executable composition does not depend on the split, under the
      exactness facts about the grid tables only *)
  Hypothesis th2_nz : forall k, (S k < cK c)%nat -> thickness (cb c) k + thickness (cb c) (S k) <> 0.
  Variable X : Wi -> @NCol F.
  Variable T : nat -> Wi -> F.
  Variable dv Tm : nat -> Wi -> F.
  Variable lnps orog : Wi -> F.
  Variable v00 : F.
  Hypothesis div_nodal : forall p k, n_div (X p) k = toN_c g (dv k) p.
  Hypothesis H_roundtrip : forall s w, clip_c g (toM_c g (toN_c g (dv s))) w = dv s w.
  Hypothesis H_div_vel : forall r w,
      clip_c g (divc_c g (toM_c g (fun p => n_u (X p) r * n_sec2 (X p))) (toM_c g (fun p => n_v (X p) r * n_sec2 (X p)))) w
      = clip_c g (toM_c g (fun p => n_div (X p) r)) w.
  Hypothesis H_div_grad : forall w,
      clip_c g (divc_c g (toM_c g (fun p => n_gx (X p) * n_sec2 (X p))) (toM_c g (fun p => n_gy (X p) * n_sec2 (X p)))) w
      = lap_c g lnps w.
  Hypothesis H_curl_grad : forall w,
      clip_c g (curlc_c g (toM_c g (fun p => n_gx (X p) * n_sec2 (X p))) (toM_c g (fun p => n_gy (X p) * n_sec2 (X p)))) w = 0.

  Theorem C04_whole_state_temperature_invariance (T1 T2 : nat -> F) r w :
    (r < cK c)%nat ->
    temp_tendency_explicit Wi Wi (toM_c g) (divc_c g) (clip_c g) (with_tref c T1) (Xs Wi X T T1) r w
    + temp_tendency_implicit Wi (with_tref c T1) dv r w
    = temp_tendency_explicit Wi Wi (toM_c g) (divc_c g) (clip_c g) (with_tref c T2) (Xs Wi X T T2) r w
      + temp_tendency_implicit Wi (with_tref c T2) dv r w.
  Proof.
    intros Hr. apply temperature_modal_invariance with (toN := toN_c g);
      auto using toM_c_lin, divc_c_lin, clip_c_lin.
  Qed.

  Theorem C04_whole_state_divergence_invariance (T1 T2 : nat -> F) r w :
    div_tendency_explicit Wi Wi (toM_c g) (divc_c g) (lap_c g) (clip_c g) (with_tref c T1) grav (Xs Wi X T T1)
                          (fun p => rt_dry (with_tref c T1) (Xs Wi X T T1 p)) orog (fun _ => 0) r w
    + div_tendency_implicit Wi (lap_c g) (with_tref c T1) (Tms Wi Tm (onem00 v00) T1) lnps r w
    = div_tendency_explicit Wi Wi (toM_c g) (divc_c g) (lap_c g) (clip_c g) (with_tref c T2) grav (Xs Wi X T T2)
                            (fun p => rt_dry (with_tref c T2) (Xs Wi X T T2 p)) orog (fun _ => 0) r w
      + div_tendency_implicit Wi (lap_c g) (with_tref c T2) (Tms Wi Tm (onem00 v00) T2) lnps r w.
  Proof.
    apply divergence_modal_invariance; auto using toM_c_lin, divc_c_lin, lap_c_lin, clip_c_lin, lap_c_const.
  Qed.

  Theorem C04_whole_state_vorticity_invariance (T1 T2 : nat -> F) r w :
    vort_tendency_explicit Wi Wi (toM_c g) (curlc_c g) (clip_c g) (with_tref c T1) (Xs Wi X T T1)
                           (fun p => rt_dry (with_tref c T1) (Xs Wi X T T1 p)) (fun _ => 0) r w
    = vort_tendency_explicit Wi Wi (toM_c g) (curlc_c g) (clip_c g) (with_tref c T2) (Xs Wi X T T2)
                             (fun p => rt_dry (with_tref c T2) (Xs Wi X T T2 p)) (fun _ => 0) r w.
  Proof. apply vorticity_modal_invariance; auto using toM_c_lin, curlc_c_lin, clip_c_lin. Qed.

  (** (c) implicit half: linear, and implicit_inverse_full inverts 1 - eta * implicit_terms_full, per coefficient *)
  Theorem C04_whole_state_implicit_linear (al be : F) (x y z : @State F) a l :
    col_eq (cK c) (col_of z a l) (col_lin al (col_of x a l) be (col_of y a l)) ->
    col_eq (cK c) (col_of (implicit_terms_full g c z) a l)
                  (col_lin al (col_of (implicit_terms_full g c x) a l) be (col_of (implicit_terms_full g c y) a l)).
  Proof. exact (implicit_terms_full_linear g c al be x y z a l). Qed.

  Theorem C04_whole_state_resolvent (eta : F) (invt : nat -> @Mat F) (x : @State F) a l :
    is_left_inverse (2 * cK c + 1) (invt l) (implicit_matrix c eta (Model.Deriv.lap_eig (hL g) (hr g) l)) ->
    thickness (cb c) 0%nat <> 0 -> thickness (cb c) (cK c - 1)%nat <> 0 ->
    col_eq (cK c)
           (col_of (implicit_inverse_full g c eta invt (state_minus_scaled x eta (implicit_terms_full g c x))) a l)
           (col_of x a l) /\
    (forall k, s_vort (implicit_inverse_full g c eta invt (state_minus_scaled x eta (implicit_terms_full g c x))) k a l
               = s_vort x k a l).
  Proof. exact (implicit_inverse_full_resolvent feqb_sound g c eta invt x a l). Qed.
End C04_whole_state.

(** a concrete instance over Qc: uneven 3-layer levels, non-uniform profiles *)
Definition q3 (l : list Q) : nat -> Qc := fun k => Q2Qc (nth k l 0%Q).
Definition ex_cfg : @PEcfg Qc :=
  mkPE 3 (Q2Qc (1#3)) (Q2Qc (2#7)) (q3 [-(2#1); -(7#10); -(1#8)]%Q) (q3 [0; 1#4; 3#4; 1]%Q) (q3 [250#1; 250#1; 250#1]%Q).
Definition ex_col : @NCol Qc :=
  mkNCol (q3 [1; 2; -(1#2)]%Q) (q3 [-(1#1); 1#2; 3#4]%Q) (q3 [1#2; -(1#3); 1#5]%Q) (q3 [1#5; -(1#7); 2#3]%Q)
         (q3 [0; 0; 0]%Q) (Q2Qc (1#10)) (Q2Qc (-(1#5))) (Q2Qc (4#3)) (Q2Qc (1#2)).
Definition ex_moist : @Moist Qc := mkMoist (Q2Qc (8#15)) (Q2Qc (2#1)).
Definition ex_T1 := q3 [250#1; 260#1; 281#1]%Q.
Definition ex_T2 := q3 [240#1; 275#1; 275#1]%Q.
Definition ex_T := q3 [255#1; 268#1; 290#1]%Q.
Definition ex_q := q3 [1#100; 1#50; 1#40]%Q.

Lemma Qc_feqb_sound : forall x y : Qc, @feqb Qc QcOps x y = true -> x = y.
Proof. intros x y H. apply Qc_is_canon. now apply Qeq_bool_eq. Qed.

(** Non-vacuity: the hypotheses hold on the instance, and on it the explicit part
    alone DOES depend on the split (so the implicit term is essential). *)
Example C04_hyps_satisfiable :
  (@two Qc QcOps <> 0) /\
  (forall k, (S k < cK ex_cfg)%nat -> thickness (cb ex_cfg) k + thickness (cb ex_cfg) (S k) <> 0) /\
  (forall k, (k < cK ex_cfg)%nat -> thickness (cb ex_cfg) k <> 0) /\
  (forall n, (n < 3)%nat -> 1 + (mCpv ex_moist / (cR ex_cfg / ckappa ex_cfg) - 1) * ex_q n <> 0) /\
  (let c1 := with_tref ex_cfg ex_T1 in let c2 := with_tref ex_cfg ex_T2 in
   let x1 := with_temp ex_col (fun k => ex_T k - ex_T1 k) in let x2 := with_temp ex_col (fun k => ex_T k - ex_T2 k) in
   temp_vertical_tendency c1 true x1 1 + temp_adiabatic c1 x1 1 <> temp_vertical_tendency c2 true x2 1 + temp_adiabatic c2 x2 1 /\
   temp_vertical_tendency c1 true x1 1 + temp_adiabatic c1 x1 1 + temp_implicit_col c1 (n_div ex_col) 1
   = temp_vertical_tendency c2 true x2 1 + temp_adiabatic c2 x2 1 + temp_implicit_col c2 (n_div ex_col) 1).
Proof.
  split; [|split; [|split; [|split]]].
  - intro H. discriminate H.
  - intros k Hk. destruct k as [|[|k]]; [| |cbn in Hk; lia]; intro H; vm_compute in H; discriminate H.
  - intros k Hk. destruct k as [|[|[|k]]]; [| | |cbn in Hk; lia]; intro H; vm_compute in H; discriminate H.
  - intros n Hn. destruct n as [|[|[|n]]]; [| | |lia]; intro H; vm_compute in H; discriminate H.
  - cbv zeta. split.
    + intro H. vm_compute in H. discriminate H.
    + apply Qc_is_canon. vm_compute. reflexivity.
Qed.

(** Non-vacuity of the modal hypotheses: a one-coefficient / one-node instance
    (to_nodal, to_modal, clip = identity, laplacian = multiplication by -2,
    div(x,y) = x, curl(x,y) = b x - a y) on which every hypothesis of
    [C04_modal] holds with non-zero data. *)
Section TrivialOps.
  Context {F : Type} {o : Ops F} {Fc : FieldC o}.
  Add Field FFt : (field_c : FieldTh o).
  Definition tI (x : unit -> F) (w : unit) : F := x tt.
  Definition tD (x y : unit -> F) (w : unit) : F := x tt.
  Definition tC (a b : F) (x y : unit -> F) (w : unit) : F := b * x tt - a * y tt.
  Definition tL (lam : F) (x : unit -> F) (w : unit) : F := lam * x tt.
  Lemma tI_lin : Thm.PrimEq.linear tI.
  Proof. split; [intros x y H b; apply H | intros; unfold tI; ring]. Qed.
  Lemma tL_lin lam : Thm.PrimEq.linear (tL lam).
  Proof. split; [intros x y H b; unfold tL; now rewrite H | intros; unfold tL; ring]. Qed.
  Lemma tD_lin : Thm.PrimEq.linear2 tD.
  Proof. split; [intros x1 y1 x2 y2 H1 H2 b; apply H1 | intros; unfold tD; ring]. Qed.
  Lemma tC_lin a b : Thm.PrimEq.linear2 (tC a b).
  Proof. split; [intros x1 y1 x2 y2 H1 H2 w; unfold tC; now rewrite H1, H2 | intros; unfold tC; ring]. Qed.
End TrivialOps.

Definition ex_colm : @NCol Qc :=
  mkNCol (q3 [3#20; -(3#28); 1#2]%Q) (n_v ex_col) (n_vort ex_col) (n_div ex_col) (n_temp ex_col)
         (n_gx ex_col) (n_gy ex_col) (n_sec2 ex_col) (n_f ex_col).
Example C04_modal_hyps_satisfiable :
  let X := fun _ : unit => ex_colm in
  let dv := fun (k : nat) (_ : unit) => n_div ex_colm k in
  let lnps := fun _ : unit => Q2Qc (-(1#15)) in
  let onem := fun _ : unit => Q2Qc 0 in
  let lap := tL (Q2Qc (-(2#1))) in
  let curlc := tC (n_gx ex_colm * n_sec2 ex_colm) (n_gy ex_colm * n_sec2 ex_colm) in
  Thm.PrimEq.linear (@tI Qc) /\ Thm.PrimEq.linear2 (@tD Qc) /\ Thm.PrimEq.linear2 curlc /\ Thm.PrimEq.linear lap /\
  (forall p k, n_div (X p) k = tI (dv k) p) /\
  (forall s w, tI (tI (tI (dv s))) w = dv s w) /\
  (forall r w, (r < 3)%nat ->
     tI (tD (tI (fun p => n_u (X p) r * n_sec2 (X p))) (tI (fun p => n_v (X p) r * n_sec2 (X p)))) w
     = tI (tI (fun p => n_div (X p) r)) w) /\
  (forall w, tI (tD (tI (fun p => n_gx (X p) * n_sec2 (X p))) (tI (fun p => n_gy (X p) * n_sec2 (X p)))) w = lap lnps w) /\
  (forall w, tI (curlc (tI (fun p => n_gx (X p) * n_sec2 (X p))) (tI (fun p => n_gy (X p) * n_sec2 (X p)))) w = 0) /\
  (forall w, lap onem w = 0) /\ lap lnps tt <> 0.
Proof.
  cbv zeta.
  split; [apply tI_lin|]. split; [apply tD_lin|]. split; [apply tC_lin|]. split; [apply tL_lin|].
  split; [reflexivity|]. split; [reflexivity|].
  split; [|split; [|split; [|split]]].
  - intros r w Hr. destruct r as [|[|[|r]]]; [| | |lia]; apply Qc_is_canon; vm_compute; reflexivity.
  - intros w. apply Qc_is_canon. vm_compute. reflexivity.
  - intros w. apply Qc_is_canon. vm_compute. reflexivity.
  - intros w. apply Qc_is_canon. vm_compute. reflexivity.
  - intro H. vm_compute in H. discriminate H.
Qed.

(** the Leibniz hypotheses of the moist theorems on the same instance (grad q = 0, lapn = lap lnps) *)
Example C04_modal_moist_hyps_satisfiable :
  let X := fun _ : unit => ex_colm in
  let q := fun (_ : unit) => ex_q in
  let gq := fun (_ : unit) (_ : nat) => Q2Qc 0 in
  let lapn := fun _ : unit => Q2Qc (2#15) in
  let curlc := tC (n_gx ex_colm * n_sec2 ex_colm) (n_gy ex_colm * n_sec2 ex_colm) in
  cR ex_cfg <> 0 /\ lapn tt = tL (Q2Qc (-(2#1))) (fun _ => Q2Qc (-(1#15))) tt /\
  (forall r w, (r < 3)%nat ->
     tI (fun w' => tD (tI (qgx unit X q r)) (tI (qgy unit X q r)) w' - tI (leib_div unit X q gq gq lapn r) w') w = 0) /\
  (forall r w, (r < 3)%nat ->
     tI (fun w' => curlc (tI (qgx unit X q r)) (tI (qgy unit X q r)) w' + tI (leib_curl unit X gq gq r) w') w = 0).
Proof.
  cbv zeta. split; [intro H; vm_compute in H; discriminate H|]. split; [apply Qc_is_canon; vm_compute; reflexivity|].
  split; intros r w Hr; destruct r as [|[|[|r]]]; try lia; apply Qc_is_canon; vm_compute; reflexivity.
Qed.

(** include_vertical_advection = False refutes the invariance for non-uniform profiles (witness over Qc) *)
Theorem C04_no_vertical_advection_refuted :
  let c1 := with_tref ex_cfg ex_T1 in let c2 := with_tref ex_cfg ex_T2 in
  let x1 := with_temp ex_col (fun k => ex_T k - ex_T1 k) in let x2 := with_temp ex_col (fun k => ex_T k - ex_T2 k) in
  temp_vertical_tendency c1 false x1 1 + temp_adiabatic c1 x1 1 + temp_implicit_col c1 (n_div ex_col) 1
  <> temp_vertical_tendency c2 false x2 1 + temp_adiabatic c2 x2 1 + temp_implicit_col c2 (n_div ex_col) 1.
Proof. cbv zeta. intro H. vm_compute in H. discriminate H. Qed.

(** The cloud-moist class refutes the invariance: with non-zero condensate the
    effective pressure-gradient vector depends on the split (witness over Qc). *)
Theorem C04_tref_split_cloud_refuted :
  exists (c : @PEcfg Qc) (m : @Moist Qc) (T1 T2 T q qc qi : nat -> Qc) (x : @NCol Qc) (k : nat),
    (k < cK c)%nat /\ cR c <> 0 /\
    effective_pgf_u (with_tref c T1) true m (with_temp x (fun j => T j - T1 j))
                    (rt_cloud (with_tref c T1) m (with_temp x (fun j => T j - T1 j)) q qc qi) q k
    <> effective_pgf_u (with_tref c T2) true m (with_temp x (fun j => T j - T2 j))
                       (rt_cloud (with_tref c T2) m (with_temp x (fun j => T j - T2 j)) q qc qi) q k.
Proof.
  exists ex_cfg, ex_moist, ex_T1, ex_T2, ex_T, ex_q, (q3 [1#100; 1#100; 1#100]%Q), (q3 [1#200; 0; 1#300]%Q), ex_col, 1%nat.
  split; [cbn; lia|]. split.
  - intro H. vm_compute in H. discriminate H.
  - intro H. vm_compute in H. discriminate H.
Qed.

(** the last lift: two EXECUTED whole states with the same absolute temperature (T'_1 + T_1 = T'_2 + T_2
    levelwise, as a shift of the (0,0) coefficient; everything else shared) have the same explicit_terms_full +
    implicit_terms_full on every in-range coefficient of every field.  Premises: the four exactness facts about
    the grid tables on the (unmaterialised) nodal columns of the shared fields, to_nodal(onem00 v00) = 1 on the node
    range (table obligation), and that the two profiles agree beyond the K entries the code has.  Uses
    functional_extensionality (stdlib) only to identify nodal-column records whose level functions agree pointwise. *)
Section C04_whole_state_lift.
  Context {F : Type} {o : Ops F} {Fc : FieldC o}.
  Hypothesis two_nz : two <> 0.
  Hypothesis feqb_sound : forall x y : F, feqb x y = true -> x = y.
  Variable g : @HGrid F.
  Variable c : @PEcfg F.
  Hypothesis th2_nz : forall k, (S k < cK c)%nat -> thickness (cb c) k + thickness (cb c) (S k) <> 0.
  Variable grav : F.
  Variable orog : nat -> nat -> F.
  Variable s0 : @State F.
  Variables temp1 temp2 : nat -> nat -> nat -> F.
  Variables T1 T2 : nat -> F.
  Variable v00 : F.
  Hypothesis H_one : forall i j, (i < hI g)%nat -> (j < hJ g)%nat -> to_nodal g (cur (onem00 v00)) i j = 1.
  Hypothesis Htemp : forall k a l, (k < cK c)%nat -> (a < hR g)%nat -> (l < hL g)%nat ->
      temp1 k a l + T1 k * onem00 v00 (a, l) = temp2 k a l + T2 k * onem00 v00 (a, l).
  Hypothesis Hbeyond : forall k, (cK c <= k)%nat -> T1 k = T2 k.
  Let X := X_ideal g (cK c) s0.
  Let dv := dv_of (cK c) s0.
  Let lnps := unc (s_lnps s0).
  Hypothesis H_roundtrip : forall s w, clip_c g (toM_c g (toN_c g (dv s))) w = dv s w.
  Hypothesis H_div_vel : forall r w,
      clip_c g (divc_c g (toM_c g (fun p => n_u (X p) r * n_sec2 (X p))) (toM_c g (fun p => n_v (X p) r * n_sec2 (X p)))) w
      = clip_c g (toM_c g (fun p => n_div (X p) r)) w.
  Hypothesis H_div_grad : forall w,
      clip_c g (divc_c g (toM_c g (fun p => n_gx (X p) * n_sec2 (X p))) (toM_c g (fun p => n_gy (X p) * n_sec2 (X p)))) w
      = lap_c g lnps w.
  Hypothesis H_curl_grad : forall w,
      clip_c g (curlc_c g (toM_c g (fun p => n_gx (X p) * n_sec2 (X p))) (toM_c g (fun p => n_gy (X p) * n_sec2 (X p)))) w = 0.

  Theorem C04_whole_state_split_invariance k a l :
    (k < cK c)%nat -> (a < hR g)%nat -> (l < hL g)%nat ->
    let s1 := with_stemp s0 temp1 in let s2 := with_stemp s0 temp2 in
    let c1 := with_tref c T1 in let c2 := with_tref c T2 in
    let E1 := explicit_terms_full g c1 grav orog s1 in let I1 := implicit_terms_full g c1 s1 in
    let E2 := explicit_terms_full g c2 grav orog s2 in let I2 := implicit_terms_full g c2 s2 in
    s_vort E1 k a l + s_vort I1 k a l = s_vort E2 k a l + s_vort I2 k a l /\
    s_div E1 k a l + s_div I1 k a l = s_div E2 k a l + s_div I2 k a l /\
    s_temp E1 k a l + s_temp I1 k a l = s_temp E2 k a l + s_temp I2 k a l /\
    s_lnps E1 a l + s_lnps I1 a l = s_lnps E2 a l + s_lnps I2 a l.
  Proof.
    intros Hk Ha Hl.
    exact (whole_state_split_invariance two_nz feqb_sound g c th2_nz grav orog s0 temp1 temp2 T1 T2 v00 H_one Htemp Hbeyond
             H_roundtrip H_div_vel H_div_grad H_curl_grad k a l Hk Ha Hl).
  Qed.
End C04_whole_state_lift.

(** the moist classes through the whole-state model: MoistPrimitiveEquations.explicit_terms (cloud = false) and
    MoistPrimitiveEquationsWithCloudMoisture.explicit_terms (cloud = true) as executed are, coefficient by coefficient,
    the ModalAssembly instance with the virtual temperature, the moist adiabatic term and the humidity corrections that
    C04_*_invariance_moist are about *)
Section C04_whole_state_moist.
  Context {F : Type} {o : Ops F} {Fc : FieldC o}.
  Variable g : @HGrid F.
  Variable c : @PEcfg F.
  Variable m : @Moist F.
  Variable grav : F.
  Variable orog : nat -> nat -> F.
  Theorem C04_whole_state_moist_is_assembly (cloud : bool) (s : @State F) k a l :
    (k < cK c)%nat -> (a < hR g)%nat -> (l < hL g)%nat ->
    let d := diagnostic_state g (cK c) s in
    let md := moist_diag g (cK c) s in
    let X := X_of g d in
    let rt := rt_full g cloud c m d in
    let q := trn d 0 in
    let gqx := gq_of (m_gqx md) in let gqy := gq_of (m_gqy md) in
    let lapn := fun p : Wi => m_lap md (fst p) (snd p) in
    let E := explicit_terms_full_moist g cloud c m grav orog s in
    s_vort E k a l
    = vort_tendency_explicit Wi Wi (toM_c g) (curlc_c g) (clip_c g) c X rt
                             (fun w' => humidity_curl_modal Wi Wi (toM_c g) c m X gqx gqy k w') k (a, l) /\
    s_div E k a l
    = div_tendency_explicit Wi Wi (toM_c g) (divc_c g) (lap_c g) (clip_c g) c grav X rt (unc orog)
                            (fun w' => humidity_div_modal Wi Wi (toM_c g) (lap_c g) c m X q gqx gqy lapn k w') k (a, l) /\
    s_temp E k a l = temp_tendency_explicit_moist Wi Wi (toM_c g) (divc_c g) (clip_c g) c m X q k (a, l) /\
    s_lnps E a l = lnps_tendency_explicit_c g c X (a, l).
  Proof. exact (explicit_terms_full_moist_is_assembly g c m grav orog cloud s k a l). Qed.
End C04_whole_state_moist.

(** non-vacuity of the whole-state theorems: a concrete toy grid and state over Qc.
    toy zonal "sphere" over Qc: M = 1 (R = 1), L = 3, one longitude, two latitudes mu = -1/2, +1/2 with weights 1/2;
    basis values p0 = 1, p1 = mu / (1/2), p2 = 0 at the nodes; recurrence weights chosen so that the
    discrete operators are exact on degree <= 1 (a[0,1] = 3/4, b[0,0] = 1/2) *)
Definition qz : Qc := Q2Qc 0.
Definition toy_grid : @HGrid Qc :=
  mkHG 1 3 1 2 (Q2Qc 1)
    (fun i a => match i, a with O, O => Q2Qc 1 | _, _ => qz end)
    (fun a j l => match a with
                  | O => match l with
                         | O => match j with O => Q2Qc 1 | S O => Q2Qc 1 | _ => qz end
                         | S O => match j with O => Q2Qc (-(1#1)) | S O => Q2Qc 1 | _ => qz end
                         | _ => qz end
                  | _ => qz end)
    (fun j => match j with O => Q2Qc (1#2) | S O => Q2Qc (1#2) | _ => qz end)
    (fun a l => match a with O => match l with S O => Q2Qc (3#4) | S (S O) => Q2Qc (1#3) | _ => qz end | _ => qz end)
    (fun a l => match a with O => match l with O => Q2Qc (1#2) | S O => Q2Qc (1#5) | _ => qz end | _ => qz end)
    (fun j => Q2Qc (4#3))
    (fun j => match j with O => Q2Qc (-(1#2)) | _ => Q2Qc (1#2) end)
    (Q2Qc (1#7)).
(** a two-level state on it: zero-mean vorticity / divergence of degree 1, temperature and lnps of degree <= 1 *)
Definition lvl2 (x0 x1 : Q) (k : nat) : Qc := match k with O => Q2Qc x0 | S O => Q2Qc x1 | _ => qz end.
Definition toy_state : @State Qc :=
  mkState (fun k a l => match l with S O => match a with O => lvl2 (1#3) (-(1#2)) k | _ => qz end | _ => qz end)
          (fun k a l => match l with S O => match a with O => lvl2 (1#5) (-(1#4)) k | _ => qz end | _ => qz end)
          (fun k a l => match l with O => match a with O => lvl2 (3#1) (5#2) k | _ => qz end
                                   | S O => match a with O => lvl2 (1#2) (-(2#3)) k | _ => qz end | _ => qz end)
          (fun a l => match l with O => match a with O => Q2Qc (1#10) | _ => qz end
                                 | S O => match a with O => Q2Qc (-(1#5)) | _ => qz end | _ => qz end)
          [].

Example C04_whole_state_hyps_satisfiable :
  let g := toy_grid in let X := X_ideal g 2 toy_state in let dv := dv_of 2 toy_state in
  let lnps := unc (s_lnps toy_state) in
  (forall p k, n_div (X p) k = toN_c g (dv k) p) /\
  (forall s w, clip_c g (toM_c g (toN_c g (dv s))) w = dv s w) /\
  (forall r w,
      clip_c g (divc_c g (toM_c g (fun p => n_u (X p) r * n_sec2 (X p))) (toM_c g (fun p => n_v (X p) r * n_sec2 (X p)))) w
      = clip_c g (toM_c g (fun p => n_div (X p) r)) w) /\
  (forall w,
      clip_c g (divc_c g (toM_c g (fun p => n_gx (X p) * n_sec2 (X p))) (toM_c g (fun p => n_gy (X p) * n_sec2 (X p)))) w
      = lap_c g lnps w) /\
  (forall w,
      clip_c g (curlc_c g (toM_c g (fun p => n_gx (X p) * n_sec2 (X p))) (toM_c g (fun p => n_gy (X p) * n_sec2 (X p)))) w = 0) /\
  (* and the instance is not trivial: non-zero laplacian of lnps, velocity, divergence *)
  lap_c g lnps (0, 1)%nat <> 0 /\ n_u (X (0, 1)%nat) 0 <> 0 /\ n_v (X (0, 0)%nat) 1 <> 0 /\ dv 1%nat (0, 1)%nat <> 0.
Proof.
  (* a coefficient with l >= 2 is clipped on both sides; one with a >= 1 is out of the single row of the grid and
     vanishes on both sides; the four that remain are evaluated *)
  cbv zeta.
  split; [reflexivity|].
  split.
  { intros s [a l].
    destruct (Nat.lt_ge_cases l 2) as [Hl|Hl].
    2:{ rewrite (clip_c_out toy_grid) by (cbn; lia).
        unfold dv_of. destruct (Nat.ltb s 2); [|reflexivity]. unfold unc. cbn [fst snd s_div toy_state].
        destruct l as [|[|l]]; [lia|lia|reflexivity]. }
    destruct a as [|a].
    2:{ rewrite (clip_c_zero toy_grid) by (apply toM_c_out; cbn; lia).
        unfold dv_of. destruct (Nat.ltb s 2); [|reflexivity]. unfold unc. cbn [fst snd s_div toy_state].
        destruct l as [|[|l]]; reflexivity. }
    destruct l as [|[|l]]; [| |lia]; destruct s as [|[|s]]; apply Qc_is_canon; vm_compute; reflexivity. }
  split.
  { intros r [a l].
    destruct (Nat.lt_ge_cases l 2) as [Hl|Hl]; [|rewrite !(clip_c_out toy_grid) by (cbn; lia); reflexivity].
    destruct a as [|a].
    2:{ rewrite (clip_c_zero toy_grid) by (apply divc_toM_out; [reflexivity|cbn; lia]).
        rewrite (clip_c_zero toy_grid) by (apply toM_c_out; cbn; lia). reflexivity. }
    destruct l as [|[|l]]; [| |lia]; destruct r as [|[|r]]; apply Qc_is_canon; vm_compute; reflexivity. }
  split.
  { intros [a l].
    destruct (Nat.lt_ge_cases l 2) as [Hl|Hl].
    2:{ rewrite (clip_c_out toy_grid) by (cbn; lia). symmetry. apply lap_c_zero.
        unfold unc. cbn [fst snd s_lnps toy_state]. destruct l as [|[|l]]; [lia|lia|reflexivity]. }
    destruct a as [|a].
    2:{ rewrite (clip_c_zero toy_grid) by (apply divc_toM_out; [reflexivity|cbn; lia]). symmetry. apply lap_c_zero.
        unfold unc. cbn [fst snd s_lnps toy_state]. destruct l as [|[|l]]; reflexivity. }
    destruct l as [|[|l]]; [| |lia]; apply Qc_is_canon; vm_compute; reflexivity. }
  split.
  { intros [a l].
    destruct (Nat.lt_ge_cases l 2) as [Hl|Hl]; [|rewrite (clip_c_out toy_grid) by (cbn; lia); reflexivity].
    destruct a as [|a].
    2:{ apply clip_c_zero. apply curlc_toM_out; [reflexivity|cbn; lia]. }
    destruct l as [|[|l]]; [| |lia]; apply Qc_is_canon; vm_compute; reflexivity. }
  repeat split; intro H; vm_compute in H; discriminate H.
Qed.

(** premises of C04_whole_state_resolvent: one layer, the exact inverse of the assembled 3 x 3 matrix *)
Definition toy_cfg1 : @PEcfg Qc :=
  mkPE 1 (Q2Qc (1#3)) (Q2Qc (2#7)) (fun _ => Q2Qc (-(7#10))) (fun k => match k with O => qz | _ => Q2Qc 1 end) (fun _ => Q2Qc (250#1)).
Definition inv3 (M : @Mat Qc) : @Mat Qc :=
  let m := fun i j : nat => M i j in
  let det := m 0%nat 0%nat * (m 1%nat 1%nat * m 2%nat 2%nat - m 1%nat 2%nat * m 2%nat 1%nat)
             - m 0%nat 1%nat * (m 1%nat 0%nat * m 2%nat 2%nat - m 1%nat 2%nat * m 2%nat 0%nat)
             + m 0%nat 2%nat * (m 1%nat 0%nat * m 2%nat 1%nat - m 1%nat 1%nat * m 2%nat 0%nat) in
  fun i j => (m ((j + 1) mod 3)%nat ((i + 1) mod 3)%nat * m ((j + 2) mod 3)%nat ((i + 2) mod 3)%nat
              - m ((j + 1) mod 3)%nat ((i + 2) mod 3)%nat * m ((j + 2) mod 3)%nat ((i + 1) mod 3)%nat) / det.
Example C04_whole_state_resolvent_hyps_satisfiable :
  let c := toy_cfg1 in let eta := Q2Qc (1#2) in
  let lam := Model.Deriv.lap_eig (hL toy_grid) (hr toy_grid) 1%nat in
  is_left_inverse (2 * cK c + 1) (inv3 (implicit_matrix c eta lam)) (implicit_matrix c eta lam) /\
  thickness (cb c) 0%nat <> 0 /\ thickness (cb c) (cK c - 1)%nat <> 0 /\
  implicit_matrix c eta lam 0%nat 1%nat <> 0 /\ implicit_matrix c eta lam 1%nat 0%nat <> 0 /\ lam <> 0.
Proof.
  cbv zeta. split.
  - intros i j Hi Hj. change (2 * cK toy_cfg1 + 1)%nat with 3%nat in *.
    destruct i as [|[|[|i]]]; try lia; destruct j as [|[|[|j]]]; try lia; apply Qc_is_canon; vm_compute; reflexivity.
  - repeat split; intro H; vm_compute in H; discriminate H.
Qed.

(** replay of C04_whole_state_is_assembly: on the toy grid the executed (materialised) composition and the
    ModalAssembly instance are evaluated independently and agree; the values are not zero *)
Definition toy_cfg : @PEcfg Qc :=
  mkPE 2 (Q2Qc (1#3)) (Q2Qc (2#7)) (lvl2 (-(2#1)) (-(1#4))) (fun k => match k with O => qz | S O => Q2Qc (1#4) | _ => Q2Qc 1 end)
       (lvl2 (250#1) (262#1)).
Definition toy_orog : nat -> nat -> Qc :=
  fun a l => match l with S O => match a with O => Q2Qc (1#50) | _ => qz end | _ => qz end.
Example C04_whole_state_is_assembly_replay :
  let g := toy_grid in let c := toy_cfg in let grav := Q2Qc (3#1) in
  let X := X_of g (diagnostic_state g (cK c) toy_state) in
  let E := explicit_terms_full g c grav toy_orog toy_state in
  (s_vort E 1%nat 0%nat 1%nat = vort_tendency_explicit Wi Wi (toM_c g) (curlc_c g) (clip_c g) c X (fun p => rt_dry c (X p)) (fun _ => 0) 1%nat (0, 1)%nat /\
   s_div E 0%nat 0%nat 1%nat = div_tendency_explicit Wi Wi (toM_c g) (divc_c g) (lap_c g) (clip_c g) c grav X (fun p => rt_dry c (X p))
                                         (unc toy_orog) (fun _ => 0) 0%nat (0, 1)%nat /\
   s_temp E 1%nat 0%nat 0%nat = temp_tendency_explicit Wi Wi (toM_c g) (divc_c g) (clip_c g) c X 1%nat (0, 0)%nat /\
   s_lnps E 0%nat 0%nat = lnps_tendency_explicit_c g c X (0, 0)%nat) /\
  s_vort E 1%nat 0%nat 1%nat <> 0 /\ s_div E 0%nat 0%nat 1%nat <> 0 /\ s_temp E 1%nat 0%nat 0%nat <> 0 /\ s_temp E 1%nat 0%nat 1%nat <> 0 /\ s_lnps E 0%nat 0%nat <> 0.
Proof.
  cbv zeta. split.
  - repeat split; apply Qc_is_canon; vm_compute; reflexivity.
  - repeat split; intro H; vm_compute in H; discriminate H.
Qed.

(** the two further premises of C04_whole_state_split_invariance on the toy instance (v00 = 1): to_nodal of the
    (0,0)-only spectrum is the constant one, and a second temperature variation with the same absolute temperature *)
Section ShiftRel.
  Context {F : Type} {o : Ops F} {Fc : FieldC o}.
  Add Field FFsr : (field_c : FieldTh o).
  Lemma shift_rel (x t1 t2 e : F) : x + t1 * e = (x + (t1 - t2) * e) + t2 * e.
  Proof. ring. Qed.
End ShiftRel.
Definition toy_T1 := lvl2 (250#1) (262#1).
Definition toy_T2 := lvl2 (241#1) (270#1).
Definition toy_temp2 : nat -> nat -> nat -> Qc :=
  fun k a l => s_temp toy_state k a l + (toy_T1 k - toy_T2 k) * onem00 (Q2Qc 1) (a, l).
Example C04_whole_state_split_hyps_satisfiable :
  (forall i j, (i < hI toy_grid)%nat -> (j < hJ toy_grid)%nat -> to_nodal toy_grid (cur (onem00 (Q2Qc 1))) i j = 1) /\
  (forall k a l, s_temp toy_state k a l + toy_T1 k * onem00 (Q2Qc 1) (a, l) = toy_temp2 k a l + toy_T2 k * onem00 (Q2Qc 1) (a, l)) /\
  (forall k, (2 <= k)%nat -> toy_T1 k = toy_T2 k) /\ toy_temp2 0%nat 0%nat 0%nat <> s_temp toy_state 0%nat 0%nat 0%nat.
Proof.
  split; [|split; [|split]].
  - intros i j Hi Hj. change (hI toy_grid) with 1%nat in Hi. change (hJ toy_grid) with 2%nat in Hj.
    destruct i as [|i]; [|lia]. destruct j as [|[|j]]; [| |lia]; apply Qc_is_canon; vm_compute; reflexivity.
  - intros k a l. unfold toy_temp2. apply shift_rel.
  - intros k Hk. destruct k as [|[|k]]; [lia|lia|reflexivity].
  - intro H. vm_compute in H. discriminate H.
Qed.

Lemma R_feqb_sound : forall x y : R, @feqb R ROps x y = true -> x = y.
Proof. intros x y. cbn. unfold Reqb. destruct (Req_EM_T x y); [auto|discriminate]. Qed.

Theorem C04_tref_split_invariance_R (c : @PEcfg R) (T1 T2 T : nat -> R) (x : @NCol R) n :
  (forall k, (k < cK c)%nat -> (cb c k < cb c (S k))%R) ->
  (n < cK c)%nat ->
  let c1 := with_tref c T1 in let c2 := with_tref c T2 in
  let x1 := with_temp x (fun k => T k - T1 k) in let x2 := with_temp x (fun k => T k - T2 k) in
  temp_vertical_tendency c1 true x1 n + temp_adiabatic c1 x1 n + temp_implicit_col c1 (n_div x) n
  = temp_vertical_tendency c2 true x2 n + temp_adiabatic c2 x2 n + temp_implicit_col c2 (n_div x) n.
Proof.
  intros Hb Hn.
  assert (H2 : @two R ROps <> 0) by (unfold two; cbn; lra).
  apply (C04_tref_split_invariance H2 R_feqb_sound c); auto.
  - intros k Hk. unfold thickness. cbn. pose proof (Hb k ltac:(lia)). pose proof (Hb (S k) Hk). lra.
  - intros k Hk. unfold thickness. cbn. pose proof (Hb k Hk). lra.
Qed.

(** Tie to the source by translation: the nodal column algebra of Model/PrimEq.v that this property reasons about
    is the code of dinosaur/primitive_equations.py (transcribed from the AST on every run by tools/translate/gen_primeq.py). *)
Theorem C04_model_is_source {F : Type} {o : Ops F} {Fc : FieldC o} (c : @PEcfg F) (m : @Moist F)
    (inc_va : bool) (x : @NCol F) (Tf g vg s q qc qi rt : nat -> F) (k : nat) :
  u_dot_grad x k = u_dot_grad_src x k /\
  t_omega_over_sigma_sp c Tf g vg k = t_omega_over_sigma_sp_src c Tf g vg k /\
  combined_u c inc_va x (rt_dry c x) k = combined_u_src c inc_va x k /\
  combined_v c inc_va x (rt_dry c x) k = combined_v_src c inc_va x k /\
  kinetic x k = kinetic_src x k /\
  temp_vertical_tendency c inc_va x k = temp_vertical_tendency_src c inc_va x k /\
  hsa_nodal x s k = hsa_nodal_src x s k /\
  hsa_mu x s k = hsa_u_src x s k * n_sec2 x /\
  hsa_mv x s k = hsa_v_src x s k * n_sec2 x /\
  temp_adiabatic c x k = temp_adiabatic_src c x k /\
  log_pressure_tendency c x = log_pressure_tendency_src c x /\
  moisture_contribution c m q k = moisture_contribution_src c m q k /\
  rt_moist c m x q k = rt_moist_src c x (moisture_contribution c m q) k /\
  rt_cloud c m x q qc qi k = rt_cloud_src c x (moisture_contribution c m q) qc qi k /\
  combined_u c inc_va x rt k = combined_u_moist_src c inc_va x q rt k /\
  combined_v c inc_va x rt k = combined_v_moist_src c inc_va x q rt k /\
  temp_adiabatic_moist c m x q k = temp_adiabatic_moist_src c m x q k.
Proof. exact (primeq_model_is_source c m inc_va x Tf g vg s q qc qi rt k). Qed.

Print Assumptions C04_tref_split_invariance.
Print Assumptions C04_tref_split_invariance_moist.
Print Assumptions C04_tref_split_closed_form.
Print Assumptions C04_H_is_explicit_counterpart.
Print Assumptions C04_lnps_invariance.
Print Assumptions C04_effective_pgf_invariant.
Print Assumptions C04_effective_pgf_invariant_dry.
Print Assumptions C04_effective_pgf_cloud_defect.
Print Assumptions C04_column_commutes.
Print Assumptions C04_temperature_modal_invariance.
Print Assumptions C04_divergence_invariance.
Print Assumptions C04_vorticity_invariance.
Print Assumptions C04_temperature_modal_invariance_moist.
Print Assumptions C04_divergence_invariance_moist.
Print Assumptions C04_vorticity_invariance_moist.
Print Assumptions C04_unique_branch_zero.
Print Assumptions C04_unique_branch_free.
Print Assumptions C04_unique_test_iff.
Print Assumptions C04_no_vertical_advection_closed_form.
Print Assumptions C04_no_vertical_advection_uniform_invariance.
Print Assumptions C04_hyps_satisfiable.
Print Assumptions C04_modal_hyps_satisfiable.
Print Assumptions C04_modal_moist_hyps_satisfiable.
Print Assumptions C04_no_vertical_advection_refuted.
Print Assumptions C04_tref_split_cloud_refuted.
Print Assumptions C04_tref_split_invariance_R.
Print Assumptions C04_whole_state_is_assembly.
Print Assumptions C04_concrete_operators_linear.
Print Assumptions C04_whole_state_temperature_invariance.
Print Assumptions C04_whole_state_divergence_invariance.
Print Assumptions C04_whole_state_vorticity_invariance.
Print Assumptions C04_whole_state_implicit_linear.
Print Assumptions C04_whole_state_resolvent.
Print Assumptions C04_whole_state_hyps_satisfiable.
Print Assumptions C04_whole_state_resolvent_hyps_satisfiable.
Print Assumptions C04_whole_state_is_assembly_replay.
Print Assumptions C04_whole_state_split_invariance.
Print Assumptions C04_whole_state_split_hyps_satisfiable.
Print Assumptions C04_whole_state_moist_is_assembly.
Print Assumptions C04_model_is_source.
