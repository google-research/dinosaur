(** Property C03 - the implicit solve is the exact resolvent of the implicit
    tendency; the proofs are in Thm/Implicit.v (and Thm/Sigma.v).
    Every theorem of the first section is for an arbitrary field [F] (hence the
    reals), an arbitrary number of layers [cK c], arbitrary boundaries [cb c],
    log-centre table [cls c], reference temperatures [cTref c], [ckappa c],
    [cR c], Laplacian eigenvalue [lam] and step size [eta] of either sign.

    [inv : nat -> Mat -> Mat] stands for [np.linalg.inv]; that it returns a
    (left) inverse of the matrices the code applies it to is a hypothesis
    (checked numerically per explored configuration by the plugin).  The only
    other side conditions are that the first and the last layer have non-zero
    thickness (the cumulative-sum form of H divides by them) and that the
    boolean equality test of the carrier is sound (used by the
    [(down_weights != 0).any()] branch).  Divisions by the other thicknesses
    occur identically on both sides of every statement. *)
From Dino Require Import Base.Ops Base.Sums Base.Inst Base.Ord Model.Sigma Thm.Sigma Model.Implicit Thm.Implicit.
From Dino Require Import Model.Filters Gen.ImplicitSrc Thm.ImplicitSrc.
From Coq Require Import Reals Qcanon Lra.
Local Open Scope F_scope.

Section C03.
  Context {F : Type} {o : Ops F} {Fc : FieldC o}.
  Hypothesis feqb_sound : forall x y : F, feqb x y = true -> x = y.

  (** the assembled (2K+1)x(2K+1) matrix IS the operator I - eta*implicit_terms *)
  Theorem C03_matrix_is_I_minus_eta_L (c : PEcfg) (eta lam : F) (x : Col) i :
    (i < 2 * cK c + 1)%nat ->
    matvec (2 * cK c + 1) (implicit_matrix c eta lam) (stack (cK c) x) i
    = stack (cK c) (col_minus_scaled x eta (implicit_terms false c lam x)) i.
  Proof. exact (matrix_is_I_minus_eta_L c eta lam x i). Qed.

  (** implicit_terms is linear, for both vertical matrix-product strategies *)
  Theorem C03_L_linear (sp : bool) (c : PEcfg) (lam a b : F) (x y : Col) :
    col_eq (cK c) (implicit_terms sp c lam (col_lin a x b y))
                  (col_lin a (implicit_terms sp c lam x) b (implicit_terms sp c lam y)).
  Proof. exact (L_linear sp c lam a b x y). Qed.

  (** 'split' = 'stacked' on every right-hand side, whatever inv returns *)
  Theorem C03_split_eq_stacked inv (c : PEcfg) (eta lam : F) (y : Col) :
    col_eq (cK c) (inverse_split inv c eta lam y) (inverse_stacked inv c eta lam y).
  Proof. exact (split_eq_stacked inv c eta lam y). Qed.

  Theorem C03_stacked_resolvent inv (c : PEcfg) (eta lam : F) (x : Col) (sp : bool) :
    is_left_inverse (2 * cK c + 1) (inv (2 * cK c + 1)%nat (implicit_matrix c eta lam)) (implicit_matrix c eta lam) ->
    thickness (cb c) 0%nat <> 0 -> thickness (cb c) (cK c - 1)%nat <> 0 ->
    col_eq (cK c) (inverse_stacked inv c eta lam (col_minus_scaled x eta (implicit_terms sp c lam x))) x.
  Proof. exact (stacked_resolvent feqb_sound inv c eta lam x sp). Qed.

  Theorem C03_split_resolvent inv (c : PEcfg) (eta lam : F) (x : Col) (sp : bool) :
    is_left_inverse (2 * cK c + 1) (inv (2 * cK c + 1)%nat (implicit_matrix c eta lam)) (implicit_matrix c eta lam) ->
    thickness (cb c) 0%nat <> 0 -> thickness (cb c) (cK c - 1)%nat <> 0 ->
    col_eq (cK c) (inverse_split inv c eta lam (col_minus_scaled x eta (implicit_terms sp c lam x))) x.
  Proof. exact (split_resolvent feqb_sound inv c eta lam x sp). Qed.

  (** Schur-complement identity behind 'blockwise', for arbitrary blocks G (n x m), H (m x n) *)
  Theorem C03_schur_blockwise_generic n m (G H A B : @Mat F) (u v yu yv : nat -> F) :
    is_left_inverse n A (fun i j => eye i j - matmul m G H i j) ->
    is_left_inverse m B (fun i j => eye i j - matmul n H G i j) ->
    (forall i, (i < n)%nat -> yu i = u i + matvec m G v i) ->
    (forall i, (i < m)%nat -> yv i = matvec n H u i + v i) ->
    (forall i, (i < n)%nat -> matvec n A (fun g => yu g - matvec m G yv g) i = u i) /\
    (forall i, (i < m)%nat -> matvec m B (fun g => yv g - matvec n H yu g) i = v i).
  Proof. exact (schur_blockwise_generic n m G H A B u v yu yv). Qed.

  (** ... and the code's use of it (cumulative-sum G and H products, block slicing) *)
  Theorem C03_blockwise_resolvent inv (c : PEcfg) (eta lam : F) (x : Col) (sp : bool) :
    is_left_inverse (cK c) (inv (cK c) (schur_div c eta lam)) (schur_div c eta lam) ->
    is_left_inverse (cK c + 1) (inv (cK c + 1)%nat (schur_temp_logp c eta lam)) (schur_temp_logp c eta lam) ->
    thickness (cb c) 0%nat <> 0 -> thickness (cb c) (cK c - 1)%nat <> 0 ->
    col_eq (cK c) (inverse_blockwise inv c eta lam (col_minus_scaled x eta (implicit_terms sp c lam x))) x.
  Proof. exact (blockwise_resolvent feqb_sound inv c eta lam x sp). Qed.

  (** all strategies agree on every right-hand side when the inverses exist *)
  Theorem C03_blockwise_eq_split inv (c : PEcfg) (eta lam : F) (y : Col) :
    let n := (2 * cK c + 1)%nat in
    let M := implicit_matrix c eta lam in
    is_left_inverse n (inv n M) M -> is_left_inverse n M (inv n M) ->
    is_left_inverse (cK c) (inv (cK c) (schur_div c eta lam)) (schur_div c eta lam) ->
    is_left_inverse (cK c + 1) (inv (cK c + 1)%nat (schur_temp_logp c eta lam)) (schur_temp_logp c eta lam) ->
    thickness (cb c) 0%nat <> 0 -> thickness (cb c) (cK c - 1)%nat <> 0 ->
    col_eq (cK c) (inverse_blockwise inv c eta lam y) (inverse_split inv c eta lam y).
  Proof. exact (blockwise_eq_split feqb_sound inv c eta lam y). Qed.

  (** H applied densely = cumulative-sum form, every K, every (uneven) level set *)
  Theorem C03_temperature_sparse_eq_dense (c : PEcfg) (div : nat -> F) r :
    (r < cK c)%nat ->
    thickness (cb c) 0%nat <> 0 -> thickness (cb c) (cK c - 1)%nat <> 0 ->
    temp_implicit_sparse c div r = temp_implicit_dense c div r.
  Proof. exact (temperature_sparse_eq_dense feqb_sound c div r). Qed.

  Theorem C03_geopotential_sparse_eq_dense K R (ls T : nat -> F) j :
    (j < K)%nat -> geo_diff_sparse K R ls T j = geo_diff_dense K R ls T j.
  Proof. exact (geo_sparse_eq_dense K R ls T j). Qed.

  Theorem C03_implicit_terms_sparse_eq_dense (c : PEcfg) (lam : F) (x : Col) (sp : bool) :
    thickness (cb c) 0%nat <> 0 -> thickness (cb c) (cK c - 1)%nat <> 0 ->
    col_eq (cK c) (implicit_terms sp c lam x) (implicit_terms false c lam x).
  Proof. exact (implicit_terms_sparse_eq_dense feqb_sound c lam x sp). Qed.

  (** TimeReversedImExODE: the resolvent at -eta of the negated operator *)
  Theorem C03_time_reversed inv (c : PEcfg) (eta lam : F) (x : Col) (sp : bool) :
    is_left_inverse (2 * cK c + 1) (inv (2 * cK c + 1)%nat (implicit_matrix c (- eta) lam))
                    (implicit_matrix c (- eta) lam) ->
    thickness (cb c) 0%nat <> 0 -> thickness (cb c) (cK c - 1)%nat <> 0 ->
    col_eq (cK c) (tr_implicit_inverse inv c eta lam (col_minus_scaled x eta (tr_implicit_terms sp c lam x))) x.
  Proof. exact (time_reversed feqb_sound inv c eta lam x sp). Qed.

  Theorem C03_with_time_resolvent inv (c : PEcfg) (eta lam : F) (t : F) (x : Col) (sp : bool) :
    is_left_inverse (2 * cK c + 1) (inv (2 * cK c + 1)%nat (implicit_matrix c eta lam)) (implicit_matrix c eta lam) ->
    thickness (cb c) 0%nat <> 0 -> thickness (cb c) (cK c - 1)%nat <> 0 ->
    let L := wt_implicit_terms sp c lam (t, x) in
    let r := wt_implicit_inverse inv c eta lam (t - eta * fst L, col_minus_scaled x eta (snd L)) in
    fst r = t /\ col_eq (cK c) (snd r) x.
  Proof. exact (with_time_resolvent feqb_sound inv c eta lam t x sp). Qed.

  Theorem C03_passive_resolvent (eta v : F) : passive_inverse (v - eta * passive_terms v) = v.
  Proof. exact (passive_resolvent eta v). Qed.

  (** shallow water: the Schur solve is the resolvent under the side condition the code needs *)
  Theorem C03_sw_resolvent (Phi lam eta : F) (x : F * F) :
    sw_schur Phi lam eta <> 0 ->
    sw_implicit_inverse Phi lam eta (sw_minus_scaled x eta (sw_implicit_terms Phi lam x)) = x.
  Proof. exact (sw_resolvent Phi lam eta x). Qed.

  Theorem C03_sw_L_linear (Phi lam a b : F) (x y : F * F) :
    sw_implicit_terms Phi lam (a * fst x + b * fst y, a * snd x + b * snd y)
    = (a * fst (sw_implicit_terms Phi lam x) + b * fst (sw_implicit_terms Phi lam y),
       a * snd (sw_implicit_terms Phi lam x) + b * snd (sw_implicit_terms Phi lam y)).
  Proof. exact (sw_L_linear Phi lam a b x y). Qed.

  Theorem C03_sw_time_reversed (Phi lam eta : F) (x : F * F) :
    sw_schur Phi lam (- eta) <> 0 ->
    sw_tr_implicit_inverse Phi lam eta (sw_minus_scaled x eta (sw_tr_implicit_terms Phi lam x)) = x.
  Proof. exact (sw_time_reversed Phi lam eta x). Qed.
End C03.

(** In every ordered field: reference potential >= 0 and eigenvalue <= 0 give
    1 - eta^2 Phi lam >= 1, so the shallow-water side condition holds for every eta. *)
Theorem C03_sw_side_condition {F} {o : Ops F} {Oc : OrdFieldC o} (Phi lam eta : F) :
  fle 0 Phi -> fle lam 0 -> sw_schur Phi lam eta <> 0.
Proof. exact (sw_side_condition Phi lam eta). Qed.

(** Over the reals: the shallow-water solve is the resolvent for all admissible parameters. *)
Theorem C03_sw_resolvent_R (Phi lam eta : R) (x : R * R) :
  (0 <= Phi)%R -> (lam <= 0)%R ->
  sw_implicit_inverse Phi lam eta (sw_minus_scaled x eta (sw_implicit_terms Phi lam x)) = x.
Proof.
  intros HP Hl. apply sw_resolvent. apply sw_side_condition; now apply fle_R.
Qed.

(** Over the reals, for any strictly increasing sigma boundaries (K >= 1): every
    strategy returns x from x - eta*implicit_terms(x) as soon as np.linalg.inv
    returns left inverses. *)
Theorem C03_resolvent_R (inv : nat -> @Mat R -> @Mat R) (c : @PEcfg R) (eta lam : R) (x : @Col R) (sp : bool) (m : Method) :
  (1 <= cK c)%nat ->
  (forall k, (k < cK c)%nat -> (cb c k < cb c (S k))%R) ->
  is_left_inverse (2 * cK c + 1) (inv (2 * cK c + 1)%nat (implicit_matrix c eta lam)) (implicit_matrix c eta lam) ->
  is_left_inverse (cK c) (inv (cK c) (schur_div c eta lam)) (schur_div c eta lam) ->
  is_left_inverse (cK c + 1) (inv (cK c + 1)%nat (schur_temp_logp c eta lam)) (schur_temp_logp c eta lam) ->
  col_eq (cK c) (implicit_inverse m inv c eta lam (col_minus_scaled x eta (implicit_terms sp c lam x))) x.
Proof.
  intros HK Hb HM HA HB.
  assert (E : forall x y : R, feqb x y = true -> x = y) by (intros a b; apply (proj1 (feqb_spec a b))).
  assert (T : forall k, (k < cK c)%nat -> thickness (cb c) k <> 0).
  { intros k Hk. unfold thickness. cbn. specialize (Hb k Hk). lra. }
  assert (T0 : thickness (cb c) 0%nat <> 0) by (apply T; lia).
  assert (T1 : thickness (cb c) (cK c - 1)%nat <> 0) by (apply T; lia).
  destruct m; cbn [implicit_inverse].
  - now apply (split_resolvent E).
  - now apply (stacked_resolvent E).
  - now apply (blockwise_resolvent E).
Qed.

(** Non-vacuity: the hypotheses are met by a concrete uneven 2-layer instance
    over Qc with non-uniform reference temperature (so that the
    [(down_weights != 0).any()] branch is the non-trivial one), eta = 1/2,
    lam = -2, with the exact rational inverses. *)
Definition ex_mat (n : nat) (l : list Q) : @Mat Qc := fun i j => Q2Qc (nth (i * n + j) l 0%Q).
Definition ex_cfg : @PEcfg Qc :=
  mkPE 2 (Q2Qc 2) (Q2Qc (1#4))
       (fun k => Q2Qc (nth k [-2; -1#2]%Q 0%Q))
       (fun k => Q2Qc (nth k [0; 1#4; 1]%Q 0%Q))
       (fun k => Q2Qc (nth k [250; 300]%Q 0%Q)).
Definition ex_inv (n : nat) (_ : @Mat Qc) : @Mat Qc :=
  if Nat.eqb n 5 then
    ex_mat 5 [127712#4056237; -1600#50077; 63856#1352079; 189680#4056237; -13904000#4056237;
              -44000#4056237; 752#50077; -22000#1352079; -49088#4056237; 14547200#4056237;
              -81050#150231; 26475#50077; 9552#50077; -123200#150231; 7130000#150231;
              -365600#4056237; -125#50077; -182800#1352079; 3132112#4056237; -188875000#4056237;
              536#4056237; -82#50077; 268#1352079; -5302#4056237; 339037#4056237]%Q
  else if Nat.eqb n 2 then
    ex_mat 2 [127712#4056237; -1600#50077; -44000#4056237; 752#50077]%Q
  else
    ex_mat 3 [9552#50077; -123200#150231; 7130000#150231;
              -182800#1352079; 3132112#4056237; -188875000#4056237;
              268#1352079; -5302#4056237; 339037#4056237]%Q.

Example C03_hyps_satisfiable :
  let c := ex_cfg in let eta := Q2Qc (1#2) in let lam := Q2Qc (-2) in
  let M := implicit_matrix c eta lam in
  (forall x y : Qc, feqb x y = true -> x = y) /\
  is_left_inverse 5 (ex_inv 5 M) M /\ is_left_inverse 5 M (ex_inv 5 M) /\
  is_left_inverse 2 (ex_inv 2 (schur_div c eta lam)) (schur_div c eta lam) /\
  is_left_inverse 3 (ex_inv 3 (schur_temp_logp c eta lam)) (schur_temp_logp c eta lam) /\
  thickness (cb c) 0%nat <> 0 /\ thickness (cb c) 1%nat <> 0 /\
  thickness (cb c) 0%nat <> thickness (cb c) 1%nat /\
  any_nonzero 2 (down_weights c) = true /\
  @sw_schur Qc QcOps (Q2Qc 5) (Q2Qc (-6)) (Q2Qc (-37)) <> 0.
Proof.
  assert (E : forall x y : Qc, feqb x y = true -> x = y) by (intros x y; apply feqb_spec).
  cbv zeta. repeat apply conj.
  - exact E.
  - apply (left_inverse_b_sound _ _ _ E). vm_compute. reflexivity.
  - apply (left_inverse_b_sound _ _ _ E). vm_compute. reflexivity.
  - apply (left_inverse_b_sound _ _ _ E). vm_compute. reflexivity.
  - apply (left_inverse_b_sound _ _ _ E). vm_compute. reflexivity.
  - intro H. vm_compute in H. discriminate H.
  - intro H. vm_compute in H. discriminate H.
  - intro H. vm_compute in H. discriminate H.
  - vm_compute. reflexivity.
  - intro H. vm_compute in H. discriminate H.
Qed.

(** Tie to the source by translation (regenerated on every run).
    The vertical operators the theorems above are about ARE the numpy
    constructions of dinosaur/primitive_equations.py: [*_src] are transcribed
    from the AST by tools/translate/gen_implicit.py (get_sigma_ratios,
    get_geopotential_weights, get_temperature_implicit_weights statement by
    statement, and the weight vectors of the two 'sparse' methods). *)
Theorem C03_model_is_source {F : Type} {o : Ops F} {Fc : FieldC o} (c : @PEcfg F) (r s : nat) :
  (r < cK c)%nat -> (s < cK c)%nat ->
  alpha (cK c) (cls c) r = alpha_src c r /\
  geo_weights (cK c) (cR c) (cls c) r s = geo_weights_src c r s /\
  temp_weights c r s = temp_weights_src c r s /\
  neg_temp_weights c r r = diag_weights_src c r /\
  up_weights c r = up_weights_src c r /\
  down_weights c r = down_weights_src c r /\
  fmul (cR c) (alpha (cK c) (cls c) r) = geo_alpha_src c r /\
  (if Nat.eqb r 0 then f0 else fadd (fmul (cR c) (alpha (cK c) (cls c) r)) (fmul (cR c) (alpha (cK c) (cls c) (r - 1)%nat)))
    = geo_alpha2_src c r.
Proof.
  intros Hr Hs.
  split; [now apply alpha_matches_source|].
  split; [now apply geo_weights_matches_source|].
  split; [now apply temp_weights_matches_source|].
  split; [now apply (sparse_weights_match_source c r)|].
  split; [now apply (sparse_weights_match_source c r)|].
  split; [now apply (sparse_weights_match_source c r)|].
  split; now apply (geo_sparse_weights_match_source c r).
Qed.

Theorem C03_gen_implicit_complete : gen_implicit_ok = true.
Proof. exact gen_implicit_complete. Qed.

Print Assumptions C03_matrix_is_I_minus_eta_L.
Print Assumptions C03_L_linear.
Print Assumptions C03_split_eq_stacked.
Print Assumptions C03_stacked_resolvent.
Print Assumptions C03_split_resolvent.
Print Assumptions C03_schur_blockwise_generic.
Print Assumptions C03_blockwise_resolvent.
Print Assumptions C03_blockwise_eq_split.
Print Assumptions C03_temperature_sparse_eq_dense.
Print Assumptions C03_geopotential_sparse_eq_dense.
Print Assumptions C03_implicit_terms_sparse_eq_dense.
Print Assumptions C03_time_reversed.
Print Assumptions C03_with_time_resolvent.
Print Assumptions C03_passive_resolvent.
Print Assumptions C03_sw_resolvent.
Print Assumptions C03_sw_L_linear.
Print Assumptions C03_sw_time_reversed.
Print Assumptions C03_sw_side_condition.
Print Assumptions C03_sw_resolvent_R.
Print Assumptions C03_resolvent_R.
Print Assumptions C03_hyps_satisfiable.
Print Assumptions C03_model_is_source.
Print Assumptions C03_gen_implicit_complete.
