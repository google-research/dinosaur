(** Property C11 - structural invariants survive any number of steps.
    The proofs are in Thm/Invariants.v, Thm/InvariantsFull.v and Thm/ShallowWater.v;
    the non-vacuity instances are built and evaluated here.  Every theorem is for an
    arbitrary field [F] (hence the reals), an arbitrary vector space [V] with
    operators [Fx] (explicit terms), [G] (implicit terms), [Ginv] (implicit
    inverse), an arbitrary step term (all integrators of time_integration.py are
    such terms, see [C11_terms_are_the_integrators]), an arbitrary filter stack
    and EVERY step count [k]. *)
From Dino Require Import Base.Ops Base.Sums Base.Ord Base.Inst Model.Filters Model.Sigma
     Gen.DerivExprs Gen.Tableaux Model.Deriv Model.Invariants Thm.Invariants.
From Dino Require Model.Integrators.
From Dino Require Import Model.ShallowWater Thm.ShallowWater.
From Coq Require Import Reals Qcanon.
Local Open Scope F_scope.
Notation iter := Dino.Model.Invariants.iter.

Section C11.
  Context {F : Type} {o : Ops F} {Fc : FieldC o}.
  Add Field FFp : (field_c : FieldTh o).
  Context {V : Type} {vo : VSp F V}.
  Variables (Fx G : V -> V) (Ginv : F -> V -> V).

  Section Subspace.
    Variable S : V -> Prop.
    Hypothesis S_zero : S vz.
    Hypothesis S_add : forall x y, S x -> S y -> S (va x y).
    Hypothesis S_scale : forall c x, S x -> S (vs c x).
    Hypothesis F_into : forall x, S x -> S (Fx x).
    Hypothesis G_pres : forall x, S x -> S (G x).
    Hypothesis Ginv_pres : forall eta x, S x -> S (Ginv eta x).

    Theorem C11_term_preserves_subspace (t : stepterm F) (env : nat -> V) :
      (forall i, S (env i)) -> S (eval Fx G Ginv t env).
    Proof. exact (term_preserves_subspace Fx G Ginv S S_zero S_add S_scale F_into G_pres Ginv_pres t env). Qed.

    Theorem C11_trajectory_in_subspace (t : stepterm F) (filters : list (V -> V -> V)) :
      (forall f, In f filters -> forall u un, S u -> S un -> S (f u un)) ->
      forall k u, S u -> S (iter k (with_filters (step_of Fx G Ginv t) filters) u).
    Proof. exact (trajectory_in_subspace Fx G Ginv S S_zero S_add S_scale F_into G_pres Ginv_pres t filters). Qed.

    Theorem C11_leapfrog_trajectory_in_subspace (t : stepterm F) (filters : list (V * V -> V * V -> V * V)) :
      (forall f, In f filters -> forall u un, S2 S u -> S2 S un -> S2 S (f u un)) ->
      forall k u, S2 S u -> S2 S (iter k (with_filters (lf_step_of Fx G Ginv t) filters) u).
    Proof. apply lf_trajectory_in_subspace. now split. Qed.

    (** a linear component that sees F = 0, G = 0, G_inv = id on S never changes *)
    Theorem C11_term_fixes_invariant_component (P : V -> F) (t : stepterm F) (c : F)
            (filters : list (V -> V -> V)) :
      P vz = 0 -> (forall x y, P (va x y) = P x + P y) -> (forall a x, P (vs a x) = a * P x) ->
      (forall x, S x -> P (Fx x) = 0) -> (forall x, S x -> P (G x) = 0) ->
      (forall eta x, S x -> P (Ginv eta x) = P x) ->
      consistent t c ->
      (forall f, In f filters -> forall u un, S u -> S un -> S (f u un) /\ P (f u un) = P un) ->
      forall k u, S u -> P (iter k (with_filters (step_of Fx G Ginv t) filters) u) = P u.
    Proof.
      intros P0 Pa Ps PF PG PI Hc Hf k u Hu.
      exact (proj2 (conserved_component Fx G Ginv S (Build_InvSub _ _ _ _ S_zero S_add S_scale F_into G_pres Ginv_pres)
                      P t c filters (Build_Observable _ _ _ _ _ _ P0 Pa Ps PF PG PI) Hc Hf k u Hu)).
    Qed.
  End Subspace.

  Section Pattern.
    Variables (fast : bool) (M L R C : nat).
    Hypothesis HLC : (L <= C)%nat.

    (** explicit_terms = clip_wavenumbers(anything respecting the mask on inputs in the pattern) *)
    Theorem C11_explicit_into_Supp (pre : stack -> stack) :
      (forall x, Supp fast M L R C x -> forall k i l, (i < R)%nat -> (l < C)%nat ->
                 mask fast M L i l = false -> pre x k i l = 0) ->
      forall x, Supp fast M L R C x -> Supp fast M L R C (explicit_model L C pre x).
    Proof. exact (explicit_into_Supp_rel fast M L R C HLC pre). Qed.

    (** the top wavenumber and the padded columns: for ANY input and ANY pre-clip value *)
    Theorem C11_explicit_top_zero (pre : stack -> stack) x k i l :
      (L - 1 <= l)%nat -> explicit_model L C pre x k i l = 0.
    Proof. exact (explicit_top_zero L C HLC pre x k i l). Qed.

    (** implicit terms, implicit inverse (matrices per (m,l)) and filters (scalings per l) *)
    Theorem C11_diagonal_preserves_Supp N A s x :
      Supp fast M L R C x -> Supp fast M L R C (diagop N A x) /\ Supp fast M L R C (lfilter s x).
    Proof.
      intros Hx. split; [exact (diagop_preserves_Supp fast M L R C N A x Hx)|exact (lfilter_preserves_Supp fast M L R C s x Hx)].
    Qed.

    Theorem C11_modal_trajectory_in_Supp (pre : stack -> stack) N AG (AI : F -> nat -> nat -> nat -> nat -> F)
            (t : stepterm F) (scalings : list (nat -> nat -> F)) :
      (forall x, Supp fast M L R C x -> forall k i l, (i < R)%nat -> (l < C)%nat ->
                 mask fast M L i l = false -> pre x k i l = 0) ->
      forall k u, Supp fast M L R C u ->
        Supp fast M L R C
             (iter k (with_filters
                        (step_of (vo := StackSp) (explicit_model L C pre) (diagop N AG) (fun eta => diagop N (AI eta)) t)
                        (map (fun s => rk_filter (lfilter s)) scalings)) u).
    Proof. exact (modal_trajectory_in_Supp fast M L R C HLC pre N AG AI t scalings). Qed.
  End Pattern.

  Section Means.
    Variables (fast : bool) (L R C : nat) (r : F) (a b : @arr2 F).
    Hypothesis Hr : r <> 0.
    Hypothesis HL : (2 <= L)%nat.
    Hypothesis HLC : (L <= C)%nat.
    Hypothesis HR : (0 < R)%nat.

    (** Stokes / Gauss in spectral form: for ANY arguments and ANY weight tables *)
    Theorem C11_mean_tendencies_vanish g uv ke oro pe :
      pe_vort_tend fast L R C r a b uv 0%nat 0%nat = 0 /\
      pe_div_tend fast L R C r a b g uv ke oro 0%nat 0%nat = 0 /\
      sw_vort_tend fast L R C r a b uv 0%nat 0%nat = 0 /\
      sw_div_tend fast L R C r a b uv pe 0%nat 0%nat = 0 /\
      sw_pot_tend fast L R C r a b uv 0%nat 0%nat = 0.
    Proof.
      repeat split.
      - eapply pe_vort_tend_00; eassumption.
      - eapply pe_div_tend_00; eassumption.
      - eapply sw_vort_tend_00; eassumption.
      - eapply sw_div_tend_00; eassumption.
      - eapply sw_pot_tend_00; eassumption.
    Qed.

    Theorem C11_sw_implicit_at_mean eta phi d p :
      sw_impl_div (lap_eig L r 0) p = 0 /\
      sw_inv_div eta phi (lap_eig L r 0) d p = d /\
      sw_inv_pot eta phi (lap_eig L r 0) d p = p - eta * phi * d /\
      sw_impl_pot phi d = - phi * d.
    Proof. eapply (sw_implicit_00 L R C r); eassumption. Qed.
  End Means.

  (** any inverse of (1 - eta G) passes every component that G annihilates
      (first block row [I 0 0] of the implicit matrix at l = 0) *)
  Theorem C11_inverse_passes_component (P : V -> F) eta y :
    (forall x y, P (va x y) = P x + P y) -> (forall c x, P (vs c x) = c * P x) -> (forall x, P (G x) = 0) ->
    va (Ginv eta y) (vs (- eta) (G (Ginv eta y))) = y -> P (Ginv eta y) = P y.
  Proof. intros Pa Ps PG. exact (inverse_passes_component G Ginv P Pa Ps PG eta y). Qed.

  (** shallow water: (0,0) potential tendency -phiref * div00, so the mean thickness is
      conserved along every trajectory that starts with zero mean divergence *)
  Theorem C11_sw_mean_thickness_conserved (D P : V -> F) (phiref : F) (t : stepterm F) (c : F)
          (filters : list (V -> V -> V)) :
    D vz = 0 -> (forall x y, D (va x y) = D x + D y) -> (forall a x, D (vs a x) = a * D x) ->
    P vz = 0 -> (forall x y, P (va x y) = P x + P y) -> (forall a x, P (vs a x) = a * P x) ->
    (forall x, D (Fx x) = 0) -> (forall x, D (G x) = 0) -> (forall eta x, D (Ginv eta x) = D x) ->
    (forall x, P (Fx x) = 0) -> (forall x, P (G x) = - phiref * D x) ->
    (forall eta x, P (Ginv eta x) = P x - eta * phiref * D x) ->
    consistent t c ->
    (forall f, In f filters -> forall u un, D (f u un) = D un /\ P (f u un) = P un) ->
    forall k u, D u = 0 ->
      P (iter k (with_filters (step_of Fx G Ginv t) filters) u) = P u /\
      D (iter k (with_filters (step_of Fx G Ginv t) filters) u) = 0.
  Proof.
    intros. eapply (sw_mean_thickness_conserved Fx G Ginv D P phiref); eauto.
  Qed.

  (** scalar images of all integrators (arbitrary coefficient lists / tableaux) *)
  Theorem C11_integrators_consistent (dt : F) :
    consistent (euler_term dt) dt /\
    ((1 + 1 : F) <> 0 -> consistent (cn_rk2_term dt) dt) /\
    (forall al be ga, consistent (ls_step_term dt al be ga) (dt * ls_consistency al be ga)) /\
    (forall a_ex a_im b_ex b_im t, imex_term dt a_ex a_im b_ex b_im = Some t ->
                                   consistent t (dt * imex_consistency a_ex a_im b_ex)) /\
    (forall alpha ph pe, aeval ph (leapfrog_term dt alpha) pe = pe 0%nat + itwo * dt * ph).
  Proof.
    split; [|split; [|split; [|split]]].
    - exact (euler_consistent dt).
    - exact (cn_rk2_consistent dt).
    - exact (ls_consistent dt).
    - exact (imex_consistent dt).
    - intros alpha ph pe. exact (leapfrog_scalar dt alpha ph pe).
  Qed.

  (** ** sim_time: explicit tendency tdot (1.0 in the code), implicit tendency 0, the
      inverse and the filters pass it through: t0 + k * (c * tdot) after k steps *)
  Theorem C11_sim_time_advances (tdot : F) (t : stepterm F) (c : F) (fs : list (V -> V)) k (u : V * F) :
    consistent t c ->
    snd (iter k (with_filters (step_of (vo := TimedSp vo) (timed_F tdot Fx) (timed_G G) (timed_Ginv Ginv) t)
                              (map (fun f => rk_filter (timed_filter f)) fs)) u)
    = snd u + lit k * (c * tdot).
  Proof. exact (sim_time_advances Fx G Ginv tdot t c fs k u). Qed.

  (** filtering._preserves_shape: a scaling with at least one axis never touches a scalar leaf *)
  Theorem C11_filter_leaves_scalar_leaf (sc : Filters.arr) (t : F) :
    fst sc <> [] -> rescale sc (scalar_arr t) = scalar_arr t.
  Proof. exact (filter_leaves_scalar sc t). Qed.

  (** vertical advection of a level-constant field is exactly 0 (all K, all level sets, all velocities) *)
  Theorem C11_uniform_tracer_vertical K (b w : nat -> F) (c wt wb : F) n :
    centered_vertical_advection K b w (fun _ => c) wt wb 0 0 n = 0.
  Proof. exact (cva_constant K b w c wt wb n). Qed.

  (** horizontal part under the named hypothesis H_uv_roundtrip (last premise):
      to_modal(c*div + vertical) - H(c u, c v) = 0 *)
  Theorem C11_uniform_tracer_horizontal {N : Type} (scaleN : F -> N -> N) (addN : N -> N -> N) (zeroN : N)
          (to_modal : N -> F) (Hop : N -> N -> F) (c : F) (divn un vn vert : N) :
    (forall k x, to_modal (scaleN k x) = k * to_modal x) ->
    (forall x y, to_modal (addN x y) = to_modal x + to_modal y) ->
    (forall k x y, Hop (scaleN k x) (scaleN k y) = k * Hop x y) ->
    to_modal vert = 0 ->
    Hop un vn = to_modal divn ->
    to_modal (addN (scaleN c divn) vert) + - Hop (scaleN c un) (scaleN c vn) = 0.
  Proof. exact (uniform_tracer_horizontal scaleN addN to_modal Hop c divn un vn vert). Qed.

  (** hence: if the tracer tendency vanishes on the subspace U of states with a uniform
      tracer (the two facts above), U is invariant and every tracer coefficient P is
      constant along every trajectory *)
  Theorem C11_uniform_tracer_stays_uniform (U : V -> Prop) (P : V -> F) (t : stepterm F) (c : F)
          (filters : list (V -> V -> V)) :
    U vz -> (forall x y, U x -> U y -> U (va x y)) -> (forall a x, U x -> U (vs a x)) ->
    (forall x, U x -> U (Fx x)) -> (forall x, U x -> U (G x)) -> (forall eta x, U x -> U (Ginv eta x)) ->
    P vz = 0 -> (forall x y, P (va x y) = P x + P y) -> (forall a x, P (vs a x) = a * P x) ->
    (forall x, U x -> P (Fx x) = 0) -> (forall x, U x -> P (G x) = 0) ->
    (forall eta x, U x -> P (Ginv eta x) = P x) ->
    consistent t c ->
    (forall f, In f filters -> forall u un, U u -> U un -> U (f u un) /\ P (f u un) = P un) ->
    forall k u, U u ->
      U (iter k (with_filters (step_of Fx G Ginv t) filters) u) /\
      P (iter k (with_filters (step_of Fx G Ginv t) filters) u) = P u.
  Proof.
    intros U0 Ua Us UF UG UI P0 Pa Ps PF PG PI Hc Hf k u Hu.
    exact (conserved_component Fx G Ginv U (Build_InvSub _ _ _ _ U0 Ua Us UF UG UI)
             P t c filters (Build_Observable _ _ _ _ _ _ P0 Pa Ps PF PG PI) Hc Hf k u Hu).
  Qed.

  (** ** the step terms are the step functions of the C06 model of time_integration.py *)
  Theorem C11_terms_are_the_integrators (dt : F) :
    let Gi := fun x eta => Ginv eta x in
    let vo' := toVOps (vo := vo) in
    (forall u, step_of Fx G Ginv (euler_term dt) u = Integrators.euler_step (vo := vo') Fx Gi dt u) /\
    (forall u, step_of Fx G Ginv (cn_rk2_term dt) u = Integrators.cn_rk2_step (vo := vo') Fx G Gi dt u) /\
    (forall al be ga u, step_of Fx G Ginv (ls_step_term dt al be ga) u
                        = Integrators.ls_step (vo := vo') Fx G Gi dt al be ga u) /\
    (forall a_ex a_im b_ex b_im u,
        option_map (fun t => step_of Fx G Ginv t u) (imex_term dt a_ex a_im b_ex b_im)
        = Integrators.imex_step (vo := vo') Fx G Gi dt a_ex a_im b_ex b_im u) /\
    (forall alpha pc, lf_step_of Fx G Ginv (leapfrog_term dt alpha) pc
                      = Integrators.leapfrog_step (vo := vo') Fx G Gi dt alpha pc).
  Proof.
    cbv zeta. split; [|split; [|split; [|split]]].
    - exact (bridge_euler Fx G Ginv dt).
    - exact (bridge_cn_rk2 Fx G Ginv dt).
    - intros al be ga u. exact (bridge_ls Fx G Ginv dt al be ga u).
    - intros a_ex a_im b_ex b_im u. exact (bridge_imex Fx G Ginv dt a_ex a_im b_ex b_im u).
    - intros alpha pc. exact (bridge_leapfrog Fx G Ginv dt alpha pc).
  Qed.
End C11.

(** ** the coefficient tables of the source (Gen/Tableaux.v, regenerated on every run) *)
Theorem C11_concrete_consistency_sums :
  ls_consistency (qcl rk3_alphas) (qcl rk3_betas) (qcl rk3_gammas) = 1 /\
  fle (fabs (ls_consistency (qcl rk4_alphas) (qcl rk4_betas) (qcl rk4_gammas) - 1)) (Q2Qc (1 # 1000000000000)) /\
  imex_consistency (qcll sil3_a_ex) (qcll sil3_a_im) (qcl sil3_b_ex) = 1 /\
  (forall dt : Qc, exists t, imex_term dt (qcll sil3_a_ex) (qcll sil3_a_im) (qcl sil3_b_ex) (qcl sil3_b_im) = Some t).
Proof.
  split; [|split; [|split]].
  - exact rk3_consistency.
  - exact rk4_consistency.
  - exact sil3_consistency.
  - exact sil3_term_defined.
Qed.

(** sim_time with the generated tables: exactly t0 + k*dt for RK3 and SIL3, and
    t0 + k*dt*c with |c - 1| <= 1e-12 for the decimal RK4 coefficients *)
Theorem C11_sim_time_advances_rk4 {V : Type} {vo : VSp Qc V} (Fx G : V -> V) (Ginv : Qc -> V -> V)
        (dt : Qc) (fs : list (V -> V)) k (u : V * Qc) :
  let run t := snd (iter k (with_filters (step_of (vo := TimedSp vo) (timed_F 1 Fx) (timed_G G) (timed_Ginv Ginv) t)
                                         (map (fun f => rk_filter (timed_filter f)) fs)) u) in
  run (ls_step_term dt (qcl rk3_alphas) (qcl rk3_betas) (qcl rk3_gammas)) = snd u + lit k * dt /\
  (forall t, imex_term dt (qcll sil3_a_ex) (qcll sil3_a_im) (qcl sil3_b_ex) (qcl sil3_b_im) = Some t ->
             run t = snd u + lit k * dt) /\
  exists c, fle (fabs (c - 1)) (Q2Qc (1 # 1000000000000)) /\
            run (ls_step_term dt (qcl rk4_alphas) (qcl rk4_betas) (qcl rk4_gammas)) = snd u + lit k * (dt * c).
Proof.
  cbv zeta. split; [|split].
  - apply sim_time_unit; [reflexivity|]. apply rk3_consistent.
  - intros t Ht. apply sim_time_unit; [reflexivity|].
    exact (consistent_unit _ _ _ sil3_consistency (imex_consistent dt _ _ _ _ t Ht)).
  - exists (ls_consistency (qcl rk4_alphas) (qcl rk4_betas) (qcl rk4_gammas)). split; [exact rk4_consistency|].
    apply sim_time_unit; [reflexivity|]. apply ls_consistent.
Qed.

Theorem C11_sim_time_advances_R {V : Type} {vo : VSp R V} (Fx G : V -> V) (Ginv : R -> V -> V)
        (dt : R) (fs : list (V -> V)) k (u : V * R) :
  snd (iter k (with_filters (step_of (vo := TimedSp vo) (timed_F 1%R Fx) (timed_G G) (timed_Ginv Ginv) (cn_rk2_term dt))
                            (map (fun f => rk_filter (timed_filter f)) fs)) u)
  = (snd u + @lit R ROps k * (dt * 1))%R.
Proof.
  assert (H2 : (@fadd R ROps 1 1 : R) <> 0).
  { cbn. intro H. apply (Rlt_irrefl 0). rewrite <- H at 2. apply Rplus_lt_0_compat; exact Rlt_0_1. }
  exact (sim_time_advances (F := R) Fx G Ginv 1%R (cn_rk2_term dt) dt fs k u (cn_rk2_consistent dt H2)).
Qed.

(** Non-vacuity: a concrete non-linear timed system over Qc (F(x) = x*x + 1, G(x) = -x,
    G_inv(eta, x) = x/(1+eta)); two RK3 steps with a filter advance the time by
    exactly 2/10; and a concrete 3 x 3 modal array on which the pattern hypotheses hold
    while the clipped explicit tendency is not identically zero. *)
Example C11_hyps_satisfiable :
  let dt := Q2Qc (1 # 10) in
  let t := ls_step_term dt (qcl rk3_alphas) (qcl rk3_betas) (qcl rk3_gammas) in
  let Fx := fun x : Qc => x * x + 1 in
  let G := fun x : Qc => - x in
  let Ginv := fun eta x : Qc => x / (1 + eta) in
  let step := with_filters (step_of (vo := TimedSp FSp) (timed_F 1 Fx) (timed_G G) (timed_Ginv Ginv) t)
                           [rk_filter (timed_filter (fun x => Q2Qc (1 # 2) * x))] in
  consistent t dt /\
  snd (iter 2 step (Q2Qc 2, Q2Qc 0)) = Q2Qc (1 # 5) /\
  fst (iter 2 step (Q2Qc 2, Q2Qc 0)) <> 0 /\
  let pre := fun (x : stack) k i l => if mask false 2 3 i l then x k i l * x k i l + 1 else 0 in
  let x0 : stack := fun k i l => if must_vanish false 2 3 i l then 0 else Q2Qc (1 # 2) in
  Supp false 2 3 3 3 x0 /\
  (forall x k i l, mask false 2 3 i l = false -> pre x k i l = 0) /\
  explicit_model 3 3 pre x0 0%nat 0%nat 0%nat <> 0 /\
  Supp false 2 3 3 3 (explicit_model 3 3 pre x0).
Proof.
  cbv zeta. split; [|split; [|split; [|split; [|split; [|split]]]]].
  - apply rk3_consistent.
  - etransitivity; [exact (sim_time_unit (vo := FSp) _ _ _ 1 _ _ [_] 2 _ eq_refl (rk3_consistent _))|].
    apply Qc_is_canon. vm_compute. reflexivity.
  - (* the term repeats its subterms; the loop of Model/Integrators.v, which it equals, shares them *)
    apply Qc_neq0. cbn [iter with_filters fold_left rk_filter]. rewrite !bridge_ls. vm_compute. reflexivity.
  - intros k i l _ _ Hm. rewrite Hm. reflexivity.
  - intros x k i l Hm. rewrite Hm. reflexivity.
  - apply Qc_neq0. vm_compute. reflexivity.
  - apply (explicit_into_Supp false 2 3 3 3 (le_n 3)). intros x k i l _ _ Hm. rewrite Hm. reflexivity.
Qed.

(** ** maybe_fix_sim_time_roundoff (dt * round(sim_time / dt)) as the last step filter:
    for any rounding to the nearest integer, any dt <> 0 of either sign, any scheme whose
    consistency sum cs is within 1/2 of 1, any array filters: from n0*dt (n0 any integer,
    negative, zero or positive) the clock after k steps is exactly (n0 + k)*dt *)
Theorem C11_fix_time_trajectory {F : Type} {o : Ops F} {Oc : OrdFieldC o} (ZM : ZMorph o)
        (rnd : F -> Z) (dt cs : F) {V : Type} {vo : VSp F V} (Fx G : V -> V) (Ginv : F -> V -> V)
        (t : stepterm F) (fs : list (V -> V)) (n0 : Z) k (u : V * F) :
  nearest rnd -> dt <> 0 -> flt (1 - ihalf) cs -> flt cs (1 + ihalf) ->
  consistent t (dt * cs) -> snd u = dt * fofZ n0 ->
  snd (iter k (with_filters (step_of (vo := TimedSp vo) (timed_F 1 Fx) (timed_G G) (timed_Ginv Ginv) t)
                            (map (fun f => rk_filter (timed_filter f)) fs
                                 ++ [rk_filter (fix_time_filter rnd dt)])) u)
  = dt * fofZ (n0 + Z.of_nat k)%Z.
Proof.
  intros Hn Hdt Hlo Hhi Hc Hu.
  exact (fix_time_trajectory ZM rnd dt cs Hn Hdt Hlo Hhi Fx G Ginv t fs n0 k u Hc Hu).
Qed.

(** instance: round-half-to-even on the rationals (the model of jnp.round that is run
    against the implementation) is a rounding to nearest; with the generated RK3 table the
    clock started at n0*dt is at (n0 + k)*dt after k steps, for every integer n0 and every k *)
Theorem C11_fix_time_round_half_even {V : Type} {vo : VSp Qc V} (Fx G : V -> V) (Ginv : Qc -> V -> V)
        (dt : Qc) (fs : list (V -> V)) (n0 : Z) k (u : V * Qc) :
  nearest (fun x : Qc => rhe (this x)) /\
  (dt <> 0 -> snd u = dt * fofZ n0 ->
   snd (iter k (with_filters (step_of (vo := TimedSp vo) (timed_F 1 Fx) (timed_G G) (timed_Ginv Ginv)
                                      (ls_step_term dt (qcl rk3_alphas) (qcl rk3_betas) (qcl rk3_gammas)))
                             (map (fun f => rk_filter (timed_filter f)) fs
                                  ++ [rk_filter (fix_time_filter (fun x : Qc => rhe (this x)) dt)])) u)
   = dt * fofZ (n0 + Z.of_nat k)%Z).
Proof.
  split; [exact rnd_qc_nearest|]. intros Hdt Hu.
  assert (Hlo : @flt Qc QcOps (1 - ihalf) 1) by (vm_compute; reflexivity).
  assert (Hhi : @flt Qc QcOps 1 (1 + ihalf)) by (vm_compute; reflexivity).
  assert (Hc : consistent (ls_step_term dt (qcl rk3_alphas) (qcl rk3_betas) (qcl rk3_gammas)) (dt * 1)).
  { rewrite <- rk3_consistency. apply ls_consistent. }
  exact (fix_time_trajectory QcZMorph _ dt 1 rnd_qc_nearest Hdt Hlo Hhi Fx G Ginv _ fs n0 k u Hc Hu).
Qed.


(** ** the shallow-water explicit terms as modelled in Model/ShallowWater.v (the concrete assembly of
    ShallowWaterEquations.explicit_terms: all layers, density ratios, orography; proofs in Thm/ShallowWater.v) *)
Section C11_shallow_water.
  Context {F : Type} {o : Ops F} {Fc : FieldC o}.
  Variables (fast : bool) (M R L I J N : nat) (f : nat -> nat -> F) (p : nat -> nat -> nat -> F) (wq : nat -> F)
            (rad : F) (wa wb : @arr2 F) (dens : nat -> F).
  Let toM := sw_toM R L I J f p wq.
  Let divc := sw_divc fast R L rad wa wb.
  Let curlc := sw_curlc fast R L rad wa wb.
  Let lap := sw_lap (F := F) L rad.
  Let clp := sw_clip (F := F) L.

  (** global means: the (0,0) coefficients of the vorticity, divergence and potential (layer thickness) tendencies of
      every layer vanish for ANY nodal columns, potentials, orography, densities and ANY tables *)
  Theorem C11_sw_mean_tendencies_vanish (X : Wn -> SWCol) (pot : nat -> Wn -> F) (orog : option (Wn -> F)) r :
    rad <> 0 -> (2 <= L)%nat -> (0 < R)%nat ->
    sw_vort_explicit Wn Wn toM divc clp X r (0%nat, 0%nat) = 0 /\
    sw_div_explicit Wn Wn toM curlc lap clp N dens X pot orog r (0%nat, 0%nat) = 0 /\
    sw_pot_explicit Wn Wn toM divc clp X r (0%nat, 0%nat) = 0.
  Proof. intros; eapply sw_mean_tendencies_vanish; eassumption. Qed.

  (** the clipped top total wavenumber: unconditional *)
  Theorem C11_sw_explicit_top_zero (X : Wn -> SWCol) (pot : nat -> Wn -> F) (orog : option (Wn -> F)) r a l :
    (L - 1 <= l)%nat ->
    sw_vort_explicit Wn Wn toM divc clp X r (a, l) = 0 /\
    sw_div_explicit Wn Wn toM curlc lap clp N dens X pot orog r (a, l) = 0 /\
    sw_pot_explicit Wn Wn toM divc clp X r (a, l) = 0.
  Proof. intros; eapply sw_explicit_top_zero; eassumption. Qed.

  (** the whole support pattern (triangular mask and top wavenumber), under the named hypotheses sw_H_p_support
      (basis functions f * p zero outside the mask) and sw_H_deriv_mask (div / curl keep the mask), for modal inputs
      (potentials, orography) in the pattern *)
  Theorem C11_sw_explicit_into_Supp (X : Wn -> SWCol) (pot : nat -> Wn -> F) (orog : option (Wn -> F)) :
    sw_H_p_support fast M R L I J f p -> sw_H_deriv_mask fast M R L rad wa wb ->
    (forall b, (b < N)%nat -> sw_masked fast M R L (pot b)) -> (forall h, orog = Some h -> sw_masked fast M R L h) ->
    Supp fast M L R L (fun k i l => sw_vort_explicit Wn Wn toM divc clp X k (i, l)) /\
    Supp fast M L R L (fun k i l => sw_div_explicit Wn Wn toM curlc lap clp N dens X pot orog k (i, l)) /\
    Supp fast M L R L (fun k i l => sw_pot_explicit Wn Wn toM divc clp X k (i, l)).
  Proof. intros; eapply sw_explicit_into_Supp; eassumption. Qed.
End C11_shallow_water.


(** ** the CONCRETE whole-state primitive-equation model (Model/PrimEqFull.v: explicit_terms_full, implicit_terms_full,
    implicit_inverse_full = PrimitiveEquations.explicit_terms / implicit_terms / implicit_inverse, dry class, reference
    layout, any number of levels and tracers, with orography; proofs in Thm/InvariantsFull.v).  The table obligations
    H_pre_mask / H_mean_tendency_zero of the abstract theorems above are THEOREMS here. *)
From Dino Require Import Model.Implicit Model.PrimEq Model.PrimEqFull Thm.InvariantsFull.

Section C11_primitive_equations.
  Context {F : Type} {o : Ops F} {Fc : FieldC o}.
  Variables (g : @HGrid F) (c : @PEcfg F) (grav : F) (orog : nat -> nat -> F).
  Let E := explicit_terms_full g c grav orog.
  Let G := implicit_terms_full g c.

  (** the clipped top total wavenumber (and everything beyond): every field, level, tracer, state, ALL tables *)
  Theorem C11_pe_explicit_top_zero (s : @State F) a l :
    (hL g - 1 <= l)%nat ->
    (forall k, s_vort (E s) k a l = 0) /\ (forall k, s_div (E s) k a l = 0) /\ (forall k, s_temp (E s) k a l = 0) /\
    (s_lnps (E s) a l = 0) /\ List.Forall (fun t : nat -> nat -> nat -> F => forall k, t k a l = 0) (s_tr (E s)).
  Proof. exact (pe_explicit_top_zero g c grav orog s a l). Qed.

  (** the whole pattern for ANY input state (the input may violate the pattern), under the named hypotheses
      pe_H_p_support (f * p zero outside the mask), pe_H_deriv_mask (div / curl keep the mask), orography in the mask *)
  Theorem C11_pe_explicit_into_Supp (s : @State F) :
    pe_H_p_support g -> pe_H_deriv_mask g -> pe_masked g orog -> StSupp g (E s).
  Proof. exact (pe_explicit_into_Supp g c grav orog s). Qed.

  (** Stokes / Gauss: (0,0) coefficients of the vorticity and divergence tendencies, explicit and implicit, every level,
      ANY state, ALL tables *)
  Theorem C11_pe_mean_tendencies_vanish (s : @State F) k :
    hr g <> 0 -> (2 <= hL g)%nat -> (0 < hR g)%nat ->
    s_vort (E s) k 0%nat 0%nat = 0 /\ s_div (E s) k 0%nat 0%nat = 0 /\
    s_vort (G s) k 0%nat 0%nat = 0 /\ s_div (G s) k 0%nat 0%nat = 0.
  Proof.
    intros Hr HL HR0. destruct (pe_explicit_means_vanish g c grav orog s k Hr HL HR0) as [A B].
    destruct (pe_implicit_means_vanish g c s k Hr) as [A' B']. repeat split; assumption.
  Qed.

  (** implicit terms and implicit inverse (ANY inverse tables) map the pattern to itself *)
  Theorem C11_pe_implicit_preserve_Supp (eta : F) (invt : nat -> @Mat F) (s : @State F) :
    StSupp g s -> StSupp g (G s) /\ StSupp g (implicit_inverse_full g c eta invt s).
  Proof. intros Hs. split; [now apply pe_implicit_preserves_Supp|now apply pe_inverse_preserves_Supp]. Qed.

  Variable invt : F -> nat -> @Mat F.
  Let Gi := fun eta => implicit_inverse_full g c eta (invt eta).

  (** trajectories: every step term (all integrators are such terms: C11_terms_are_the_integrators), every filter stack
      that keeps the pattern, every number of steps; Runge-Kutta type and leapfrog *)
  Theorem C11_primeq_trajectory_in_subspace (t : stepterm F) (filters : list (@State F -> @State F -> @State F)) :
    pe_H_p_support g -> pe_H_deriv_mask g -> pe_masked g orog ->
    (forall f, In f filters -> forall u un, StSupp g u -> StSupp g un -> StSupp g (f u un)) ->
    forall k u, StSupp g u ->
      StSupp g (iter k (with_filters (step_of (vo := StateSp) E G Gi t) filters) u).
  Proof. exact (primeq_trajectory_in_subspace g c grav orog invt t filters). Qed.

  Theorem C11_primeq_leapfrog_trajectory_in_subspace (t : stepterm F)
          (filters : list (@State F * @State F -> @State F * @State F -> @State F * @State F)) :
    pe_H_p_support g -> pe_H_deriv_mask g -> pe_masked g orog ->
    (forall f, In f filters -> forall u un, S2 (StSupp g) u -> S2 (StSupp g) un -> S2 (StSupp g) (f u un)) ->
    forall k u, S2 (StSupp g) u ->
      S2 (StSupp g) (iter k (with_filters (lf_step_of (vo := StateSp) E G Gi t) filters) u).
  Proof. exact (primeq_leapfrog_trajectory_in_subspace g c grav orog invt t filters). Qed.

  (** global means never change, from ANY initial state: vorticity unconditionally; divergence when the divergence rows of
      the inverse table at total wavenumber 0 are unit rows (pe_H_inv0_div_rows: first block row [I 0 0]) *)
  Theorem C11_primeq_means_conserved (t : stepterm F) (cs : F) (filters : list (@State F -> @State F -> @State F)) lev :
    hr g <> 0 -> (2 <= hL g)%nat -> (0 < hR g)%nat ->
    consistent t cs ->
    (forall f, In f filters -> forall u un, P_vort lev (f u un) = P_vort lev un /\ P_div lev (f u un) = P_div lev un) ->
    forall k u,
      P_vort lev (iter k (with_filters (step_of (vo := StateSp) E G Gi t) filters) u) = P_vort lev u /\
      (pe_H_inv0_div_rows c invt -> (lev < cK c)%nat ->
       P_div lev (iter k (with_filters (step_of (vo := StateSp) E G Gi t) filters) u) = P_div lev u).
  Proof. exact (primeq_means_conserved g c grav orog invt t cs filters lev). Qed.
End C11_primitive_equations.

(** the named hypotheses (except pe_H_deriv_mask, which is a statement about all pairs of arrays and is re-checked on the
    implementation's operators like sw_H_deriv_mask) are satisfiable on a concrete 3 x 3 instance over Qc (M = 2, L = 3; tables that are non-zero
    inside the mask), with the exact inverse at total wavenumber 0 *)
Definition ex_pe_grid : @HGrid Qc :=
  mkHG 2 3 2 2 1 (fun _ _ => 1) (fun a _ l => if mask false 2 3 a l then 1 else 0) (fun _ => 1)
       (fun _ _ => 0) (fun _ _ => 1) (fun _ => 1) (fun _ => 0) 1.
Definition ex_pe_cfg : @PEcfg Qc := mkPE 2 1 1 (fun k => fofZ (Z.of_nat k)) (fun k => fofZ (Z.of_nat k)) (fun _ => 1).
Definition ex_pe_invt (eta : Qc) (_ : nat) : @Mat Qc :=
  fun i j => if Nat.ltb i 2 then eye i j
             else if Nat.ltb j 2 then (if Nat.ltb i 4 then - (eta * temp_weights ex_pe_cfg (i - 2)%nat j)
                                       else - (eta * thickness (cb ex_pe_cfg) j))
                  else eye i j.
Example C11_pe_hyps_satisfiable :
  pe_H_p_support ex_pe_grid /\
  pe_masked ex_pe_grid (fun a l => if mask false 2 3 a l then 1 else 0) /\
  pe_H_inv0_div_rows ex_pe_cfg ex_pe_invt /\
  (exists a l, (a < 3)%nat /\ (l < 3)%nat /\ mask false 2 3 a l = false) /\
  hf ex_pe_grid 0%nat 0%nat * hp ex_pe_grid 0%nat 0%nat 0%nat <> 0.
Proof.
  split; [|split; [|split; [|split]]].
  - intros i a j l _ _ _ _ Hm. cbn [ex_pe_grid hf hp hM hL] in *. rewrite Hm. apply Qc_is_canon. vm_compute. reflexivity.
  - intros a l _ _ Hm. cbn [ex_pe_grid hM hL] in Hm. rewrite Hm. reflexivity.
  - intros eta i j Hi _. unfold ex_pe_invt. cbn [ex_pe_cfg cK] in Hi. destruct (Nat.ltb_spec i 2); [reflexivity|lia].
  - exists 1%nat, 0%nat. repeat split; lia.
  - intro H. vm_compute in H. discriminate H.
Qed.

(** the named hypotheses of the concrete primitive-equation theorems derived from more primitive facts *)
From Dino Require Import Model.Legendre Model.Symmetry Thm.SymmetryLegendre.

Section C11_primitive_equations_derived.
  Context {F : Type} {o : Ops F} {Fc : FieldC o}.
  Variables (g : @HGrid F) (c : @PEcfg F) (grav : F) (orog : nat -> nat -> F) (invt : F -> nat -> @Mat F).
  Let E := explicit_terms_full g c grav orog.
  Let G := implicit_terms_full g c.
  Let Gi := fun eta => implicit_inverse_full g c eta (invt eta).

  (** pe_H_inv0_div_rows holds for EVERY right inverse of the assembled implicit matrix at total wavenumber 0
      (whose divergence rows are the unit rows [I 0 0] because the laplacian eigenvalue is 0) *)
  Theorem C11_pe_right_inverse_div_rows :
    hr g <> 0 -> (2 <= hL g)%nat -> pe_H_inv0_right_inverse g c invt -> pe_H_inv0_div_rows c invt.
  Proof. exact (pe_right_inverse_div_rows g c invt). Qed.

  (** pe_H_p_support holds for the table the code builds: basis.p[a] = legendre.evaluate(M, L, x)[|m(a)|]
      (Model/Legendre.v; the support is proved from the recurrence in Thm/Legendre.v) *)
  Theorem C11_pe_H_p_support_from_recurrence (sq : F -> F) (x y : nat -> F) :
    pe_p_is_evaluate g sq x y -> pe_H_p_support g.
  Proof. exact (pe_H_p_support_from_recurrence g sq x y). Qed.

  (** pe_H_deriv_mask holds whenever the recurrence weight a vanishes at l = |m| (reference layout; ANY b, radius) *)
  Theorem C11_pe_H_deriv_mask_from_weights : pe_H_a_diag g -> pe_H_deriv_mask g.
  Proof. exact (pe_H_deriv_mask_from_weights g). Qed.

  (** the pattern theorems resting on: basis.p is the recurrence table, a = 0 at l = |m|, orography in the mask *)
  Theorem C11_pe_explicit_into_Supp_from_recurrence (sq : F -> F) (x y : nat -> F) (s : @State F) :
    pe_p_is_evaluate g sq x y -> pe_H_a_diag g -> pe_masked g orog -> StSupp g (E s).
  Proof. exact (pe_explicit_into_Supp_from_recurrence g c grav orog sq x y s). Qed.

  Theorem C11_primeq_trajectory_in_subspace_from_recurrence (sq : F -> F) (x y : nat -> F)
          (t : stepterm F) (filters : list (@State F -> @State F -> @State F)) :
    pe_p_is_evaluate g sq x y -> pe_H_a_diag g -> pe_masked g orog ->
    (forall f, In f filters -> forall u un, StSupp g u -> StSupp g un -> StSupp g (f u un)) ->
    forall k u, StSupp g u ->
      StSupp g (iter k (with_filters (step_of (vo := StateSp) E G Gi t) filters) u).
  Proof. exact (primeq_trajectory_in_subspace_from_recurrence g c grav orog invt sq x y t filters). Qed.

  Theorem C11_primeq_leapfrog_trajectory_in_subspace_from_recurrence (sq : F -> F) (x y : nat -> F) (t : stepterm F)
          (filters : list (@State F * @State F -> @State F * @State F -> @State F * @State F)) :
    pe_p_is_evaluate g sq x y -> pe_H_a_diag g -> pe_masked g orog ->
    (forall f, In f filters -> forall u un, S2 (StSupp g) u -> S2 (StSupp g) un -> S2 (StSupp g) (f u un)) ->
    forall k u, S2 (StSupp g) u ->
      S2 (StSupp g) (iter k (with_filters (lf_step_of (vo := StateSp) E G Gi t) filters) u).
  Proof. exact (primeq_leapfrog_trajectory_in_subspace_from_recurrence g c grav orog invt sq x y t filters). Qed.

  (** global means of vorticity AND divergence never change, from ANY initial state, for every consistent step term,
      every number of steps: the only fact about the inverse tables is that the one of total wavenumber 0 is a right inverse *)
  Theorem C11_primeq_means_conserved_from_inverse (t : stepterm F) (cs : F)
          (filters : list (@State F -> @State F -> @State F)) lev :
    hr g <> 0 -> (2 <= hL g)%nat -> (0 < hR g)%nat ->
    consistent t cs ->
    (forall f, In f filters -> forall u un, P_vort lev (f u un) = P_vort lev un /\ P_div lev (f u un) = P_div lev un) ->
    pe_H_inv0_right_inverse g c invt -> (lev < cK c)%nat ->
    forall k u,
      P_vort lev (iter k (with_filters (step_of (vo := StateSp) E G Gi t) filters) u) = P_vort lev u /\
      P_div lev (iter k (with_filters (step_of (vo := StateSp) E G Gi t) filters) u) = P_div lev u.
  Proof. exact (primeq_means_conserved_from_inverse g c grav orog invt t cs filters lev). Qed.

  (** semi_implicit_leapfrog (any dt, alpha), any filters that keep "both snapshots have mean m": if both snapshots start
      with the same global mean m it stays m on both snapshots for every number of steps (the unfiltered scheme alone would
      only swap the two means) *)
  Theorem C11_primeq_leapfrog_means_conserved (dt alpha : F) lev (mv md : F)
          (filters : list (@State F * @State F -> @State F * @State F -> @State F * @State F)) :
    hr g <> 0 -> (2 <= hL g)%nat -> (0 < hR g)%nat ->
    (forall k u, (forall f, In f filters -> forall v vn, Pm (P_vort lev) mv v -> Pm (P_vort lev) mv vn -> Pm (P_vort lev) mv (f v vn)) ->
                 Pm (P_vort lev) mv u ->
                 Pm (P_vort lev) mv (iter k (with_filters (lf_step_of (vo := StateSp) E G Gi (leapfrog_term dt alpha)) filters) u)) /\
    (pe_H_inv0_right_inverse g c invt -> (lev < cK c)%nat ->
     forall k u, (forall f, In f filters -> forall v vn, Pm (P_div lev) md v -> Pm (P_div lev) md vn -> Pm (P_div lev) md (f v vn)) ->
                 Pm (P_div lev) md u ->
                 Pm (P_div lev) md (iter k (with_filters (lf_step_of (vo := StateSp) E G Gi (leapfrog_term dt alpha)) filters) u)).
  Proof. exact (primeq_leapfrog_means_conserved g c grav orog invt dt alpha lev mv md filters). Qed.
End C11_primitive_equations_derived.

(** the hypotheses of these derivations are satisfiable over Qc: a grid whose Legendre table IS the recurrence table (M = 2, L = 3, two
    nodes; non-zero entry), a weight table with a = 0 exactly at l = |m| and 1 elsewhere, a one-level configuration with
    the exact inverse at total wavenumber 0 for every eta *)
Definition ex2_x : nat -> Qc := fun j => if Nat.eqb j 0 then Q2Qc (-1 # 2) else Q2Qc (1 # 2).
Definition ex2_y : nat -> Qc := fun _ => Q2Qc (1 # 2).
Definition ex2_sq : Qc -> Qc := fun v => v.
Definition ex2_grid : @HGrid Qc :=
  mkHG 2 3 2 2 1 (fun _ _ => 1) (leg_basis_p false ex2_sq 2 ex2_x ex2_y 2 3) (fun _ => 1)
       (fun a l => if Nat.eqb l (dref_j a) then 0 else 1) (fun _ _ => 1) (fun _ => 1) (fun _ => 0) 1.
Definition ex2_cfg : @PEcfg Qc := mkPE 1 1 1 (fun k => fofZ (Z.of_nat k)) (fun k => fofZ (Z.of_nat k)) (fun _ => 1).
Example C11_pe_round2_hyps_satisfiable :
  pe_p_is_evaluate ex2_grid ex2_sq ex2_x ex2_y /\ pe_H_a_diag ex2_grid /\
  pe_H_inv0_right_inverse ex2_grid ex2_cfg (fun eta _ => pe_inv0_one_level ex2_cfg eta) /\
  hp ex2_grid 0%nat 0%nat 0%nat <> 0 /\ ha ex2_grid 1%nat 2%nat <> 0 /\
  pe_H_p_support ex2_grid /\ pe_H_deriv_mask ex2_grid.
Proof.
  assert (A : pe_p_is_evaluate ex2_grid ex2_sq ex2_x ex2_y) by (intros a j l _ _ _; reflexivity).
  assert (B : pe_H_a_diag ex2_grid).
  { intros a l _ _ ->. cbn [ex2_grid ha]. now rewrite Nat.eqb_refl. }
  split; [exact A|]. split; [exact B|]. split; [|split; [|split; [|split]]].
  - intros eta i j Hi Hj. cbn [ex2_cfg cK] in Hi, Hj.
    apply (pe_inv0_one_level_right_inverse ex2_cfg eta _ i j eq_refl); [|lia|lia].
    apply (lap_eig_0 3 1 3); [|lia|lia|lia]. cbn [ex2_grid hr]. destruct (field_c (o := QcOps)); auto.
  - intro H. vm_compute in H. discriminate H.
  - intro H. vm_compute in H. discriminate H.
  - exact (pe_H_p_support_from_recurrence ex2_grid ex2_sq ex2_x ex2_y A).
  - exact (pe_H_deriv_mask_from_weights ex2_grid B).
Qed.

(** ** Tie to the source by translation: [maybe_fix_sim_time_roundoff] of the model is the transcribed
    expression [dt * jnp.round(state.sim_time / dt)] (tools/translate/gen_combinators.py). *)
From Dino Require Import Gen.CombinatorsSrc Thm.CombinatorsSrc.
Theorem C11_fix_time_is_source {F : Type} {o : Ops F} {Fc : FieldC o} (rnd : F -> Z) (dt t : F) :
  fix_time rnd dt t = fix_time_src (fun x => fofZ (rnd x)) dt t /\ gen_combinators_ok = true.
Proof. split; [apply fix_time_matches_source | exact gen_combinators_complete]. Qed.

Print Assumptions C11_term_preserves_subspace.
Print Assumptions C11_trajectory_in_subspace.
Print Assumptions C11_leapfrog_trajectory_in_subspace.
Print Assumptions C11_explicit_into_Supp.
Print Assumptions C11_explicit_top_zero.
Print Assumptions C11_diagonal_preserves_Supp.
Print Assumptions C11_modal_trajectory_in_Supp.
Print Assumptions C11_term_fixes_invariant_component.
Print Assumptions C11_mean_tendencies_vanish.
Print Assumptions C11_inverse_passes_component.
Print Assumptions C11_sw_implicit_at_mean.
Print Assumptions C11_sw_mean_thickness_conserved.
Print Assumptions C11_integrators_consistent.
Print Assumptions C11_concrete_consistency_sums.
Print Assumptions C11_sim_time_advances.
Print Assumptions C11_sim_time_advances_rk4.
Print Assumptions C11_filter_leaves_scalar_leaf.
Print Assumptions C11_uniform_tracer_vertical.
Print Assumptions C11_uniform_tracer_horizontal.
Print Assumptions C11_uniform_tracer_stays_uniform.
Print Assumptions C11_terms_are_the_integrators.
Print Assumptions C11_sim_time_advances_R.
Print Assumptions C11_hyps_satisfiable.
Print Assumptions C11_fix_time_trajectory.
Print Assumptions C11_fix_time_round_half_even.
Print Assumptions C11_sw_mean_tendencies_vanish.
Print Assumptions C11_sw_explicit_top_zero.
Print Assumptions C11_sw_explicit_into_Supp.
Print Assumptions C11_pe_explicit_top_zero.
Print Assumptions C11_pe_explicit_into_Supp.
Print Assumptions C11_pe_mean_tendencies_vanish.
Print Assumptions C11_pe_implicit_preserve_Supp.
Print Assumptions C11_primeq_trajectory_in_subspace.
Print Assumptions C11_primeq_leapfrog_trajectory_in_subspace.
Print Assumptions C11_primeq_means_conserved.
Print Assumptions C11_pe_hyps_satisfiable.
Print Assumptions C11_fix_time_is_source.
Print Assumptions C11_pe_right_inverse_div_rows.
Print Assumptions C11_pe_H_p_support_from_recurrence.
Print Assumptions C11_pe_H_deriv_mask_from_weights.
Print Assumptions C11_pe_explicit_into_Supp_from_recurrence.
Print Assumptions C11_primeq_trajectory_in_subspace_from_recurrence.
Print Assumptions C11_primeq_leapfrog_trajectory_in_subspace_from_recurrence.
Print Assumptions C11_primeq_means_conserved_from_inverse.
Print Assumptions C11_primeq_leapfrog_means_conserved.
Print Assumptions C11_pe_round2_hyps_satisfiable.
