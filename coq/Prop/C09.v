(** Property C09 - the two spherical-harmonic implementations are
    observationally equivalent under the fixed re-indexing of their coefficient
    layouts; the fast implementation's tuning options never change results.
    Proofs in Thm/SHTFast.v (and Thm/SHT.v).
    Every theorem: arbitrary field [F] (hence the reals), arbitrary sizes
    M, L, I, J, arbitrary paddings (Mh >= M, Lf >= L, If >= I, Jf >= J), arbitrary
    tables, arbitrary inputs.  [tables_related] (the fast f, p, w are the
    reference ones re-indexed by phi, with the zero m=-0 column and zero
    padding) is an EXACT table obligation checked by tools/props/C09.py on the
    arrays dumped from both implementations.
    Scope: transforms, masks, modal axes / eigenvalue tables, shapes, options.
    Sharded execution (C07) is compared implementation-vs-implementation by the plugin.
    "Hence the same model tendencies" ([Section C09_whole_state], proofs in
    Thm/PrimEqFullFast.v): the whole-state primitive-equation model on the fast layout
    (Model/PrimEqFullFast.v: explicit_terms, implicit_terms, implicit_inverse composed from
    the fast transforms and the fast = true differential operators on padded shapes) returns,
    on every in-range coefficient (phi a, l), the value the reference whole-state model
    (Model/PrimEqFull.v) returns at (a, l) - for the embedded state E s and in fact for EVERY
    fast state that agrees with s on the in-range coefficients (garbage in the extra row or in
    the padding is inert).  Extra hypothesis: [dtables_related] (the derivative recurrence
    weights a, b of the fast grid are the reference ones re-indexed; a is zero in the padded
    columns) - an exact table obligation like [tables_related].
    "... and trajectories": C09_step_equiv / C09_filter_equiv / C09_trajectory_equiv below. *)
From Dino Require Import Model.Integrators.
From Dino Require Import Model.Sigma Model.Implicit Model.PrimEq Model.Deriv Model.PrimEqFull Model.PrimEqFullFast Thm.PrimEqFullFast.
From Dino Require Import Base.Ops Base.Sums Base.Inst Model.SHT Model.SHTFast Thm.SHT Thm.SHTFast.
From Coq Require Import Qcanon.
Local Open Scope F_scope.

Section C09.
  Context {F : Type} {o : Ops F} {Fc : FieldC o}.
  Variables (M L I J Mh Lf If Jf : nat).
  Hypothesis HM : (1 <= M)%nat.
  Hypothesis HMh : (M <= Mh)%nat.
  Hypothesis HLf : (L <= Lf)%nat.
  Hypothesis HIf : (I <= If)%nat.
  Hypothesis HJf : (J <= Jf)%nat.
  Variable fr : nat -> nat -> F.           (* reference tables *)
  Variable pr : nat -> nat -> nat -> F.
  Variable wr : nat -> F.
  Variable ff : nat -> nat -> F.           (* fast tables (unstacked f) *)
  Variable pf : nat -> nat -> nat -> F.
  Variable wf : nat -> F.
  Let K := modal_rows_real M.
  Let TR := tables_related M L I J Mh Lf If Jf fr pr wr ff pf wf.

  (** synth_fast . E = pad . synth_real *)
  Theorem C09_synth_equiv rev x i j : TR -> (i < If)%nat -> (j < Jf)%nat ->
    synth_fast_u rev Mh Lf Jf ff pf (embed M L x) i j = pad2 I J (synth K L J fr pr x) i j.
  Proof. unfold TR. intros. eapply synth_fast_embed; eauto. Qed.

  (** analysis_fast . pad = E . analysis_real *)
  Theorem C09_analysis_equiv rev z k l : TR -> (k < 2 * Mh)%nat -> (l < Lf)%nat ->
    analysis_fast_u rev Mh If Jf ff pf wf (pad2 I J z) k l = embed M L (analysis K I J fr pr wr z) k l.
  Proof. unfold TR. intros. eapply analysis_fast_pad; eauto. Qed.

  (** fast_padding_inert: for ARBITRARY fast-layout inputs (anything in the extra
      row, in the modal padding, in the nodal padding) the fast transforms are
      the reference transforms of the projected / cropped input; the padded
      output entries and the extra row are exactly zero *)
  Theorem C09_fast_padding_inert rev y z :
    TR ->
    (forall i j, (i < If)%nat -> (j < Jf)%nat ->
       synth_fast_u rev Mh Lf Jf ff pf y i j = pad2 I J (synth K L J fr pr (proj y)) i j) /\
    (forall k l, (k < 2 * Mh)%nat -> (l < Lf)%nat ->
       analysis_fast_u rev Mh If Jf ff pf wf z k l = embed M L (analysis K I J fr pr wr z) k l) /\
    (forall i j, (i < If)%nat -> (j < Jf)%nat -> (I <= i \/ J <= j)%nat ->
       synth_fast_u rev Mh Lf Jf ff pf y i j = 0) /\
    (forall k l, (k < 2 * Mh)%nat -> (l < Lf)%nat -> (k = 1 \/ 2 * M <= k \/ L <= l)%nat ->
       analysis_fast_u rev Mh If Jf ff pf wf z k l = 0).
  Proof.
    unfold TR. intros T. repeat split; intros.
    - eapply synth_fast_general; eauto.
    - eapply analysis_fast_general; eauto.
    - eapply synth_fast_padding_zero with (M:=M) (L:=L) (I:=I) (J:=J) (If:=If); eauto.
    - eapply analysis_fast_extra_zero with (M:=M) (L:=L) (I:=I) (J:=J) (Lf:=Lf); eauto.
  Qed.

  (** the re-indexing: Pi . E = id; E puts zeros in the extra row and the padding *)
  Theorem C09_reindex (x : nat -> nat -> F) :
    (forall a l, (a < K)%nat -> (l < L)%nat -> proj (embed M L x) a l = x a l) /\
    (forall l, embed M L x 1 l = 0) /\
    (forall k l, (2 * M <= k \/ L <= l)%nat -> embed M L x k l = 0).
  Proof.
    repeat split; intros.
    - now apply proj_embed.
    - apply embed_row1.
    - now apply embed_pad.
  Qed.

  (** options: stacked vs unstacked Fourier step (with the Fortran-reshaped table
      of [basis]) and einsum argument order are irrelevant, in any combination *)
  Theorem C09_options_irrelevant rev rev' (f : nat -> nat -> F) p w y z :
    (forall i j, (j < Jf)%nat ->
       synth_fast_s rev Mh Lf Jf (stack_f f) p y i j = synth_fast_u rev' Mh Lf Jf f p y i j) /\
    (forall k l, (k < 2 * Mh)%nat ->
       analysis_fast_s rev Mh If Jf (stack_f f) p w z k l = analysis_fast_u rev' Mh If Jf f p w z k l) /\
    (forall i j, (j < Jf)%nat ->
       synth_fast_u true Mh Lf Jf f p y i j = synth_fast_u false Mh Lf Jf f p y i j) /\
    (forall k l, (k < 2 * Mh)%nat ->
       analysis_fast_u true Mh If Jf f p w z k l = analysis_fast_u false Mh If Jf f p w z k l).
  Proof.
    repeat split; intros.
    - now apply stacked_irrelevant_synth.
    - now apply stacked_irrelevant_analysis.
    - now apply rev_irrelevant_synth.
    - now apply rev_irrelevant_analysis.
  Qed.

  (** base_shape_multiple (any other admissible padding) is irrelevant on resolved entries *)
  Theorem C09_base_multiple_irrelevant Mh' Lf' If' Jf' ff' pf' wf' rev rev' y y' z z' :
    (M <= Mh')%nat -> (L <= Lf')%nat -> (I <= If')%nat -> (J <= Jf')%nat ->
    TR -> tables_related M L I J Mh' Lf' If' Jf' fr pr wr ff' pf' wf' ->
    (forall a l, (a < 2 * M - 1)%nat -> (l < L)%nat -> y (phi a) l = y' (phi a) l) ->
    (forall i j, (i < I)%nat -> (j < J)%nat -> z i j = z' i j) ->
    (forall i j, (i < I)%nat -> (j < J)%nat ->
       synth_fast_u rev Mh Lf Jf ff pf y i j = synth_fast_u rev' Mh' Lf' Jf' ff' pf' y' i j) /\
    (forall a l, (a < 2 * M - 1)%nat -> (l < L)%nat ->
       analysis_fast_u rev Mh If Jf ff pf wf z (phi a) l
       = analysis_fast_u rev' Mh' If' Jf' ff' pf' wf' z' (phi a) l).
  Proof.
    exact (base_multiple_irrelevant M L I J Mh Lf If Jf Mh' Lf' If' Jf' fr pr wr ff pf wf ff' pf' wf'
             rev rev' y y' z z' HM HMh HLf HIf HJf).
  Qed.
End C09.

(** *** "hence the same model tendencies": whole-state primitive equations, fast vs reference *)
Section C09_whole_state.
  Context {F : Type} {o : Ops F} {Fc : FieldC o}.
  Variable g : @HGrid F.                                 (* the reference grid *)
  Variables (Mh Lf If Jf : nat) (stacked rev : bool).    (* padded shapes and options of the fast grid *)
  Variable ff : nat -> nat -> F.
  Variable pf : nat -> nat -> nat -> F.
  Variable wf : nat -> F.
  Variables af bf : nat -> nat -> F.
  Variables sec2f sinf : nat -> F.
  Let M := hM g.
  Let L := hL g.
  Let q := fast_grid_of g Mh Lf If Jf stacked rev ff pf wf af bf sec2f sinf.
  Hypothesis HM : (1 <= hM g)%nat.
  Hypothesis HMh : (hM g <= Mh)%nat.
  Hypothesis HLf : (hL g <= Lf)%nat.
  Hypothesis HIf : (hI g <= If)%nat.
  Hypothesis HJf : (hJ g <= Jf)%nat.
  Hypothesis T : tables_related (hM g) (hL g) (hI g) (hJ g) Mh Lf If Jf (hf g) (hp g) (hw g) ff pf wf.
  Hypothesis DT : dtables_related (hM g) (hL g) Lf af bf (ha g) (hb g).
  Hypothesis H_sec2 : forall j, (j < hJ g)%nat -> sec2f j = hsec2 g j.
  Hypothesis H_sin : forall j, (j < hJ g)%nat -> sinf j = hsin g j.
  Variable c : @PEcfg F.

  (** explicit_terms_fast (E s) = E (explicit_terms s) on every in-range coefficient, every field, every tracer *)
  Theorem C09_explicit_terms_equiv grav orog (s : @State F) k a l :
    (k < cK c)%nat -> (a < 2 * hM g - 1)%nat -> (l < hL g)%nat ->
    let out_f := explicit_terms_full_fast q c grav (embed M L orog) (embed_state M L s) in
    let out := explicit_terms_full g c grav orog s in
    s_vort out_f k (phi a) l = embed M L (s_vort out k) (phi a) l /\
    s_div out_f k (phi a) l = embed M L (s_div out k) (phi a) l /\
    s_temp out_f k (phi a) l = embed M L (s_temp out k) (phi a) l /\
    s_lnps out_f (phi a) l = embed M L (s_lnps out) (phi a) l /\
    length (s_tr out_f) = length (s_tr out) /\
    (forall n, (n < length (s_tr s))%nat ->
       nth n (s_tr out_f) zero3 k (phi a) l = embed M L (nth n (s_tr out) zero3 k) (phi a) l).
  Proof.
    intros Hk Ha Hl out_f out. rewrite !embed_phi by assumption.
    destruct (explicit_terms_full_fast_equiv g Mh Lf If Jf stacked rev ff pf wf af bf sec2f sinf
                HM HMh HLf HIf HJf T DT H_sec2 H_sin c grav (embed M L orog) orog (mrel_embed M L orog)
                (embed_state M L s) s (srel_embed_state g s) k Hk) as (E1 & E2 & E3 & E4 & E5 & E6).
    repeat split; auto. intros n Hn. rewrite embed_phi by assumption. now apply E6.
  Qed.

  (** the same for ANY fast state that represents s (whatever sits in the extra row and the padding) *)
  Theorem C09_explicit_terms_padding_inert grav orogf orog (sf s : @State F) k a l :
    mrel (hM g) (hL g) orogf orog -> srel (hM g) (hL g) sf s ->
    (k < cK c)%nat -> (a < 2 * hM g - 1)%nat -> (l < hL g)%nat ->
    s_vort (explicit_terms_full_fast q c grav orogf sf) k (phi a) l = s_vort (explicit_terms_full g c grav orog s) k a l /\
    s_div (explicit_terms_full_fast q c grav orogf sf) k (phi a) l = s_div (explicit_terms_full g c grav orog s) k a l /\
    s_temp (explicit_terms_full_fast q c grav orogf sf) k (phi a) l = s_temp (explicit_terms_full g c grav orog s) k a l /\
    s_lnps (explicit_terms_full_fast q c grav orogf sf) (phi a) l = s_lnps (explicit_terms_full g c grav orog s) a l.
  Proof.
    intros Ho Hs Hk Ha Hl.
    destruct (explicit_terms_full_fast_equiv g Mh Lf If Jf stacked rev ff pf wf af bf sec2f sinf
                HM HMh HLf HIf HJf T DT H_sec2 H_sin c grav orogf orog Ho sf s Hs k Hk) as (E1 & E2 & E3 & E4 & _).
    repeat split; auto.
  Qed.

  Theorem C09_implicit_terms_equiv (s : @State F) k a l :
    (a < 2 * hM g - 1)%nat -> (l < hL g)%nat ->
    let out_f := implicit_terms_full_fast q c (embed_state M L s) in
    let out := implicit_terms_full g c s in
    s_vort out_f k (phi a) l = embed M L (s_vort out k) (phi a) l /\
    s_div out_f k (phi a) l = embed M L (s_div out k) (phi a) l /\
    s_temp out_f k (phi a) l = embed M L (s_temp out k) (phi a) l /\
    s_lnps out_f (phi a) l = embed M L (s_lnps out) (phi a) l.
  Proof.
    intros Ha Hl out_f out. rewrite !embed_phi by assumption.
    destruct (implicit_terms_full_fast_equiv g Mh Lf If Jf stacked rev ff pf wf af bf sec2f sinf c
                (embed_state M L s) s (srel_embed_state g s) k) as (E1 & E2 & E3 & E4).
    repeat split; auto.
  Qed.

  Theorem C09_implicit_inverse_equiv eta invt (s : @State F) k a l :
    (a < 2 * hM g - 1)%nat -> (l < hL g)%nat ->
    let out_f := implicit_inverse_full_fast q c eta invt (embed_state M L s) in
    let out := implicit_inverse_full g c eta invt s in
    s_vort out_f k (phi a) l = embed M L (s_vort out k) (phi a) l /\
    s_div out_f k (phi a) l = embed M L (s_div out k) (phi a) l /\
    s_temp out_f k (phi a) l = embed M L (s_temp out k) (phi a) l /\
    s_lnps out_f (phi a) l = embed M L (s_lnps out) (phi a) l /\
    trel (hM g) (hL g) (s_tr out_f) (s_tr out).
  Proof.
    intros Ha Hl out_f out. rewrite !embed_phi by assumption.
    destruct (implicit_inverse_full_fast_equiv g Mh Lf If Jf stacked rev ff pf wf af bf sec2f sinf c
                (embed_state M L s) s (srel_embed_state g s) eta invt k) as (E1 & E2 & E3 & E4 & E5).
    repeat split; auto; apply E5.
  Qed.

  (** *** "... and trajectories".  State space: [PwOps] (pointwise operations on the four prognostic
      fields; the tracer list is dropped as in C12: tracers are passive in the dry equations - their
      tendencies are covered by C09_explicit_terms_equiv, their time stepping is NOT).  The model
      operators are composed with the in-range normal forms on the output side ([FxR] ... [GinvF],
      Thm/PrimEqFullFast.v), so "equal on every in-range coefficient" reads as equality of states.
      [invt eta l] = np.linalg.inv(implicit_matrix(eta))[l], the same table on both sides. *)
  Variable invt : F -> nat -> @Mat F.
  Hypothesis HK : (0 < cK c)%nat.
  Variables (grav : F) (orog : nat -> nat -> F).
  Let Fr := FxR g c grav orog.
  Let Gr := GR g c.
  Let Ginvr := GinvR g c invt.
  Let Ff := FxF g Mh Lf If Jf stacked rev ff pf wf af bf sec2f sinf c grav orog.
  Let Gf := GF g Mh Lf If Jf stacked rev ff pf wf af bf sec2f sinf c.
  Let Ginvf := GinvF g Mh Lf If Jf stacked rev ff pf wf af bf sec2f sinf c invt.
  Let ES := embed_state M L.

  (** one step of EVERY integrator of Model/Integrators.v (backward-forward Euler, crank_nicolson_rk2,
      the low-storage RK + CN family for any coefficient lists, imex_runge_kutta for ANY tableau,
      semi-implicit leapfrog) on the fast model from E u  =  E (the reference step from u) *)
  Theorem C09_step_equiv dt alpha al be ga a_ex a_im b_ex b_im u p0 q0 :
    euler_step (vo := PwOps) Ff Ginvf dt (ES u) = ES (euler_step (vo := PwOps) Fr Ginvr dt u) /\
    cn_rk2_step (vo := PwOps) Ff Gf Ginvf dt (ES u) = ES (cn_rk2_step (vo := PwOps) Fr Gr Ginvr dt u) /\
    ls_step (vo := PwOps) Ff Gf Ginvf dt al be ga (ES u) = ES (ls_step (vo := PwOps) Fr Gr Ginvr dt al be ga u) /\
    imex_step (vo := PwOps) Ff Gf Ginvf dt a_ex a_im b_ex b_im (ES u)
    = option_map ES (imex_step (vo := PwOps) Fr Gr Ginvr dt a_ex a_im b_ex b_im u) /\
    leapfrog_step (vo := PwOps) Ff Gf Ginvf dt alpha (ES p0, ES q0)
    = (ES (fst (leapfrog_step (vo := PwOps) Fr Gr Ginvr dt alpha (p0, q0))),
       ES (snd (leapfrog_step (vo := PwOps) Fr Gr Ginvr dt alpha (p0, q0)))).
  Proof. unfold Ff, Gf, Ginvf, Fr, Gr, Ginvr, ES, M, L. eapply whole_state_step_equiv; eauto. Qed.

  (** spectral filters (a factor per total wavenumber; the fast table agrees on l < L) commute with E *)
  Theorem C09_filter_equiv (sigmaf sigma : nat -> F) u w :
    (forall l, (l < hL g)%nat -> sigmaf l = sigma l) ->
    lfilter sigmaf (ES u) (ES w) = ES (lfilter sigma u w).
  Proof. unfold ES, M, L. apply lfilter_equiv. Qed.

  (** any number of filtered steps, any step functions / filters that commute with E (previous two theorems) *)
  Theorem C09_trajectory_equiv (step step' : @State F -> @State F) (fl fl' : list (@State F -> @State F -> @State F)) :
    (forall u, step' (ES u) = ES (step u)) ->
    Forall2 (fun f' f => forall u w, f' (ES u) (ES w) = ES (f u w)) fl' fl ->
    forall n u, Nat.iter n (filtered_step step' fl') (ES u) = ES (Nat.iter n (filtered_step step fl) u).
  Proof. unfold ES, M, L. apply whole_state_trajectory_equiv. Qed.

  (** instance: n steps of crank_nicolson_rk2 followed by a spectral filter *)
  Corollary C09_trajectory_cn_rk2_filtered dt (sigmaf sigma : nat -> F) n u :
    (forall l, (l < hL g)%nat -> sigmaf l = sigma l) ->
    Nat.iter n (filtered_step (cn_rk2_step (vo := PwOps) Ff Gf Ginvf dt) [lfilter sigmaf]) (ES u)
    = ES (Nat.iter n (filtered_step (cn_rk2_step (vo := PwOps) Fr Gr Ginvr dt) [lfilter sigma]) u).
  Proof.
    intros Hs. apply C09_trajectory_equiv.
    - intros u0. exact (proj1 (proj2 (C09_step_equiv dt 0 [] [] [] [] [] [] [] u0 u0 u0))).
    - constructor; [|constructor]. intros u0 w. now apply C09_filter_equiv.
  Qed.
End C09_whole_state.

Theorem C09_mask_equiv M L :
  (forall a l, (a < 2 * M - 1)%nat -> (l < L)%nat -> mask_fast M L (phi a) l = mask_real a l) /\
  (forall l, mask_fast M L 1 l = false) /\
  (forall k l, (2 * M <= k \/ L <= l)%nat -> mask_fast M L k l = false).
Proof.
  repeat split; intros.
  - now apply mask_fast_phi.
  - apply mask_fast_row1.
  - now apply mask_fast_pad.
Qed.

(** modal axes (hence every table computed from them, e.g. the Laplacian
    eigenvalues -l(l+1)/r^2): re-indexed on the resolved part, zero on the extra row / padding *)
Theorem C09_axes_equiv M L :
  (forall a, (a < 2 * M - 1)%nat -> m_fast M (phi a) = m_real a) /\
  (forall l, (l < L)%nat -> l_fast L l = l_real l) /\
  (forall k, (k = 1 \/ 2 * M <= k)%nat -> m_fast M k = 0%Z) /\
  (forall l, (L <= l)%nat -> l_fast L l = 0%Z).
Proof.
  repeat split; intros.
  - now apply m_fast_phi.
  - now apply l_fast_in.
  - now apply m_fast_out.
  - now apply l_fast_out.
Qed.

Theorem C09_eigenvalues_equiv {F} {o : Ops F} (r : F) L l : (l < L)%nat ->
  lap_eig r (l_fast L l) = lap_eig r (l_real l).
Proof. intros H. now rewrite l_fast_in. Qed.

(** shapes: padded sizes dominate the limits, are multiples of the requested
    multiple, pad by less than one multiple; the padded modal row count is even *)
Theorem C09_shapes base xs x : (1 <= base)%nat -> (1 <= xs)%nat ->
  (x <= round_to_multiple x (base * xs))%nat /\
  (round_to_multiple x (base * xs) < x + base * xs)%nat /\
  (round_to_multiple x (base * xs) mod (base * xs) = 0)%nat /\
  (forall M, exists Mh, modal_rows_fast base xs M = (2 * Mh)%nat /\ (M <= Mh)%nat).
Proof.
  intros Hb Hx.
  destruct (round_to_multiple_spec x (base * xs)) as (A & B & C); [nia|].
  repeat split; auto. intros M. now apply modal_rows_fast_even.
Qed.

(** *** non-vacuity: [tables_related] holds for concrete tables over Qc (the
    orthonormal reference tables of C01's example, M = 2, L = 2, 4 x 2 nodes, one
    padded latitude), and the statements are non-trivial on them *)
Definition exq (l : list Q) (n : nat) : Qc := Q2Qc (nth n l 0%Q).
Definition ex_f (i a : nat) : Qc :=
  exq (nth a [[1#2; 1#2; 1#2; 1#2]; [1#2; -1#2; 1#2; -1#2]; [1#2; 1#2; -1#2; -1#2]]%Q []) i.
Definition ex_p (a j l : nat) : Qc :=
  match a with
  | O => exq (nth l [[1; 1]; [-1; 1]]%Q []) j
  | _ => exq (nth l [[0; 0]; [1; 1]]%Q []) j
  end.
Definition ex_w (j : nat) : Qc := Q2Qc (1#2).
Definition ex_ff (i k : nat) : Qc := match k with O => ex_f i 0 | S O => Q2Qc 0 | S k' => ex_f i k' end.
Definition ex_pf (m j l : nat) : Qc := if j <? 2 then ex_p (2 * m) j l else Q2Qc 0.
Definition ex_wf (j : nat) : Qc := if j <? 2 then ex_w j else Q2Qc 0.
Definition ex_y (k l : nat) : Qc := Q2Qc (inject_Z (Z.of_nat (1 + k + 4 * l))).

Ltac qc := apply Qc_is_canon; vm_compute; reflexivity.

Example C09_hyps_satisfiable :
  tables_related 2 2 4 2 2 2 4 3 ex_f ex_p ex_w ex_ff ex_pf ex_wf /\
  (* garbage in the extra row does not reach the grid; its analysis is zero; row 3 returns *)
  synth_fast_u false 2 2 3 ex_ff ex_pf ex_y 1 1
    = synth_fast_u true 2 2 3 ex_ff ex_pf (fun k l => if k =? 1 then 0 else ex_y k l) 1 1 /\
  analysis_fast_u false 2 4 3 ex_ff ex_pf ex_wf (synth_fast_u false 2 2 3 ex_ff ex_pf ex_y) 1 1 = 0 /\
  analysis_fast_u false 2 4 3 ex_ff ex_pf ex_wf (synth_fast_u false 2 2 3 ex_ff ex_pf ex_y) 3 1 = ex_y 3 1 /\
  synth_fast_u false 2 2 3 ex_ff ex_pf ex_y 1 1 <> 0.
Proof.
  split.
  { constructor.
    - intros i a Hi Ha. destruct a as [|[|[|a]]]; try lia; reflexivity.
    - intros i Hi. reflexivity.
    - intros i k Hi Hk H. lia.
    - intros a j l Ha Hj Hl.
      destruct a as [|[|[|a]]]; try lia; destruct j as [|[|j]]; try lia; destruct l as [|[|l]]; try lia; qc.
    - intros m j l Hm Hj Hl H. unfold ex_pf.
      destruct j as [|[|[|j]]]; try lia; reflexivity.
    - intros j Hj. unfold ex_wf. destruct j as [|[|j]]; try lia; reflexivity.
    - intros j H1 H2. unfold ex_wf. destruct j as [|[|[|j]]]; try lia; reflexivity. }
  split. { qc. }
  split. { qc. }
  split. { qc. }
  intro H. vm_compute in H. discriminate H.
Qed.

(** *** non-vacuity of the whole-state statements: the same tables, recurrence weights over Qc,
    one level; both table relations hold and a re-indexed implicit tendency is non-zero *)
Definition ex_ar (a l : nat) : Qc := if l =? 1 then Q2Qc (1#2) else Q2Qc 0.
Definition ex_br (a l : nat) : Qc := if l =? 0 then Q2Qc (1#3) else Q2Qc 0.
Definition ex_af (k l : nat) : Qc := match k with O => ex_ar 0 l | S O => Q2Qc 0 | S k' => ex_ar k' l end.
Definition ex_bf (k l : nat) : Qc := match k with O => ex_br 0 l | S O => Q2Qc 0 | S k' => ex_br k' l end.
Definition ex_g : @HGrid Qc :=
  mkHG 2 2 4 2 (Q2Qc 1) ex_f ex_p ex_w ex_ar ex_br (fun _ => Q2Qc 2) (fun _ => Q2Qc (1#2)) (Q2Qc 1).
Definition ex_c : @PEcfg Qc :=
  mkPE 1 (Q2Qc 2) (Q2Qc (1#4)) (fun _ => Q2Qc (-1)) (fun k => Q2Qc (inject_Z (Z.of_nat k))) (fun _ => Q2Qc 3).
Definition ex_s : @State Qc := mkState (fun _ => ex_y) (fun _ => ex_y) (fun _ => ex_y) ex_y [].
Definition ex_q : @FGrid Qc :=
  fast_grid_of ex_g 2 2 4 3 false false ex_ff ex_pf ex_wf ex_af ex_bf (fun _ => Q2Qc 2) (fun _ => Q2Qc (1#2)).

Example C09_whole_state_satisfiable :
  dtables_related 2 2 2 ex_af ex_bf ex_ar ex_br /\
  s_div (implicit_terms_full_fast ex_q ex_c (embed_state 2 2 ex_s)) 0 3 1 = s_div (implicit_terms_full ex_g ex_c ex_s) 0 2 1 /\
  s_div (implicit_terms_full ex_g ex_c ex_s) 0 2 1 <> 0 /\
  s_temp (explicit_terms_full_fast ex_q ex_c (Q2Qc 1) (fun _ _ => Q2Qc 0) (embed_state 2 2 ex_s)) 0 3 0
  = s_temp (explicit_terms_full ex_g ex_c (Q2Qc 1) (fun _ _ => Q2Qc 0) ex_s) 0 2 0.
Proof.
  split.
  { constructor.
    - intros a l Ha Hl. destruct a as [|[|[|a]]]; try lia; reflexivity.
    - intros a l Ha H1 H2. lia.
    - intros a l Ha Hl. destruct a as [|[|[|a]]]; try lia; reflexivity. }
  split. { qc. }
  split. { intro H. vm_compute in H. discriminate H. }
  qc.
Qed.

(** non-vacuity of the step theorems: one backward-forward Euler step on the tiny instance (one level,
    hypothesis 0 < K holds), implicit-inverse tables = identity matrices; the re-indexed coefficient of
    the fast step equals the reference one and is not zero *)
Definition ex_inv (eta : Qc) (l : nat) : @Mat Qc := fun i j => if i =? j then Q2Qc 1 else Q2Qc 0.
Example C09_step_satisfiable :
  (0 < cK ex_c)%nat /\
  let Ff := FxF ex_g 2 2 4 3 false false ex_ff ex_pf ex_wf ex_af ex_bf (fun _ => Q2Qc 2) (fun _ => Q2Qc (1#2)) ex_c (Q2Qc 1) (fun _ _ => Q2Qc 0) in
  let Ginvf := GinvF ex_g 2 2 4 3 false false ex_ff ex_pf ex_wf ex_af ex_bf (fun _ => Q2Qc 2) (fun _ => Q2Qc (1#2)) ex_c ex_inv in
  let Fr := FxR ex_g ex_c (Q2Qc 1) (fun _ _ => Q2Qc 0) in
  let Ginvr := GinvR ex_g ex_c ex_inv in
  s_temp (euler_step (vo := PwOps) Ff Ginvf (Q2Qc (1#2)) (embed_state 2 2 ex_s)) 0 3 0
  = s_temp (euler_step (vo := PwOps) Fr Ginvr (Q2Qc (1#2)) ex_s) 0 2 0 /\
  s_temp (euler_step (vo := PwOps) Fr Ginvr (Q2Qc (1#2)) ex_s) 0 2 0 <> 0.
Proof.
  split; [cbn; lia|]. cbv zeta. split.
  - qc.
  - intro H. vm_compute in H. discriminate H.
Qed.

Print Assumptions C09_synth_equiv.
Print Assumptions C09_analysis_equiv.
Print Assumptions C09_fast_padding_inert.
Print Assumptions C09_reindex.
Print Assumptions C09_options_irrelevant.
Print Assumptions C09_base_multiple_irrelevant.
Print Assumptions C09_mask_equiv.
Print Assumptions C09_axes_equiv.
Print Assumptions C09_eigenvalues_equiv.
Print Assumptions C09_shapes.
Print Assumptions C09_hyps_satisfiable.
Print Assumptions C09_explicit_terms_equiv.
Print Assumptions C09_explicit_terms_padding_inert.
Print Assumptions C09_implicit_terms_equiv.
Print Assumptions C09_implicit_inverse_equiv.
Print Assumptions C09_whole_state_satisfiable.
Print Assumptions C09_step_equiv.
Print Assumptions C09_filter_equiv.
Print Assumptions C09_trajectory_equiv.
Print Assumptions C09_trajectory_cn_rk2_filtered.
Print Assumptions C09_step_satisfiable.
