(** Property C01 - spherical-harmonic analysis inverts synthesis; the basis is
    discretely orthonormal.  Proofs in Thm/SHT.v, Thm/SHTFast.v, Thm/FourierR.v, Thm/Legendre.v, Thm/LegendrePoly.v.
    Every theorem of the first section holds for an arbitrary field [F] (hence
    the reals), arbitrary sizes M, L, I, J (and paddings), arbitrary tables
    f, p, w and an arbitrary input.  Facts about the special-function tables
    are the named hypotheses H_weights / H_fourier_orth / H_legendre_orth(_deg) /
    H_p_support / H_f0 / H_p00, re-checked numerically per explored grid by
    tools/props/C01.py (table obligations). *)
From Dino Require Import Base.Ops Base.Sums Base.Inst Model.SHT Model.SHTFast Model.FourierR
  Thm.SHT Thm.SHTFast Thm.FourierR Gen.GridTable Gen.Legendre Gen.DerivExprs Model.Legendre Thm.Legendre Thm.LegendrePoly.
From Coq Require Import Reals Qcanon Lra.
Local Open Scope F_scope.

Section C01.
  Context {F : Type} {o : Ops F} {Fc : FieldC o}.
  Variables (M L I J : nat).
  Variable f : nat -> nat -> F.            (* Fourier matrix  f[i,a]   *)
  Variable p : nat -> nat -> nat -> F.     (* Legendre array  p[a,j,l] *)
  Variable w : nat -> F.                   (* basis.w[j] = wq * wp[j]  *)
  Variable wq : F.
  Variable wp : nat -> F.
  Let K := modal_rows_real M.

  (** analysis . synth is exactly the Gram operator of the tables: no hypothesis
      at all, every input - so the round-trip error of ANY input is the Gram
      residual of the configuration applied to it (linearity is a theorem). *)
  Theorem C01_sht_gram x a l : (a < K)%nat ->
    analysis K I J f p w (synth K L J f p x) a l = gram_apply K L (gram I J f p w) x a l.
  Proof. exact (sht_gram K L I J f p w x a l). Qed.

  (** round trip: analysis (synth x) = mask (.) x for EVERY x, entrywise on the
      whole modal array (inside the triangle returned, outside never appear) *)
  Theorem C01_sht_roundtrip x a l :
    H_weights J w wq wp -> H_fourier_orth K I f wq ->
    H_legendre_orth K L J p wp mabs_real -> H_p_support K L J p mabs_real ->
    (a < K)%nat -> (l < L)%nat ->
    analysis K I J f p w (synth K L J f p x) a l = apply_mask mask_real x a l.
  Proof.
    intros. unfold apply_mask. rewrite mask_real_spec.
    now apply (sht_roundtrip K L I J f p w wq wp mabs_real).
  Qed.

  (** the same when the latitude rule is only exact to degree D (TL* grids,
      equiangular spacings): band-limited input, all output entries with
      l + (Lb-1) <= D *)
  Theorem C01_sht_roundtrip_bandlimited D Lb x a l :
    H_weights J w wq wp -> H_fourier_orth K I f wq ->
    H_legendre_orth_deg K L J p wp mabs_real D -> H_p_support K L J p mabs_real ->
    (forall b l', (b < K)%nat -> (Lb <= l')%nat -> (l' < L)%nat -> x b l' = 0) ->
    (a < K)%nat -> (l < L)%nat -> (l + (Lb - 1) <= D)%nat ->
    analysis K I J f p w (synth K L J f p x) a l = apply_mask mask_real x a l.
  Proof.
    intros. unfold apply_mask. rewrite mask_real_spec.
    now apply (sht_roundtrip_bandlimited K L I J f p w wq wp mabs_real D Lb).
  Qed.

  (** coefficients outside the triangular truncation never influence the result *)
  Theorem C01_masked_inert x i j :
    H_p_support K L J p mabs_real -> (j < J)%nat ->
    synth K L J f p x i j = synth K L J f p (apply_mask mask_real x) i j.
  Proof.
    intros Hs Hj. rewrite (sht_masked_inert K L J f p mabs_real x i j Hs Hj).
    apply synth_ext; [assumption|]. intros a l _ _. unfold apply_mask. now rewrite mask_real_spec.
  Qed.

  (** leading batch / level axes act independently *)
  Theorem C01_sht_batch (x x' : nat -> nat -> nat -> F) (z z' : nat -> nat -> nat -> F) n :
    (forall i j, (j < J)%nat ->
       (forall a l, (a < K)%nat -> (l < L)%nat -> x n a l = x' n a l) ->
       synth_batch K L J f p x n i j = synth K L J f p (x' n) i j) /\
    (forall a l, (a < K)%nat ->
       (forall i j, (i < I)%nat -> (j < J)%nat -> z n i j = z' n i j) ->
       analysis_batch K I J f p w z n a l = analysis K I J f p w (z' n) a l).
  Proof.
    split; intros.
    - now apply sht_batch_synth.
    - now apply sht_batch_analysis.
  Qed.

  (** area integral of a synthesised field = r^2 / (c0 c1) * x[0,0], where c1, c0
      are the constant values of the (0,0) Fourier column and Legendre function *)
  Theorem C01_sht_integral (r c0 c1 : F) x :
    H_weights J w wq wp -> H_fourier_orth K I f wq ->
    H_legendre_orth K L J p wp mabs_real -> H_p_support K L J p mabs_real ->
    (forall i, (i < I)%nat -> f i 0%nat = c1) ->
    (forall j, (j < J)%nat -> p 0%nat j 0%nat = c0) ->
    c0 * c1 <> 0 -> (0 < K)%nat -> (0 < L)%nat ->
    integrate I J w r (synth K L J f p x) = (r * r) * (1 / (c0 * c1)) * x 0%nat 0%nat.
  Proof.
    intros. now apply (sht_integral K L I J f p w wq wp mabs_real r c0 c1 x).
  Qed.

  (** *** fast layout (both transform implementations): round trip and padding inertness *)
  Variables (Mh Lf If Jf : nat).
  Variable ff : nat -> nat -> F.
  Variable pf : nat -> nat -> nat -> F.
  Variable wf : nat -> F.
  Hypothesis HM : (1 <= M)%nat.
  Hypothesis HMh : (M <= Mh)%nat.
  Hypothesis HLf : (L <= Lf)%nat.
  Hypothesis HIf : (I <= If)%nat.
  Hypothesis HJf : (J <= Jf)%nat.

  Theorem C01_fast_roundtrip rev y k l :
    tables_related M L I J Mh Lf If Jf f p w ff pf wf ->
    H_weights J w wq wp -> H_fourier_orth K I f wq ->
    H_legendre_orth K L J p wp mabs_real -> H_p_support K L J p mabs_real ->
    (k < 2 * Mh)%nat -> (l < Lf)%nat ->
    analysis_fast_u rev Mh If Jf ff pf wf (synth_fast_u rev Mh Lf Jf ff pf y) k l
    = apply_mask (mask_fast M L) y k l.
  Proof.
    intros. unfold apply_mask.
    now apply (fast_roundtrip M L I J Mh Lf If Jf HM HMh HLf HIf HJf f p w ff pf wf rev y k l wq wp).
  Qed.

  (** zero-padded tables: whatever the input holds in the extra row / paddings,
      no resolved entry changes and all padded output entries are exactly zero *)
  Theorem C01_fast_padding_inert rev y z :
    tables_related M L I J Mh Lf If Jf f p w ff pf wf ->
    (forall i j, (i < If)%nat -> (j < Jf)%nat ->
       synth_fast_u rev Mh Lf Jf ff pf y i j = pad2 I J (synth K L J f p (proj y)) i j) /\
    (forall k l, (k < 2 * Mh)%nat -> (l < Lf)%nat ->
       analysis_fast_u rev Mh If Jf ff pf wf z k l = embed M L (analysis K I J f p w z) k l).
  Proof.
    intros T. split; intros.
    - eapply synth_fast_general; eauto.
    - eapply analysis_fast_general; eauto.
  Qed.
End C01.

(** *** over the reals: the constant is sqrt(4 pi) *)
Theorem C01_sht_integral_R (M L I J : nat) (f : nat -> nat -> R) p w wq wp (r : R) x :
  let K := modal_rows_real M in
  H_weights J w wq wp -> H_fourier_orth K I f wq ->
  H_legendre_orth K L J p wp mabs_real -> H_p_support K L J p mabs_real ->
  (forall i, (i < I)%nat -> f i 0%nat = (/ sqrt (2 * PI))%R) ->
  (forall j, (j < J)%nat -> p 0%nat j 0%nat = (/ sqrt 2)%R) ->
  (0 < K)%nat -> (0 < L)%nat ->
  integrate I J w r (synth K L J f p x) = (r * r * sqrt (4 * PI) * x 0%nat 0%nat)%R.
Proof.
  intros K Hw Hf Ho Hs Hf0 Hp0 HK HL.
  pose proof PI_RGT_0 as Hpi.
  assert (S2 : sqrt 2 <> 0%R) by (apply Rgt_not_eq, sqrt_lt_R0; lra).
  assert (S2P : sqrt (2 * PI) <> 0%R) by (apply Rgt_not_eq, sqrt_lt_R0; lra).
  rewrite (sht_integral K L I J f p w wq wp mabs_real r (/ sqrt 2)%R (/ sqrt (2 * PI))%R x); auto; rops.
  - replace (4 * PI)%R with (2 * (2 * PI))%R by ring. rewrite (sqrt_mult 2 (2 * PI)) by lra. field. split; assumption.
  - apply Rmult_integral_contrapositive_currified; apply Rinv_neq_0_compat; assumption.
Qed.

(** *** the Fourier half of the orthonormality is a THEOREM (not a table obligation):
    the closed form of fourier.real_basis / quadrature_nodes over the reals
    (columns [1/sqrt(2 pi), cos(1 x)/sqrt(pi), sin(1 x)/sqrt(pi), cos(2 x)/sqrt(pi), ...],
    nodes x_i = offset + 2 pi i / I, weights 2 pi / I) is discretely orthonormal
    for EVERY longitude offset, every M >= 1 and every I >= 2M-1.
    Exact condition used by the algebra (C01_fourier_orth_columns_R): the
    wavenumber sum |m(a)| + |m(b)| of the two columns is < I, so that every sum
    and non-zero difference k of the two wavenumbers has 0 < |k| < I (not a
    multiple of I) and the geometric sums of cos(k x_i), sin(k x_i) vanish.
    Negative example, I < 2M-1 (aliasing): I = 2, M = 2, a = b = 1 gives
    (2 pi / 2) (cos(0)^2 + cos(pi)^2) / pi = 2, not 1 - see C01_fourier_aliasing_R. *)
Theorem C01_fourier_orth_columns_R (off : R) (I a b : nat) :
  (0 < I)%nat -> (mabs_real a + mabs_real b < I)%nat ->
  (fourier_weight I * sumn I (fun i => real_basis_R off I i a * real_basis_R off I i b))%R
  = (if Nat.eqb a b then 1 else 0)%R.
Proof. intros HI H. exact (fourier_orth_columns off I a b HI H). Qed.

Theorem C01_fourier_orth_R (off : R) (M I : nat) :
  (1 <= M)%nat -> (2 * M - 1 <= I)%nat ->
  H_fourier_orth (modal_rows_real M) I (real_basis_R off I) (fourier_weight I).
Proof. exact (fourier_orth_R off M I). Qed.

(** consequently the round trip over the reals needs only the Legendre-side hypotheses *)
Theorem C01_sht_roundtrip_fourier_R (off : R) (M L I J : nat) p w wp x a l :
  let K := modal_rows_real M in
  (1 <= M)%nat -> (2 * M - 1 <= I)%nat ->
  H_weights J w (fourier_weight I) wp ->
  H_legendre_orth K L J p wp mabs_real -> H_p_support K L J p mabs_real ->
  (a < K)%nat -> (l < L)%nat ->
  analysis K I J (real_basis_R off I) p w (synth K L J (real_basis_R off I) p x) a l
  = apply_mask mask_real x a l.
Proof.
  intros K HM HI Hw Ho Hs Ha Hl. unfold apply_mask. rewrite mask_real_spec.
  apply (sht_roundtrip K L I J (real_basis_R off I) p w (fourier_weight I) wp mabs_real); auto.
  now apply fourier_orth_R.
Qed.

(** aliasing: with I = 2 < 2M-1 = 3 the cos(1 x) column has squared norm 2 *)
Theorem C01_fourier_aliasing_R :
  (fourier_weight 2 * sumn 2 (fun i => real_basis_R 0 2 i 1 * real_basis_R 0 2 i 1))%R = 2%R.
Proof.
  pose proof PI_RGT_0 as Hpi.
  assert (Hs : (sqrt PI * sqrt PI = PI)%R) by (apply sqrt_sqrt; lra).
  assert (Hsn : sqrt PI <> 0%R) by (apply Rgt_not_eq, sqrt_lt_R0; lra).
  unfold fourier_weight, real_basis_R, real_basis_g, lon_node, sumn.
  cbn [Nat.add Nat.div Nat.divmod fst fadd fmul fdiv f0 f1 ROps INR].
  change (Nat.odd 1) with true. cbv iota.
  replace (1 * (0 + 2 * PI * 0 / (1 + 1)))%R with 0%R by field.
  replace (1 * (0 + 2 * PI * 1 / (1 + 1)))%R with PI by field.
  rewrite cos_0, cos_PI. rewrite <- Hs at 1. field. assumption.
Qed.

(** the literal _CONSTANT_NORMALIZATION_FACTOR of primitive_equations.py (read by the
    translator): its square lies in [12.566370, 12.566371], the 6-decimal bracket of
    4 pi = 12.56637061...  (pure rational arithmetic.  The real-number statement
    |c - sqrt(4 pi)| <= 1e-7 is provable with [interval], but re-checking the Interval /
    Flocq / Coquelicot libraries with coqchk takes > 25 min, so it is not part of this file;
    the plugin checks |c^2 - 4 pi| <= 1e-6 numerically as a table obligation.) *)
Theorem C01_normalization_literal :
  (12566370 # 1000000 <= CONSTANT_NORMALIZATION_FACTOR_Q * CONSTANT_NORMALIZATION_FACTOR_Q)%Q /\
  (CONSTANT_NORMALIZATION_FACTOR_Q * CONSTANT_NORMALIZATION_FACTOR_Q <= 12566371 # 1000000)%Q.
Proof. split; apply Qle_bool_imp_le; vm_compute; reflexivity. Qed.

(** *** factory grids (table regenerated from the source): the Gauss rule of every
    T* grid resolves its full truncation, that of every TL* grid resolves the
    truncation without the extra (clipped) top wavenumber; T* grids are
    quadratically, TL* grids linearly de-aliased in longitude; the translated
    [_round_to_multiple] is the model's. *)
Definition factory_ok (g : bool * nat * nat) : bool :=
  let '(tl, mw, gn) := g in
  let Mw := construct_M mw gn in let Lw := construct_L mw gn in
  let Iw := construct_I mw gn in let Jw := construct_J mw gn in
  if tl then resolves 0 Iw Jw Mw (Lw - 1) && negb (resolves 0 Iw Jw Mw Lw) && (2 * mw + 1 <=? Iw)
  else resolves 0 Iw Jw Mw Lw && (3 * mw + 1 <=? Iw).

Theorem C01_grid_table_resolves :
  gridtable_ok = true /\ forallb factory_ok grid_table = true /\ (20 <= length grid_table)%nat /\ length grid_names = length grid_table /\
  (forall x m, gt_round_to_multiple x m = round_to_multiple x m).
Proof. repeat split; vm_compute; reflexivity. Qed.

(** *** non-vacuity: the hypotheses are met by concrete non-trivial tables over Qc
    (M = 2, L = 2, 3 modal rows, 4 x 2 nodes; Hadamard-type Fourier columns) *)
Definition exq (l : list Q) (n : nat) : Qc := Q2Qc (nth n l 0%Q).
Definition ex_f (i a : nat) : Qc :=
  exq (nth a [[1#2; 1#2; 1#2; 1#2]; [1#2; -1#2; 1#2; -1#2]; [1#2; 1#2; -1#2; -1#2]]%Q []) i.
Definition ex_p (a j l : nat) : Qc :=
  match a with
  | O => exq (nth l [[1; 1]; [-1; 1]]%Q []) j
  | _ => exq (nth l [[0; 0]; [1; 1]]%Q []) j
  end.
Definition ex_wp (j : nat) : Qc := Q2Qc (1#2).
Definition ex_wq : Qc := Q2Qc 1.
Definition ex_w (j : nat) : Qc := Q2Qc (1#2).

Ltac qc := apply Qc_is_canon; vm_compute; reflexivity.

Example C01_hyps_satisfiable :
  H_weights 2 ex_w ex_wq ex_wp /\ H_fourier_orth 3 4 ex_f ex_wq /\
  H_legendre_orth 3 2 2 ex_p ex_wp mabs_real /\ H_p_support 3 2 2 ex_p mabs_real /\
  (forall i, (i < 4)%nat -> ex_f i 0%nat = Q2Qc (1#2)) /\
  (forall j, (j < 2)%nat -> ex_p 0%nat j 0%nat = Q2Qc 1) /\
  (@fmul Qc QcOps (Q2Qc 1) (Q2Qc (1#2)) <> 0) /\
  (* and the conclusion is non-trivial on this instance: a coefficient outside the triangle is dropped *)
  analysis 3 4 2 ex_f ex_p ex_w (synth 3 2 2 ex_f ex_p (fun a l => Q2Qc (inject_Z (Z.of_nat (1 + a + 3 * l))))) 1 0
  = 0 /\
  analysis 3 4 2 ex_f ex_p ex_w (synth 3 2 2 ex_f ex_p (fun a l => Q2Qc (inject_Z (Z.of_nat (1 + a + 3 * l))))) 2 1
  = Q2Qc 6.
Proof.
  split. { intros j Hj. qc. }
  split. { intros a b Ha Hb. destruct a as [|[|[|a]]]; try lia; destruct b as [|[|[|b]]]; try lia; qc. }
  split. { intros a l l' Ha H1 H2 H3 H4.
    destruct a as [|[|[|a]]]; try lia; destruct l as [|[|l]]; try lia; destruct l' as [|[|l']]; try lia;
      try qc; exfalso; vm_compute in H1, H3; lia. }
  split. { intros a j l Ha Hj Hl Hlt.
    destruct a as [|[|[|a]]]; try lia; destruct l as [|[|l]]; try lia;
      try (exfalso; vm_compute in Hlt; lia); destruct j as [|[|j]]; try lia; qc. }
  split. { intros i Hi. destruct i as [|[|[|[|i]]]]; try lia; qc. }
  split. { intros j Hj. destruct j as [|[|j]]; try lia; qc. }
  split. { intro H. discriminate H. }
  split; qc.
Qed.

(** *** associated_legendre.py inside the model (Model/Legendre.v; arithmetic regenerated from the
    source into Gen/Legendre.v).  For EVERY field, every function [sq] standing for np.sqrt, every
    node tables x, y = sqrt(1 - x^2), every number of nodes nx and all sizes: the facts about the
    Legendre table that the transforms use are theorems about the recurrence of the code. *)
Section C01_Legendre.
  Context {F : Type} {o : Ops F} {Fc : FieldC o}.
  Variable sq : F -> F.
  Variable nx : nat.
  Variables x y : nat -> F.

  (** evaluate raises ValueError exactly for n_m > n_l; for 1 <= n_m <= n_l it runs through *)
  Theorem C01_legendre_accepts n_m n_l :
    (legendre_accepts n_m n_l = true <-> (n_m <= n_l)%nat) /\
    (legendre_defined n_m n_l = true <-> (1 <= n_m)%nat /\ (n_m <= n_l)%nat).
  Proof. split; [exact (legendre_accepts_spec n_m n_l) | exact (legendre_defined_spec n_m n_l)]. Qed.

  (** support, exactly as the code zero-fills (no hypothesis): this is H_p_support *)
  Theorem C01_legendre_support n_m n_l m i l :
    (l < m)%nat \/ (n_l <= l)%nat \/ (n_m <= m)%nat -> legendre_evaluate sq nx x y n_m n_l m i l = 0.
  Proof. exact (legendre_support sq nx x y n_m n_l m i l). Qed.

  (** ... in the form the round-trip theorems consume it: basis.p[a] = evaluate(M, L, x)[|m(a)|] *)
  Theorem C01_legendre_H_p_support M L :
    H_p_support (modal_rows_real M) L nx (fun a j l => legendre_evaluate sq nx x y M L (mabs_real a) j l) mabs_real.
  Proof. intros a j l _ _ _ Hlt. apply legendre_support. now left. Qed.

  (** the triangular truncation of _evaluate_rhombus *)
  Theorem C01_rhombus_triangle_zero n_l n_m k m i : (n_m <= n_l)%nat -> (i < nx)%nat ->
    (n_l <= m + k)%nat \/ (n_m <= m)%nat -> rhombus_triangle sq nx x y n_l n_m k m i = 0.
  Proof. exact (rhombus_triangle_zero sq nx x y n_l n_m k m i). Qed.

  (** this is H_p00, with the constant [1 / sq 2] *)
  Theorem C01_legendre_p00 n_m n_l i : (1 <= n_m)%nat -> (n_m <= n_l)%nat -> (i < nx)%nat ->
    legendre_evaluate sq nx x y n_m n_l 0%nat i 0%nat = 1 / sq (1 + 1).
  Proof. exact (legendre_p00 sq nx x y n_m n_l i). Qed.

  (** parity (H_parity of the mirror-symmetry property): mirrored nodes, same cos(latitude) *)
  Theorem C01_legendre_parity (x' y' : nat -> F) n_m n_l m i l :
    (forall j, (j < nx)%nat -> x' j = - x j) -> (forall j, (j < nx)%nat -> y' j = y j) ->
    (n_m <= n_l)%nat -> (i < nx)%nat ->
    legendre_evaluate sq nx x' y' n_m n_l m i l = sgn (l - m) * legendre_evaluate sq nx x y n_m n_l m i l.
  Proof. intros Hx Hy. exact (legendre_parity sq nx x y x' y' Hx Hy n_m n_l m i l). Qed.

  (** three-term relation in the code's coefficients a, b *)
  Theorem C01_legendre_three_term_ab n_m n_l m i l :
    (n_m <= n_l)%nat -> (i < nx)%nat -> (m < n_m)%nat -> (m <= l)%nat -> (l + 1 < n_l)%nat ->
    leg_a sq m (l + 1)%nat <> 0 ->
    x i * legendre_evaluate sq nx x y n_m n_l m i l
    = 1 / leg_a sq m (l + 1)%nat * legendre_evaluate sq nx x y n_m n_l m i (l + 1)%nat
      + leg_b sq m (l + 1)%nat * (if Nat.ltb m l then legendre_evaluate sq nx x y n_m n_l m i (l - 1)%nat else 0).
  Proof. exact (legendre_three_term_ab sq nx x y n_m n_l m i l). Qed.

  (** ... and normalised: x p[m,l] = eps(m,l+1) p[m,l+1] + eps(m,l) p[m,l-1], where
      eps(m,l)^2 = (l^2 - m^2)/(4 l^2 - 1) is the closed form of the derivative recurrence weights *)
  Theorem C01_legendre_three_term_eps n_m n_l m i l :
    (n_m <= n_l)%nat -> (i < nx)%nat -> (m < n_m)%nat -> (m <= l)%nat -> (l + 1 < n_l)%nat ->
    leg_a sq m (l + 1)%nat * leg_b sq m (l + 2)%nat = 1 ->
    x i * legendre_evaluate sq nx x y n_m n_l m i l
    = leg_eps sq m (l + 1)%nat * legendre_evaluate sq nx x y n_m n_l m i (l + 1)%nat
      + leg_eps sq m l * (if Nat.ltb m l then legendre_evaluate sq nx x y n_m n_l m i (l - 1)%nat else 0).
  Proof. exact (legendre_three_term_eps sq nx x y n_m n_l m i l). Qed.

  Theorem C01_legendre_eps_sq m l : (m <= l)%nat ->
    sq (rad_b (llit m) (llit (l + 1 - m))) * sq (rad_b (llit m) (llit (l + 1 - m))) = rad_b (llit m) (llit (l + 1 - m)) ->
    leg_eps sq m l * leg_eps sq m l = a2_expr 1 (lit l) (lit m).
  Proof. exact (leg_eps_sq sq m l). Qed.

  (** the radicands under the two square roots are reciprocal (so the hypothesis of the normalised form
      is sqrt(1/t) * sqrt(t) = 1), and the remaining radicands are the intended ones *)
  Theorem C01_legendre_radicands (m k t : F) :
    (lit 4 * ((m + k) * (m + k)) - 1 <> 0 -> (m + k) * (m + k) - m * m <> 0 -> rad_a m k * rad_b m (k + 1) = 1) /\
    rad_b m k = a2_expr 1 (m + k - 1) m /\
    rad_diag m = 1 + 1 / ((1 + 1) * m) /\ rad_init = 1 + 1 :> F /\ leg_y2 t = 1 - t * t /\
    gen_legendre_complete = true /\
    (forall yy pp a b xx p1 p2 : F,
       leg_diag_step sq m yy pp = - (sq (rad_diag m) * yy * pp) /\
       leg_step a b xx p1 p2 = a * (xx * p1 - b * p2) /\ leg_init sq pp = pp + 1 / sq rad_init).
  Proof.
    split; [exact (rad_a_rad_b m k)|]. split; [exact (rad_b_eps2 m k)|]. split; [exact (rad_diag_spec m)|].
    split; [exact rad_init_spec|]. split; [exact (leg_y2_spec t)|]. split; [exact gen_legendre_complete_ok|].
    intros. apply leg_steps_spec.
  Qed.
End C01_Legendre.

(** non-vacuity of the Legendre theorems over Qc: [sq] := identity (it satisfies the reciprocity
    hypothesis, since the radicands are reciprocal), two nodes, n_m = 2, n_l = 3 *)
Definition lx (i : nat) : Qc := exq [1#2; -1#3]%Q i.
Definition ly (i : nat) : Qc := exq [3#5; 4#5]%Q i.
Definition lxm (i : nat) : Qc := exq [-1#2; 1#3]%Q i.
Definition lsq (t : Qc) : Qc := t.

Example C01_legendre_nonvacuous :
  legendre_defined 2 3 = true /\ legendre_defined 3 2 = false /\ legendre_defined 0 2 = false /\
  leg_a lsq 1 2 * leg_b lsq 1 3 = 1 /\ leg_a lsq 1 2 <> 0 /\
  legendre_evaluate lsq 2 lx ly 2 3 1%nat 0%nat 2%nat = Q2Qc (-9#8) /\
  legendre_evaluate lsq 2 lxm ly 2 3 1%nat 0%nat 2%nat = Q2Qc (9#8) /\
  legendre_evaluate lsq 2 lx ly 2 3 1%nat 0%nat 0%nat = 0 /\
  lx 0%nat * legendre_evaluate lsq 2 lx ly 2 3 0%nat 0%nat 1%nat
  = leg_eps lsq 0 2 * legendre_evaluate lsq 2 lx ly 2 3 0%nat 0%nat 2%nat
    + leg_eps lsq 0 1 * legendre_evaluate lsq 2 lx ly 2 3 0%nat 0%nat 0%nat.
Proof.
  split. { vm_compute; reflexivity. } split. { vm_compute; reflexivity. } split. { vm_compute; reflexivity. }
  split. { qc. } split. { intro H. vm_compute in H. discriminate H. }
  split. { qc. } split. { qc. } split. { qc. } qc.
Qed.

(** *** polynomial structure of the Legendre table (Thm/LegendrePoly.v): coefficient lists
    [leg_q sq m l] produced by the SAME generated recurrence step run on coefficient lists *)
Section C01_LegendrePoly.
  Context {F : Type} {o : Ops F} {Fc : FieldC o}.
  Variable sq : F -> F.
  Variable nx : nat.
  Variables x y : nat -> F.

  (** p[m,i,l] = y_i^m q_{m,l}(x_i) for every node table; degree q_{m,l} <= l - m *)
  Theorem C01_legendre_poly_factor n_m n_l m i l : (n_m <= n_l)%nat -> (i < nx)%nat ->
    legendre_evaluate sq nx x y n_m n_l m i l
    = (if Nat.ltb m n_m && Nat.leb m l && Nat.ltb l n_l then lpow (y i) m * peval (leg_q sq m l) (x i) else 0)
    /\ (length (leg_q sq m l) <= l - m + 1)%nat.
  Proof. intros H1 H2. split; [exact (legendre_evaluate_poly sq nx x y n_m n_l m i l H1 H2) | exact (leg_q_degree sq m l)]. Qed.

  (** the Gram integrand is the value of ONE polynomial of degree <= l + l' (y^2 = 1 - x^2) *)
  Theorem C01_legendre_gram_integrand n_m n_l m i l l' :
    (n_m <= n_l)%nat -> (i < nx)%nat -> (m < n_m)%nat ->
    (m <= l)%nat -> (l < n_l)%nat -> (m <= l')%nat -> (l' < n_l)%nat ->
    y i * y i = leg_y2 (x i) ->
    legendre_evaluate sq nx x y n_m n_l m i l * legendre_evaluate sq nx x y n_m n_l m i l'
    = peval (leg_gram_poly sq m l l') (x i)
    /\ (length (leg_gram_poly sq m l l') <= l + l' + 1)%nat.
  Proof.
    intros. split; [now apply (legendre_gram_integrand sq nx x y n_m n_l) | now apply leg_gram_poly_degree].
  Qed.

  (** a rule exact to degree D (it integrates x^n, n <= D, to mom n): the discrete Gram entry is the
      functional [pint mom] of that polynomial whenever l + l' <= D - independent of the nodes *)
  Theorem C01_legendre_gram_is_moment_functional (w mom : nat -> F) D n_m n_l m l l' :
    (forall n, (n <= D)%nat -> sumn nx (fun j => w j * lpow (x j) n) = mom n) ->
    (n_m <= n_l)%nat -> (m < n_m)%nat ->
    (m <= l)%nat -> (l < n_l)%nat -> (m <= l')%nat -> (l' < n_l)%nat -> (l + l' <= D)%nat ->
    (forall i, (i < nx)%nat -> y i * y i = leg_y2 (x i)) ->
    sumn nx (fun i => w i * (legendre_evaluate sq nx x y n_m n_l m i l * legendre_evaluate sq nx x y n_m n_l m i l'))
    = pint mom (leg_gram_poly sq m l l').
  Proof. intros H. exact (legendre_gram_is_moment_functional sq nx x y w mom D H n_m n_l m l l'). Qed.

  (** H_legendre_orth_deg from a node-free statement about the functional *)
  Theorem C01_legendre_orth_deg_from_functional (w mom : nat -> F) D M L :
    (forall n, (n <= D)%nat -> sumn nx (fun j => w j * lpow (x j) n) = mom n) ->
    (M <= L)%nat ->
    (forall i, (i < nx)%nat -> y i * y i = leg_y2 (x i)) ->
    (forall m l l', (m < M)%nat -> (m <= l)%nat -> (l < L)%nat -> (m <= l')%nat -> (l' < L)%nat -> (l + l' <= D)%nat ->
       pint mom (leg_gram_poly sq m l l') = delta l l') ->
    H_legendre_orth_deg (modal_rows_real M) L nx
      (fun a j l => legendre_evaluate sq nx x y M L (mabs_real a) j l) w mabs_real D.
  Proof. intros H. exact (legendre_orth_deg_from_functional sq nx x y w mom D H M L). Qed.

  (** on a grid that resolves its truncation: the full H_legendre_orth *)
  Theorem C01_legendre_orth_resolves (w mom : nat -> F) spacing I M L :
    resolves spacing I nx M L = true ->
    (forall n, (n <= exact_degree spacing nx)%nat -> sumn nx (fun j => w j * lpow (x j) n) = mom n) ->
    (forall i, (i < nx)%nat -> y i * y i = leg_y2 (x i)) ->
    (forall m l l', (m < M)%nat -> (m <= l)%nat -> (l < L)%nat -> (m <= l')%nat -> (l' < L)%nat ->
       pint mom (leg_gram_poly sq m l l') = delta l l') ->
    H_legendre_orth (modal_rows_real M) L nx
      (fun a j l => legendre_evaluate sq nx x y M L (mabs_real a) j l) w mabs_real.
  Proof. exact (legendre_orth_resolves sq nx x y w mom spacing I M L). Qed.
End C01_LegendrePoly.

(** non-vacuity over Qc: Simpson's rule on the nodes -1, 0, 1 (y = 0, 1, 0) is exact to degree 3 *)
Definition px (i : nat) : Qc := exq [-1; 0; 1]%Q i.
Definition py (i : nat) : Qc := exq [0; 1; 0]%Q i.
Definition pw (i : nat) : Qc := exq [1#3; 4#3; 1#3]%Q i.
Definition pmom (n : nat) : Qc := exq [2; 0; 2#3; 0]%Q n.

Example C01_legendre_poly_nonvacuous :
  (forall n, (n <= 3)%nat -> sumn 3 (fun j => pw j * lpow (px j) n) = pmom n) /\
  (forall i, (i < 3)%nat -> py i * py i = leg_y2 (px i)) /\
  peval (leg_q lsq 1 2) (Q2Qc (1#2)) = Q2Qc (-15#8) /\ length (leg_q lsq 1 2) = 2%nat /\
  length (leg_gram_poly lsq 1 1 2) = 4%nat /\
  sumn 3 (fun i => pw i * (legendre_evaluate lsq 3 px py 2 3 1%nat i 1%nat * legendre_evaluate lsq 3 px py 2 3 1%nat i 1%nat))
  = pint pmom (leg_gram_poly lsq 1 1 1) /\
  pint pmom (leg_gram_poly lsq 1 1 1) = Q2Qc (3#4).
Proof.
  split. { intros n Hn. destruct n as [|[|[|[|n]]]]; try lia; qc. }
  split. { intros i Hi. destruct i as [|[|[|i]]]; try lia; qc. }
  split. { qc. } split. { vm_compute; reflexivity. } split. { vm_compute; reflexivity. }
  split; qc.
Qed.

Print Assumptions C01_sht_gram.
Print Assumptions C01_sht_roundtrip.
Print Assumptions C01_sht_roundtrip_bandlimited.
Print Assumptions C01_masked_inert.
Print Assumptions C01_sht_batch.
Print Assumptions C01_sht_integral.
Print Assumptions C01_fast_roundtrip.
Print Assumptions C01_fast_padding_inert.
Print Assumptions C01_sht_integral_R.
Print Assumptions C01_fourier_orth_columns_R.
Print Assumptions C01_fourier_orth_R.
Print Assumptions C01_sht_roundtrip_fourier_R.
Print Assumptions C01_fourier_aliasing_R.
Print Assumptions C01_normalization_literal.
Print Assumptions C01_grid_table_resolves.
Print Assumptions C01_hyps_satisfiable.
Print Assumptions C01_legendre_accepts.
Print Assumptions C01_legendre_support.
Print Assumptions C01_legendre_H_p_support.
Print Assumptions C01_rhombus_triangle_zero.
Print Assumptions C01_legendre_p00.
Print Assumptions C01_legendre_parity.
Print Assumptions C01_legendre_three_term_ab.
Print Assumptions C01_legendre_three_term_eps.
Print Assumptions C01_legendre_eps_sq.
Print Assumptions C01_legendre_radicands.
Print Assumptions C01_legendre_nonvacuous.
Print Assumptions C01_legendre_poly_factor.
Print Assumptions C01_legendre_gram_integrand.
Print Assumptions C01_legendre_gram_is_moment_functional.
Print Assumptions C01_legendre_orth_deg_from_functional.
Print Assumptions C01_legendre_orth_resolves.
Print Assumptions C01_legendre_poly_nonvacuous.
