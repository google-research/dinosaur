(** Property C12 - physical results do not depend on the non-dimensionalisation
    scale.  The general theorems are in Thm/Scaling.v, Thm/ScalingColumn.v and
    Thm/ScalingFull.v, for arbitrary multipliers related as dimensional
    consistency requires; here the multipliers become [factor s d] and the
    relations are discharged, each group of hypotheses is shown satisfiable on
    a small instance over Qc, and the statements that involve exp, ln and
    powers are instantiated over the reals.  Every theorem is for an arbitrary
    field [F], arbitrary scales with non-zero entries and arbitrary sizes.

    What the algebra cannot see - a hard-coded constant that bypasses the scale
    is a property of the call graph - is decided on the implementation by the
    plugin (same SI problem under several scales; AST scan of call sites). *)
From Dino Require Import Base.Ops Base.Sums Base.Inst Base.Ord Model.Sigma Model.Implicit Model.PrimEq Model.Forcings
  Model.Integrators Model.Dual Thm.Dual Thm.Implicit Model.Scaling Thm.Scaling Thm.ScalingColumn.
From Coq Require Import Qcanon Reals.
Local Open Scope F_scope.

Section C12.
  Context {F : Type} {o : Ops F} {Fc : FieldC o}.

  (** dimension algebra: [factor s] is a group homomorphism from (Z^4, +) to
      the non-zero elements of F under multiplication *)
  Theorem C12_factor_homomorphism (s : scale) (d1 d2 : dim) :
    scale_nz s ->
    factor s (dadd d1 d2) = factor s d1 * factor s d2 /\ factor s dzero = 1 /\
    factor s (dopp d1) = 1 / factor s d1 /\ factor s d1 <> 0 /\
    (forall x, redim s d1 (nondim s d1 x) = x).
  Proof.
    intros Hs. repeat split.
    - exact (factor_add s d1 d2 Hs).
    - exact (factor_zero s).
    - exact (factor_opp s d1 Hs).
    - exact (factor_nonzero s d1 Hs).
    - intros x. exact (redim_nondim s d1 x Hs).
  Qed.

  (** every dimensionally well-typed computation built from field operations is
      scale-covariant *)
  Theorem C12_welldim_homogeneous (dv : nat -> dim) (s : scale) (x : nat -> F) (e : expr F) (d : dim) :
    scale_nz s -> denoms_nz x e -> dim_of dv e = Some d ->
    eval (rescale s dv x) e = factor s d * eval x e.
  Proof. exact (welldim_homogeneous dv s x e d). Qed.

  (** the property's statement for such computations: same physical inputs,
      two scales, results converted back are equal (and equal the base-unit result) *)
  Theorem C12_scale_independence (dv : nat -> dim) (s1 s2 : scale) (X : nat -> F) (e : expr F) (d : dim) :
    scale_nz s1 -> scale_nz s2 -> denoms_nz X e -> dim_of dv e = Some d ->
    redim s1 d (eval (nondim_env s1 dv X) e) = redim s2 d (eval (nondim_env s2 dv X) e)
    /\ redim s1 d (eval (nondim_env s1 dv X) e) = eval X e.
  Proof. exact (scale_independence dv s1 s2 X e d). Qed.

  (** the sigma-column operators, with dimension bookkeeping: sigma is
      dimensionless; integrals and differences keep the dimension [d]; vertical
      advection multiplies the dimensions of velocity and advected quantity;
      the hydrostatic integral maps R (L^2 T^-2 Theta^-1) and T (Theta) to a
      geopotential (L^2 T^-2) *)
  Theorem C12_columns_homogeneous (s : scale) (d dw dx : dim) dot down K (b x w ls : nat -> F) wt wb dt db R j :
    scale_nz s ->
    cum_sigma_integral dot down K b (scol (factor s d) x) j = factor s d * cum_sigma_integral dot down K b x j /\
    sigma_integral K b (scol (factor s d) x) = factor s d * sigma_integral K b x /\
    centered_difference b (scol (factor s d) x) j = factor s d * centered_difference b x j /\
    centered_vertical_advection K b (scol (factor s dw) w) (scol (factor s dx) x)
        (factor s dw * wt) (factor s dw * wb) (factor s dx * dt) (factor s dx * db) j
      = factor s (dadd dw dx) * centered_vertical_advection K b w x wt wb dt db j /\
    geo_diff_dense K (factor s d_gas * R) ls (scol (factor s d_temp) x) j
      = factor s d_geopot * geo_diff_dense K R ls x j /\
    ((j < K)%nat -> geo_diff_sparse K (factor s d_gas * R) ls (scol (factor s d_temp) x) j
      = factor s d_geopot * geo_diff_sparse K R ls x j).
  Proof.
    intros Hs. pose proof (factor_geopot s Hs) as G.
    repeat split.
    - apply cum_sigma_integral_homogeneous.
    - apply sigma_integral_homogeneous.
    - apply centered_difference_homogeneous.
    - rewrite factor_add by exact Hs. apply centered_vertical_advection_bilinear.
    - rewrite G. apply geo_diff_dense_homogeneous.
    - intros Hj. rewrite G. now apply geo_diff_sparse_homogeneous.
  Qed.

  (** nodal terms of the primitive equations: velocity L T^-1, vorticity /
      divergence / Coriolis T^-1, temperature Theta, grad(ln ps) L^-1, R
      L^2 T^-2 Theta^-1, kappa / sigma / sec^2(lat) dimensionless.  The adiabatic
      temperature term comes out in Theta T^-1, d(ln ps)/dt in T^-1 and both
      components of the momentum-equation term in L T^-2. *)
  Theorem C12_nodal_terms_homogeneous (s : scale) (c : PEcfg) (x : NCol) va n :
    scale_nz s ->
    let x' := scale_ncol (factor s d_vel) (factor s d_rate) (factor s d_temp) (factor s d_invlen) x in
    let c' := scale_cfg (factor s d_temp) (factor s d_gas) c in
    temp_adiabatic c' x' n = factor s d_temp_rate * temp_adiabatic c x n /\
    log_pressure_tendency c' x' = factor s d_rate * log_pressure_tendency c x /\
    combined_u c' va x' (rt_dry c' x') n = factor s d_accel * combined_u c va x (rt_dry c x) n /\
    combined_v c' va x' (rt_dry c' x') n = factor s d_accel * combined_v c va x (rt_dry c x) n.
  Proof.
    intros Hs x' c'.
    pose proof (factor_vel_invlen s Hs) as H1. pose proof (factor_gas_temp_invlen s Hs) as H2.
    rewrite (factor_temp_rate s Hs), (factor_accel s Hs).
    split; [|split].
    - exact (temp_adiabatic_homogeneous _ _ _ _ _ H1 c x n).
    - exact (log_pressure_tendency_homogeneous _ _ _ _ _ H1 c x).
    - exact (combined_uv_homogeneous _ _ _ _ _ H1 H2 c va x n).
  Qed.

  (** the remaining nodal terms: the vertical-advection part of the temperature
      equation (its branch on a non-uniform T_ref is scale-invariant because the
      temperature factor is non-zero), the complete nodal right-hand sides of
      temperature and tracers, and the moist / cloud classes (R_vapor and
      Cp_vapor scale like R; q, cloud water and ice are dimensionless) *)
  Theorem C12_moist_and_vertical_terms_homogeneous (s : scale) (c : PEcfg) (m : Moist) (x : NCol)
      (q qc qi gqx gqy : nat -> F) lap va sparse n :
    scale_nz s -> (forall a b : F, feqb a b = true <-> a = b) -> cR c <> 0 -> ckappa c <> 0 -> (n < cK c)%nat ->
    let kg := factor s d_invlen in let kT := factor s d_temp in let kr := factor s d_rate in
    let x' := scale_ncol (factor s d_vel) kr kT kg x in
    let c' := scale_cfg kT (factor s d_gas) c in
    let m' := scale_moist (factor s d_gas) m in
    tref_nonuniform c' = tref_nonuniform c /\
    temp_vertical_tendency c' va x' n = factor s d_temp_rate * temp_vertical_tendency c va x n /\
    temp_nodal_total c' va x' n = factor s d_temp_rate * temp_nodal_total c va x n /\
    tracer_nodal_total c' va x' q n = kr * tracer_nodal_total c va x q n /\
    temp_adiabatic_moist c' m' x' q n = factor s d_temp_rate * temp_adiabatic_moist c m x q n /\
    temp_nodal_total_moist c' va m' x' q n = factor s d_temp_rate * temp_nodal_total_moist c va m x q n /\
    combined_u c' va x' (rt_moist c' m' x' q) n = factor s d_accel * combined_u c va x (rt_moist c m x q) n /\
    combined_v c' va x' (rt_moist c' m' x' q) n = factor s d_accel * combined_v c va x (rt_moist c m x q) n /\
    combined_u c' va x' (rt_cloud c' m' x' q qc qi) n = factor s d_accel * combined_u c va x (rt_cloud c m x q qc qi) n /\
    combined_v c' va x' (rt_cloud c' m' x' q qc qi) n = factor s d_accel * combined_v c va x (rt_cloud c m x q qc qi) n /\
    humidity_div_nodal c' m' x' q (scol kg gqx) (scol kg gqy) (kg * kg * lap) n
      = factor s d_rate2 * humidity_div_nodal c m x q gqx gqy lap n /\
    humidity_curl_nodal c' m' x' (scol kg gqx) (scol kg gqy) n = factor s d_rate2 * humidity_curl_nodal c m x gqx gqy n /\
    humidity_geo_nodal c' sparse m' x' q n = factor s d_geopot * humidity_geo_nodal c sparse m x q n.
  Proof.
    intros Hs Hfe HR Hkap Hn kg kT kr x' c' m'.
    pose proof (factor_vel_invlen s Hs) as H1. pose proof (factor_gas_temp_invlen s Hs) as H2.
    pose proof (factor_nonzero s d_temp Hs) as NT. pose proof (factor_nonzero s d_gas Hs) as NR.
    rewrite (factor_temp_rate s Hs), (factor_accel s Hs), (factor_rate2 s Hs), (factor_geopot s Hs).
    fold kg kT kr in H1, H2, NT |- *.
    destruct (combined_uv_scal _ _ _ _ _ H1 H2 c va x _ _ n (rt_moist_homogeneous (factor s d_vel) kr kT kg _ c NR HR m x q)) as [M1 M2].
    destruct (combined_uv_scal _ _ _ _ _ H1 H2 c va x _ _ n (rt_cloud_homogeneous (factor s d_vel) kr kT kg _ c NR HR m x q qc qi)) as [M3 M4].
    repeat split; try assumption.
    - exact (tref_nonuniform_scale_invariant kT _ c Hfe NT).
    - exact (temp_vertical_tendency_homogeneous _ _ _ _ _ H1 c Hfe NT va x n).
    - exact (temp_nodal_total_homogeneous _ _ _ _ _ H1 c Hfe NT va x n).
    - exact (tracer_nodal_total_dimensionless (factor s d_vel) kr kT kg (factor s d_gas) H1 c va x q n).
    - exact (temp_adiabatic_moist_homogeneous _ _ _ _ _ H1 c NR HR m x q n Hkap).
    - exact (temp_nodal_total_moist_homogeneous _ _ _ _ _ H1 c Hfe NT NR HR m va x q n Hkap).
    - apply humidity_div_nodal_homogeneous.
    - apply humidity_curl_nodal_homogeneous.
    - now apply humidity_geo_nodal_homogeneous.
  Qed.
End C12.

(** time stepping: if the equations under the second scale are the rescaled
    equations ([Fx' (S u) = (1/tau) L (Fx u)], same for [G], and the resolvent
    with the rescaled step), every integrator of time_integration.py commutes
    with the change of scale [S u = L u + c0], [dt' = tau dt] *)
Section C12_steps.
  Context {F : Type} {o : Ops F} {Fc : FieldC o} {V : Type} {vo : VOps F V}.
  Hypothesis vadd_assoc : forall u v w : V, vadd u (vadd v w) = vadd (vadd u v) w.
  Hypothesis vadd_comm : forall u v : V, vadd u v = vadd v u.
  Hypothesis vscal_add : forall (a : F) (u v : V), vscal a (vadd u v) = vadd (vscal a u) (vscal a v).
  Hypothesis vscal_mul : forall (a b : F) (u : V), vscal a (vscal b u) = vscal (a * b) u.
  Hypothesis vscal_zero : forall a : F, vscal a vzero = (vzero : V).
  Variables (L : V -> V) (c0 : V) (tau : F).
  Hypothesis L_add : forall u v, L (vadd u v) = vadd (L u) (L v).
  Hypothesis L_scal : forall a u, L (vscal a u) = vscal a (L u).
  Hypothesis L_zero : L vzero = vzero.
  Hypothesis tau_nz : tau <> 0.
  Variables (Fx G : V -> V) (Ginv : V -> F -> V) (Fx' G' : V -> V) (Ginv' : V -> F -> V).
  Notation S := (Sc L c0).
  Hypothesis HF : forall u, Fx' (S u) = Tn L tau (Fx u).
  Hypothesis HG : forall u, G' (S u) = Tn L tau (G u).
  (** [ok eta]: the implicit solve with step size [eta] is well defined; only the
      step sizes an integrator really uses have to be [ok] *)
  Variable ok : F -> Prop.
  Hypothesis HGinv : forall u eta, ok eta -> Ginv' (S u) (tau * eta) = S (Ginv u eta).

  Theorem C12_step_covariant dt alpha al be ga a_ex a_im b_ex b_im u p q :
    (ok dt -> euler_step Fx' Ginv' (tau * dt) (S u) = S (euler_step Fx Ginv dt u)) /\
    (ok (half * dt) -> cn_rk2_step Fx' G' Ginv' (tau * dt) (S u) = S (cn_rk2_step Fx G Ginv dt u)) /\
    (ls_ok ok dt al -> ls_step Fx' G' Ginv' (tau * dt) al be ga (S u) = S (ls_step Fx G Ginv dt al be ga u)) /\
    (imex_ok ok dt 1 a_im ->
       imex_step Fx' G' Ginv' (tau * dt) a_ex a_im b_ex b_im (S u)
       = option_map S (imex_step Fx G Ginv dt a_ex a_im b_ex b_im u)) /\
    (ok (two * dt * alpha) ->
       leapfrog_step Fx' G' Ginv' (tau * dt) alpha (S p, S q)
       = (S (fst (leapfrog_step Fx G Ginv dt alpha (p, q))), S (snd (leapfrog_step Fx G Ginv dt alpha (p, q))))).
  Proof. apply steps_covariant; assumption. Qed.

  (** k filtered steps: trajectories under two scales stay related by [S] *)
  Theorem C12_trajectory_covariant (step step' : V -> V) (fl fl' : list (V -> V -> V)) :
    (forall u, step' (S u) = S (step u)) ->
    Forall2 (fun f' f => forall u w, f' (S u) (S w) = S (f u w)) fl' fl ->
    forall k u, Nat.iter k (step_with_filters step' fl') (S u) = S (Nat.iter k (step_with_filters step fl) u).
  Proof. exact (trajectory_covariant L c0 step step' fl fl'). Qed.
End C12_steps.

(** The hypotheses of [C12_step_covariant] on the implicit terms and on the
    resolvent are theorems for the implicit column model of the primitive
    equations (Model/Implicit.v; one spectral coefficient with Laplacian
    eigenvalue [lam]; state = divergence[K], temperature[K], lnps; change of
    scale = multiplication by the factors of T^-1 and Theta and a shift of lnps
    in the mean mode).  Only the explicit terms stay abstract. *)
Section C12_column.
  Context {F : Type} {o : Ops F} {Fc : FieldC o}.

  (** the two relations between the multipliers hold for every scale (the third, on the shift, is about [lam]) *)
  Theorem C12_column_relations (s : scale) :
    scale_nz s ->
    factor s d_time * factor s d_rate = 1 /\
    factor s d_gas * factor s d_temp * factor s (mkdim (-2) 0 0 0) = factor s d_rate * factor s d_rate.
  Proof.
    intros Hs. split.
    - rewrite <- factor_add by exact Hs. apply factor_zero.
    - rewrite <- !factor_add by exact Hs. reflexivity.
  Qed.

  Variables (kr kT kR kl tau shift : F) (c : @PEcfg F) (lam : F) (inv : nat -> @Mat F -> @Mat F).
  Hypothesis H_time : tau * kr = 1.
  Hypothesis H_geo : kR * kT * kl = kr * kr.
  Hypothesis H_shift : shift * lam = 0.
  Hypothesis feqb_sound : forall x y : F, feqb x y = true -> x = y.
  Hypothesis th0_nz : thickness (cb c) 0%nat <> 0.
  Hypothesis thK_nz : thickness (cb c) (cK c - 1)%nat <> 0.
  Notation c' := (scale_cfg kT kR c).
  Notation S := (Sc (vo := ColOps) (col_L (cK c) kr kT) (col_shift shift)).
  Notation ok := (col_ok kT kR kl tau c lam inv).

  Theorem C12_column_hypotheses_discharged :
    (forall u, col_G c' (kl * lam) (S u) = Tn (vo := ColOps) (col_L (cK c) kr kT) tau (col_G c lam u)) /\
    (forall u eta, ok eta -> col_Ginv inv c' (kl * lam) (S u) (tau * eta) = S (col_Ginv inv c lam u eta)).
  Proof.
    split.
    - exact (column_implicit_terms_covariant kr kT kR kl tau shift c lam H_time H_geo H_shift).
    - exact (column_resolvent_covariant kr kT kR kl tau shift c lam H_time H_geo H_shift inv feqb_sound th0_nz thK_nz).
  Qed.

  Theorem C12_column_steps_covariant (Fx Fx' : @Col F -> @Col F) dt alpha al be ga a_ex a_im b_ex b_im u p q :
    (forall u, Fx' (S u) = Tn (vo := ColOps) (col_L (cK c) kr kT) tau (Fx u)) ->
    let G0 := col_G c lam in let G1 := col_G c' (kl * lam) in
    let Gi0 := col_Ginv inv c lam in let Gi1 := col_Ginv inv c' (kl * lam) in
    (ok dt -> euler_step (vo := ColOps) Fx' Gi1 (tau * dt) (S u) = S (euler_step (vo := ColOps) Fx Gi0 dt u)) /\
    (ok (half * dt) -> cn_rk2_step (vo := ColOps) Fx' G1 Gi1 (tau * dt) (S u) = S (cn_rk2_step (vo := ColOps) Fx G0 Gi0 dt u)) /\
    (ls_ok ok dt al -> ls_step (vo := ColOps) Fx' G1 Gi1 (tau * dt) al be ga (S u) = S (ls_step (vo := ColOps) Fx G0 Gi0 dt al be ga u)) /\
    (imex_ok ok dt 1 a_im ->
       imex_step (vo := ColOps) Fx' G1 Gi1 (tau * dt) a_ex a_im b_ex b_im (S u)
       = option_map S (imex_step (vo := ColOps) Fx G0 Gi0 dt a_ex a_im b_ex b_im u)) /\
    (ok (two * dt * alpha) ->
       leapfrog_step (vo := ColOps) Fx' G1 Gi1 (tau * dt) alpha (S p, S q)
       = (S (fst (leapfrog_step (vo := ColOps) Fx G0 Gi0 dt alpha (p, q))),
          S (snd (leapfrog_step (vo := ColOps) Fx G0 Gi0 dt alpha (p, q))))).
  Proof.
    intros HF G0 G1 Gi0 Gi1.
    exact (column_steps_covariant kr kT kR kl tau shift c lam H_time H_geo H_shift inv feqb_sound th0_nz thK_nz
             Fx Fx' HF dt alpha al be ga a_ex a_im b_ex b_im u p q).
  Qed.
End C12_column.

(** The explicit and implicit tendencies of all four equation classes assembled
    over ABSTRACT horizontal operators (Model/PrimEq.v, Section ModalAssembly):
    to_modal and clip are the same under both scales, div/curl of the second
    scale are [kg] times and the Laplacian [kg^2] times those of the first (the
    non-dimensional radius differs); only homogeneity and extensionality of the
    operators are assumed, plus additivity of the Laplacian and "lap kills the
    constant mode" for the log-pressure shift.  With the dimension assignment
    (ku velocity, kr rates, kT temperature, kg inverse length, kR gas constants,
    kL length; ku*kg = kr, kR*kT*kg = ku*kr, kL*kg = 1 - all true for
    [factor s d], see the proofs of the nodal theorems) every tendency is
    covariant: temperature Theta/T, divergence and vorticity 1/T^2, moist and
    cloud classes included (specific humidity dimensionless). *)
Section C12_modal.
  Context {F : Type} {o : Ops F} {Fc : FieldC o}.
  Variables (ku kr kT kg kR kL : F).
  Hypothesis H_rate : ku * kg = kr.
  Hypothesis H_accel : kR * kT * kg = ku * kr.
  Hypothesis H_len : kL * kg = 1.
  Hypothesis feqb_iff : forall a b : F, feqb a b = true <-> a = b.
  Hypothesis kT_nz : kT <> 0.
  Hypothesis kR_nz : kR <> 0.
  Variables W P : Type.
  Variable toM : (P -> F) -> W -> F.
  Variables divc curlc divc' curlc' : (W -> F) -> (W -> F) -> W -> F.
  Variables lap lap' clip : (W -> F) -> W -> F.
  Hypothesis toM_scal : forall k f w, toM (fun p => k * f p) w = k * toM f w.
  Hypothesis toM_ext : forall f g, (forall p, f p = g p) -> forall w, toM f w = toM g w.
  Hypothesis divc_scal : forall k a b w, divc (fun v => k * a v) (fun v => k * b v) w = k * divc a b w.
  Hypothesis divc_ext : forall a a' b b', (forall v, a v = a' v) -> (forall v, b v = b' v) -> forall w, divc a b w = divc a' b' w.
  Hypothesis curlc_scal : forall k a b w, curlc (fun v => k * a v) (fun v => k * b v) w = k * curlc a b w.
  Hypothesis curlc_ext : forall a a' b b', (forall v, a v = a' v) -> (forall v, b v = b' v) -> forall w, curlc a b w = curlc a' b' w.
  Hypothesis lap_scal : forall k a w, lap (fun v => k * a v) w = k * lap a w.
  Hypothesis lap_ext : forall a a', (forall v, a v = a' v) -> forall w, lap a w = lap a' w.
  Hypothesis lap_add : forall a b w, lap (fun v => a v + b v) w = lap a w + lap b w.
  Hypothesis clip_scal : forall k a w, clip (fun v => k * a v) w = k * clip a w.
  Hypothesis clip_ext : forall a a', (forall v, a v = a' v) -> forall w, clip a w = clip a' w.
  Hypothesis divc'_def : forall a b w, divc' a b w = kg * divc a b w.
  Hypothesis curlc'_def : forall a b w, curlc' a b w = kg * curlc a b w.
  Hypothesis lap'_def : forall a w, lap' a w = kg * kg * lap a w.
  Variable c : @PEcfg F.
  Variable m : @Moist F.
  Hypothesis R_nz : cR c <> 0.
  Hypothesis kappa_nz : ckappa c <> 0.
  Variable X : P -> @NCol F.
  Notation c' := (scale_cfg kT kR c).
  Notation m' := (scale_moist kR m).
  Notation X' := (fun p => scale_ncol ku kr kT kg (X p)).

  Theorem C12_modal_tendencies_covariant
      (q qc qi gqx gqy : P -> nat -> F) (lapn : P -> F) (orog orog' hum hum' : W -> F) (grav : F)
      (dv dv' Tm Tm' : nat -> W -> F) (lnps lnps' e : W -> F) shift r w :
    (r < cK c)%nat ->
    (forall v, orog' v = kL * orog v) -> (forall v, hum' v = kr * kr * hum v) ->
    (forall k v, dv' k v = kr * dv k v) -> (forall k v, Tm' k v = kT * Tm k v) ->
    (forall v, lnps' v = lnps v + shift * e v) -> (forall v, lap e v = 0) ->
    let rtm := fun p => rt_moist c m (X p) (q p) in
    let rtm' := fun p => rt_moist c' m' (scale_ncol ku kr kT kg (X p)) (q p) in
    let rtc := fun p => rt_cloud c m (X p) (q p) (qc p) (qi p) in
    let rtc' := fun p => rt_cloud c' m' (scale_ncol ku kr kT kg (X p)) (q p) (qc p) (qi p) in
    temp_tendency_explicit W P toM divc' clip c' X' r w = kT * kr * temp_tendency_explicit W P toM divc clip c X r w /\
    temp_tendency_explicit_moist W P toM divc' clip c' m' X' q r w
      = kT * kr * temp_tendency_explicit_moist W P toM divc clip c m X q r w /\
    div_tendency_explicit W P toM divc' lap' clip c' (ku * kr * grav) X' rtm' orog' hum' r w
      = kr * kr * div_tendency_explicit W P toM divc lap clip c grav X rtm orog hum r w /\
    div_tendency_explicit W P toM divc' lap' clip c' (ku * kr * grav) X' rtc' orog' hum' r w
      = kr * kr * div_tendency_explicit W P toM divc lap clip c grav X rtc orog hum r w /\
    vort_tendency_explicit W P toM curlc' clip c' X' rtm' hum' r w
      = kr * kr * vort_tendency_explicit W P toM curlc clip c X rtm hum r w /\
    humidity_div_modal W P toM lap' c' m' X' q (fun p => scol kg (gqx p)) (fun p => scol kg (gqy p)) (fun p => kg * kg * lapn p) r w
      = kr * kr * humidity_div_modal W P toM lap c m X q gqx gqy lapn r w /\
    humidity_curl_modal W P toM c' m' X' (fun p => scol kg (gqx p)) (fun p => scol kg (gqy p)) r w
      = kr * kr * humidity_curl_modal W P toM c m X gqx gqy r w /\
    temp_tendency_implicit W c' dv' r w = kT * kr * temp_tendency_implicit W c dv r w /\
    div_tendency_implicit W lap' c' Tm' lnps' r w = kr * kr * div_tendency_implicit W lap c Tm lnps r w.
  Proof.
    intros Hr Horo Hhum Hdv HTm Hl He rtm rtm' rtc rtc'.
    assert (RTm : forall p j, rtm' p j = kR * kT * rtm p j).
    { intros p j. now apply rt_moist_homogeneous. }
    assert (RTc : forall p j, rtc' p j = kR * kT * rtc p j).
    { intros p j. now apply rt_cloud_homogeneous. }
    pose (O := mkModalOps W P toM divc curlc lap clip divc' curlc' lap').
    assert (OL : ModalLaws kg O) by (constructor; try split; assumption).
    split; [eapply (temp_tendency_explicit_covariant ku kr kT kg kR) with (O := O); eassumption|].
    split; [eapply (temp_tendency_explicit_moist_covariant ku kr kT kg kR) with (O := O); eassumption|].
    split; [eapply (div_tendency_explicit_covariant ku kr kT kg kR) with (O := O); eassumption|].
    split; [eapply (div_tendency_explicit_covariant ku kr kT kg kR) with (O := O); eassumption|].
    split; [eapply (vort_tendency_explicit_covariant ku kr kT kg kR) with (O := O); eassumption|].
    split; [exact (proj1 (humidity_modal_covariant ku kr kT kg kR H_rate H_accel kR_nz W P O OL c R_nz X m q gqx gqy lapn r w Hr))|].
    split; [exact (proj2 (humidity_modal_covariant ku kr kT kg kR H_rate H_accel kR_nz W P O OL c R_nz X m q gqx gqy lapn r w Hr))|].
    eapply (implicit_tendencies_covariant ku kr kT kg kR) with (O := O); eassumption.
  Qed.
End C12_modal.

(** Held-Suarez forcing (Model/Forcings.v), over an ordered field with a
    positive temperature scale: Rayleigh and Newtonian rates scale like 1/T,
    the equilibrium temperature (including the max with minT) like Theta, p/p0
    is invariant, and the nodal tendencies come out in L/T^2 and Theta/T.
    (p/p0)^kappa and log(p/p0) are inputs evaluated at the invariant p/p0. *)
Section C12_held_suarez.
  Context {F : Type} {o : Ops F} {Oc : OrdFieldC o}.

  Theorem C12_held_suarez_homogeneous (s : scale) (P : HSParams F) sigma ps cl sl pk logp tref tvar cu :
    scale_nz s -> flt 0 (factor s d_temp) -> hp_p0 P <> 0 ->
    let kp := factor s d_pressure in let kr := factor s d_rate in let kT := factor s d_temp in
    let P' := scale_hs kp kr kT P in
    hs_kv P' sigma = kr * hs_kv P sigma /\ hs_kt P' sigma cl = kr * hs_kt P sigma cl /\
    hs_p_over_p0 P' sigma (kp * ps) = hs_p_over_p0 P sigma ps /\
    hs_teq P' pk logp cl sl = kT * hs_teq P pk logp cl sl /\
    hs_nodal_velocity_tendency (hs_kv P' sigma) (factor s d_vel * cu) cl
      = factor s d_accel * hs_nodal_velocity_tendency (hs_kv P sigma) cu cl /\
    hs_nodal_temperature_tendency (hs_kt P' sigma cl) (kT * tref) (kT * tvar) (hs_teq P' pk logp cl sl)
      = factor s d_temp_rate * hs_nodal_temperature_tendency (hs_kt P sigma cl) tref tvar (hs_teq P pk logp cl sl).
  Proof.
    intros Hs HT Hp0 kp kr kT P'.
    destruct (hs_rates_homogeneous kp kr kT P sigma cl) as [R1 R2].
    split; [exact R1|]. split; [exact R2|]. split; [|split; [|split]].
    - apply hs_p_over_p0_invariant; [now apply factor_nonzero | exact Hp0].
    - exact (hs_teq_homogeneous kp kr kT P pk logp cl sl HT).
    - unfold P'. rewrite R1, (factor_accel s Hs). apply hs_velocity_tendency_homogeneous.
    - rewrite (factor_temp_rate s Hs). exact (hs_temperature_forcing_homogeneous kp kr kT P sigma cl sl pk logp tref tvar HT).
  Qed.

  (** The statement in the property's words, for EVERY power function [pw]
      (x |-> x ** kappa in the code) and EVERY [lg] (log in the code) - nothing is
      assumed about them, they are applied to the scale-invariant p/p0 -:
      Held-Suarez evaluated on non-dimensionalised inputs is the
      non-dimensionalisation of Held-Suarez evaluated in SI, for every scale
      with positive entries. *)
  Theorem C12_held_suarez_nondim_commutes (pw lg : F -> F) (s : scale) (P : HSParams F) sigma ps cl sl :
    scale_positive s -> hp_p0 P <> 0 ->
    hs_kv (nondim_hs s P) sigma = nondim s d_rate (hs_kv P sigma) /\
    hs_kt (nondim_hs s P) sigma cl = nondim s d_rate (hs_kt P sigma cl) /\
    hs_p_over_p0 (nondim_hs s P) sigma (nondim s d_pressure ps) = hs_p_over_p0 P sigma ps /\
    hs_teq_of_ps pw lg (nondim_hs s P) sigma (nondim s d_pressure ps) cl sl
      = nondim s d_temp (hs_teq_of_ps pw lg P sigma ps cl sl).
  Proof. exact (hs_nondim_commutes pw lg s P sigma ps cl sl). Qed.
End C12_held_suarez.

(** over the reals with the library's power, logarithm and exponential, starting
    from the log surface pressure the model carries: lnps under the scale is
    lnps_SI - ln(factor of pressure) *)
Theorem C12_held_suarez_R (s : @scale R) (P : HSParams R) (kappa sigma lnps_si cl sl : R) :
  (0 < sL s)%R -> (0 < sT s)%R -> (0 < sM s)%R -> (0 < sK s)%R -> hp_p0 P <> 0%R ->
  let pw := fun x : R => Rpower x kappa in
  hs_teq_of_ps pw ln (nondim_hs s P) sigma (exp (lnps_si - ln (factor s d_pressure))) cl sl
    = (hs_teq_of_ps pw ln P sigma (exp lnps_si) cl sl / factor s d_temp)%R /\
  hs_kv (nondim_hs s P) sigma = (hs_kv P sigma / factor s d_rate)%R /\
  hs_kt (nondim_hs s P) sigma cl = (hs_kt P sigma cl / factor s d_rate)%R.
Proof.
  intros H1 H2 H3 H4 Hp0 pw.
  assert (Hpos : scale_positive s).
  { repeat split; apply Rleb_false; assumption. }
  assert (Hfp : (0 < factor s d_pressure)%R).
  { apply Rleb_false. exact (factor_pos s d_pressure Hpos). }
  assert (E : exp (lnps_si - ln (factor s d_pressure)) = nondim s d_pressure (exp lnps_si)).
  { unfold nondim. cbn. unfold Rminus. rewrite exp_plus, exp_Ropp, exp_ln by exact Hfp. reflexivity. }
  rewrite E.
  destruct (C12_held_suarez_nondim_commutes pw ln s P sigma (exp lnps_si) cl sl Hpos Hp0) as (A & B & _ & D).
  repeat split; assumption.
Qed.

Section C12_lnps.
  Context {F : Type} {o : Ops F} {Fc : FieldC o}.

  (** log surface pressure changes by an additive constant under a change of
      scale; operators that annihilate constants (gradient, Laplacian) do not see
      it, operators that fix the constant mode (resolvent at l = 0, filters) pass it on *)
  Theorem C12_log_pressure_shift n (A : nat -> nat -> F) (x : nat -> F) c i :
    ((forall r, sumn n (fun j => A r j) = 0) -> lin n A (shift_field c x) i = lin n A x i) /\
    ((0 < n)%nat -> (forall r, A r 0%nat = 0) -> lin n A (shift_mode0 c x) i = lin n A x i) /\
    ((0 < n)%nat -> (forall r, A r 0%nat = delta r 0%nat) ->
       lin n A (shift_mode0 c x) i = shift_mode0 c (lin n A x) i).
  Proof.
    split; [|split].
    - exact (shift_killed_nodal n A x c i).
    - exact (shift_killed_modal n A x c i).
    - exact (shift_passed_modal n A x c i).
  Qed.

  (** Held-Suarez: sigma * exp(lnps) / p0 with p0 non-dimensionalised by the same scale *)
  Theorem C12_p_over_p0_invariant (E : F -> F) (sigma lnps_si p0_si lp fp : F) :
    (forall a b, E (a + b) = E a * E b) -> E lp = fp -> fp <> 0 -> p0_si <> 0 ->
    p_over_p0 E sigma (lnps_si - lp) (p0_si / fp) = p_over_p0 E sigma lnps_si p0_si.
  Proof. exact (p_over_p0_invariant E sigma lnps_si p0_si lp fp). Qed.
End C12_lnps.

(** over the reals with Coq's exponential: any positive pressure factor *)
Theorem C12_p_over_p0_invariant_R (sigma lnps_si p0_si fp : R) :
  (0 < fp)%R -> p0_si <> 0%R ->
  p_over_p0 exp sigma (lnps_si - ln fp)%R (p0_si / fp)%R = p_over_p0 exp sigma lnps_si p0_si.
Proof.
  intros Hfp Hp0.
  apply (C12_p_over_p0_invariant (o := ROps) exp sigma lnps_si p0_si (ln fp) fp).
  - exact exp_plus.
  - now apply exp_ln.
  - intro H. rewrite H in Hfp. exact (Rlt_irrefl _ Hfp).
  - exact Hp0.
Qed.

(** Non-vacuity over Qc: a non-zero scale; a well-typed expression with
    non-vanishing denominators ((g*h + u*u) / (R*T), dimensionless) and an
    ill-typed one; and a concrete nonlinear IMEX system (u' = u^2 - k u on
    V = Qc, u a rate) that satisfies every hypothesis of the step theorems with
    tau = 3, L u = u / 3. *)
Example C12_hyps_satisfiable :
  let s := mkscale (Q2Qc 2) (Q2Qc 3) (Q2Qc 5) (Q2Qc (7 # 2)) in
  let dv := fun i : nat => nth i [d_grav; d_length; d_vel; d_gas; d_temp] dzero in
  let e := EDiv (EAdd (EMul (EVar 0) (EVar 1)) (EMul (EVar 2) (EVar 2))) (EMul (EVar 3) (EVar 4)) in
  let x := fun i : nat => Q2Qc (nth i [10; 3; 7; 287; 250]%Q 1%Q) in
  scale_nz s /\ dim_of dv e = Some dzero /\ denoms_nz x e /\
  dim_of dv (EAdd (EVar 0) (EVar 1) : expr Qc) = None /\
  factor s d_pressure = Q2Qc (5 # 18) /\
  (let tau := Q2Qc 3 in let k := Q2Qc 2 in
   let vo := mkVOps Qc Qc (Q2Qc 0) Qcplus Qcmult in
   let L := fun u : Qc => u / tau in
   let Fx := fun u : Qc => u * u in
   let G := fun u : Qc => - (k * u) in let G' := fun u : Qc => - (k / tau * u) in
   let Ginv := fun (u eta : Qc) => u / (1 + eta * k) in
   let Ginv' := fun (u eta : Qc) => u / (1 + eta * (k / tau)) in
   tau <> 0 /\
   (forall u, Fx (Sc (vo := vo) L 0 u) = Tn (vo := vo) L tau (Fx u)) /\
   (forall u, G' (Sc (vo := vo) L 0 u) = Tn (vo := vo) L tau (G u)) /\
   (forall u eta, 1 + eta * k <> 0 -> Ginv' (Sc (vo := vo) L 0 u) (tau * eta) = Sc (vo := vo) L 0 (Ginv u eta))).
Proof.
  cbv zeta.
  assert (NZ : forall q : Q, Qeq_bool q 0 = false -> Q2Qc q <> Q2Qc 0).
  { intros q Hq H. apply (f_equal this) in H. cbn in H.
    assert (E : Qeq (Qred q) (Qred 0)) by (rewrite H; reflexivity).
    rewrite !Qred_correct in E. apply Qeq_bool_iff in E. congruence. }
  split; [|split; [|split; [|split; [|split]]]].
  - repeat split; apply NZ; reflexivity.
  - reflexivity.
  - cbn. repeat split. intro H. vm_compute in H. discriminate H.
  - reflexivity.
  - vm_compute. apply Qc_is_canon. reflexivity.
  - assert (T3 : Q2Qc 3 <> Q2Qc 0) by (apply NZ; reflexivity).
    split; [exact T3|]. split; [|split].
    + intros u. unfold Sc, Tn; cbn. field. exact T3.
    + intros u. unfold Sc, Tn; cbn. field. exact T3.
    + intros u eta Hnz. unfold Sc; cbn in *. field.
      repeat split; try exact T3; try exact Hnz.
      all: intro H; apply Hnz; rewrite <- H; field; exact T3.
Qed.

(** Non-vacuity of the column-model hypotheses over Qc: one layer, l = 1 on the
    unit sphere (lam = -2), tau = 3 (kr = 1/3), kT = 5, kl = 4, kR = 1/180, and
    [inv] = the adjugate formula for 3 x 3 matrices: the three relations hold and
    [col_ok (1/2)] (right inverse under the first scale, left inverse under the
    second) is true, with non-zero layer thickness. *)
Definition inv3 (M : @Mat Qc) : @Mat Qc :=
  let cof := fun i j : nat =>
    M ((i + 1) mod 3)%nat ((j + 1) mod 3)%nat * M ((i + 2) mod 3)%nat ((j + 2) mod 3)%nat
    - M ((i + 1) mod 3)%nat ((j + 2) mod 3)%nat * M ((i + 2) mod 3)%nat ((j + 1) mod 3)%nat in
  let det := M 0%nat 0%nat * cof 0%nat 0%nat + M 0%nat 1%nat * cof 0%nat 1%nat + M 0%nat 2%nat * cof 0%nat 2%nat in
  fun i j => cof j i / det.

Example C12_column_hyps_satisfiable :
  let q := fun z : Q => Q2Qc z in
  let c := mkPE 1 (q 287) (q (2 # 7)) (fun _ => q (- 7 # 10)) (fun k => match k with O => q 0 | _ => q 1 end) (fun _ => q 250) in
  let kr := q (1 # 3) in let kT := q 5 in let kR := q (1 # 180) in let kl := q 4 in let tau := q 3 in
  let lam := q (- 2) in let inv := fun (_ : nat) (M : @Mat Qc) => inv3 M in
  tau * kr = 1 /\ kR * kT * kl = kr * kr /\ q 0 * lam = 0 /\
  thickness (cb c) 0%nat <> 0 /\ thickness (cb c) (cK c - 1)%nat <> 0 /\
  col_ok kT kR kl tau c lam inv (q (1 # 2)).
Proof.
  cbv zeta.
  split; [apply Qc_is_canon; vm_compute; reflexivity|].
  split; [apply Qc_is_canon; vm_compute; reflexivity|].
  split; [apply Qc_is_canon; vm_compute; reflexivity|].
  split; [intro H; vm_compute in H; discriminate H|].
  split; [intro H; vm_compute in H; discriminate H|].
  split; intros i j Hi Hj;
    destruct i as [|[|[|i]]]; try (exfalso; cbn in Hi; lia);
    destruct j as [|[|[|j]]]; try (exfalso; cbn in Hj; lia);
    apply Qc_is_canon; vm_compute; reflexivity.
Qed.

(** Non-vacuity of the Held-Suarez theorems over Qc: a positive scale, the default
    Held-Suarez parameters, and a point where the maximum with minT is not active
    (so the covariance of the max is exercised on its non-trivial branch) and one
    where it is; [pw] = squaring and [lg] = identity stand for the power and log. *)
Example C12_held_suarez_hyps_satisfiable :
  let q := fun z : Q => Q2Qc z in
  let s := mkscale (q 2) (q 3) (q 5) (q (7 # 2)) in
  let P := mkHSParams (q 100000) (q (7 # 10)) (q (1 # 86400)) (q (1 # 3456000)) (q (1 # 345600)) (q 200) (q 315) (q 60) (q 10) in
  let pw := fun x : Qc => x * x in let lg := fun x : Qc => x in
  scale_positive s /\ hp_p0 P <> 0 /\
  hs_teq_of_ps pw lg P (q (9 # 10)) (q 100000) (q 1) (q 0) <> hp_minT P /\
  hs_teq_of_ps pw lg P (q (1 # 10)) (q 100000) (q 1) (q 0) = hp_minT P /\
  hs_teq_of_ps pw lg (nondim_hs s P) (q (9 # 10)) (nondim s d_pressure (q 100000)) (q 1) (q 0)
    = nondim s d_temp (hs_teq_of_ps pw lg P (q (9 # 10)) (q 100000) (q 1) (q 0)).
Proof.
  cbv zeta. split; [repeat split; vm_compute; reflexivity|].
  split; [intro H; vm_compute in H; discriminate H|].
  split; [intro H; vm_compute in H; discriminate H|].
  split; apply Qc_is_canon; vm_compute; reflexivity.
Qed.

(** Non-vacuity of the operator hypotheses of [C12_modal_tendencies_covariant]
    over Qc: two modes / two nodes, to_modal = identity, a "Laplacian" that
    annihilates constants, div / curl mixing the two modes; ku = 3, kg = 2,
    kr = 6, kL = 1/2, kT = 5, kR = 9/5. *)
Example C12_modal_hyps_satisfiable :
  let q := fun z : Q => Q2Qc z in
  let ku := q 3 in let kg := q 2 in let kr := q 6 in let kL := q (1 # 2) in let kT := q 5 in let kR := q (9 # 5) in
  let toM := fun (f : bool -> Qc) (w : bool) => f w in
  let divc := fun (a b : bool -> Qc) w => a w + b (negb w) in
  let curlc := fun (a b : bool -> Qc) w => a (negb w) - b w in
  let lap := fun (a : bool -> Qc) w => a w - a (negb w) in
  let clip := fun (a : bool -> Qc) w => a w in
  ku * kg = kr /\ kR * kT * kg = ku * kr /\ kL * kg = 1 /\ kT <> 0 /\ kR <> 0 /\
  (forall k f w, toM (fun p => k * f p) w = k * toM f w) /\
  (forall k a b w, divc (fun v => k * a v) (fun v => k * b v) w = k * divc a b w) /\
  (forall k a b w, curlc (fun v => k * a v) (fun v => k * b v) w = k * curlc a b w) /\
  (forall k a w, lap (fun v => k * a v) w = k * lap a w) /\
  (forall a b w, lap (fun v => a v + b v) w = lap a w + lap b w) /\
  (forall w, lap (fun _ => 1) w = 0) /\
  (forall k a w, clip (fun v => k * a v) w = k * clip a w) /\
  (forall a a' b b', (forall v, a v = a' v) -> (forall v, b v = b' v) -> forall w, divc a b w = divc a' b' w) /\
  (forall a a', (forall v, a v = a' v) -> forall w, lap a w = lap a' w).
Proof.
  cbv zeta.
  split; [apply Qc_is_canon; vm_compute; reflexivity|].
  split; [apply Qc_is_canon; vm_compute; reflexivity|].
  split; [apply Qc_is_canon; vm_compute; reflexivity|].
  split; [intro H; vm_compute in H; discriminate H|].
  split; [intro H; vm_compute in H; discriminate H|].
  repeat split; intros; cbn; try ring.
  - now rewrite H, H0.
  - now rewrite !H.
Qed.

(** The WHOLE-STATE executable model (Model/PrimEqFull.v: compute_diagnostic_state, explicit_terms,
    implicit_terms as compositions of the concrete transforms of Model/SHT.v / Model/Deriv.v).
    The operator hypotheses of [C12_modal_tendencies_covariant] are THEOREMS for the concrete
    operators (the second scale sees the same grid with radius kL * r and rotation kr * Omega),
    and hence the tendencies of the rescaled problem are the rescaled tendencies on every in-range
    coefficient of vorticity, divergence, temperature and log surface pressure.
    Change of scale of the state: vorticity/divergence * kr, temperature * kT, log surface pressure
    shifted in the (0,0) coefficient; constants through [scale_cfg]; g * ku kr; orography * kL. *)
From Dino Require Import Model.PrimEqFull Gen.DerivExprs Thm.PrimEqFull Thm.ScalingFull.

Section C12_whole_state.
  Context {F : Type} {o : Ops F} {Fc : FieldC o}.
  Variables (ku kr kT kg kR kL : F).
  Hypothesis H_rate : ku * kg = kr.
  Hypothesis H_accel : kR * kT * kg = ku * kr.
  Hypothesis H_len : kL * kg = 1.
  Variable g : @HGrid F.
  Hypothesis r_nz : hr g <> 0.
  Hypothesis lit_nz : forall l, (1 <= l < hL g)%nat -> lit l <> (0 : F) /\ lit l + 1 <> (0 : F).
  Notation g' := (rescale_grid kL kr g).

  (** operator laws of the concrete transforms: every field, every size, every index *)
  Theorem C12_concrete_operators_homogeneous :
    (forall x w, toN_c g' x w = toN_c g x w) /\
    (forall z w, toM_c g' z w = toM_c g z w) /\
    (forall x w, clip_c g' x w = clip_c g x w) /\
    (forall x y w, divc_c g' x y w = kg * divc_c g x y w) /\
    (forall x y w, curlc_c g' x y w = kg * curlc_c g x y w) /\
    (forall x w, lap_c g' x w = kg * kg * lap_c g x w) /\
    (forall k f w, toM_c g (fun p => k * f p) w = k * toM_c g f w) /\
    (forall k x y w, divc_c g (fun v => k * x v) (fun v => k * y v) w = k * divc_c g x y w) /\
    (forall k x y w, curlc_c g (fun v => k * x v) (fun v => k * y v) w = k * curlc_c g x y w) /\
    (forall k x w, lap_c g (fun v => k * x v) w = k * lap_c g x w) /\
    (forall x y w, lap_c g (fun v => x v + y v) w = lap_c g x w + lap_c g y w) /\
    (forall k x w, clip_c g (fun v => k * x v) w = k * clip_c g x w) /\
    (forall v w, lap_c g (onem00 v) w = 0) /\
    (forall x a l, Deriv.inverse_laplacian (hL g) (kL * hr g) x a l = kL * kL * Deriv.inverse_laplacian (hL g) (hr g) x a l) /\
    (forall x a l, fst (gradm g' x) a l = kg * fst (gradm g x) a l /\ snd (gradm g' x) a l = kg * snd (gradm g x) a l) /\
    (forall vo dv a l,
        fst (uvm g' (fun a l => kr * vo a l) (fun a l => kr * dv a l)) a l = ku * fst (uvm g vo dv) a l /\
        snd (uvm g' (fun a l => kr * vo a l) (fun a l => kr * dv a l)) a l = ku * snd (uvm g vo dv) a l).
  Proof.
    pose proof (concrete_operators_homogeneous kr kg kL H_len g r_nz) as OL.
    do 3 (split; [reflexivity|]).
    split; [exact (ml_divc' _ _ OL)|]. split; [exact (ml_curlc' _ _ OL)|]. split; [exact (ml_lap' _ _ OL)|].
    split; [exact (h1_scal _ (ml_toM _ _ OL))|]. split; [exact (h2_scal _ (ml_divc _ _ OL))|].
    split; [exact (h2_scal _ (ml_curlc _ _ OL))|]. split; [exact (h1_scal _ (ml_lap _ _ OL))|].
    split; [intros x y w; apply (Thm.PrimEq.lin_add (lap_c g) (lap_c_lin g))|].
    split; [exact (h1_scal _ (ml_clip _ _ OL))|]. split; [intros v w; apply lap_c_const|].
    split; [intros; eapply invlap_radius; eassumption|].
    split; [intros; eapply gradm_radius; eassumption|].
    intros; eapply uvm_covariant; eassumption.
  Qed.

  Hypothesis feqb_iff : forall a b : F, feqb a b = true <-> a = b.
  Hypothesis kT_nz : kT <> 0.
  Hypothesis kR_nz : kR <> 0.
  Variable c : @PEcfg F.
  Hypothesis R_nz : cR c <> 0.
  Variables (grav shift : F) (orog : nat -> nat -> F).
  Notation c' := (scale_cfg kT kR c).
  Notation Sst := (scale_state kr kT shift).

  Theorem C12_whole_state_tendencies_covariant (s : @State F) k a l :
    (k < cK c)%nat -> (a < hR g)%nat -> (l < hL g)%nat ->
    let E := explicit_terms_full g c grav orog s in
    let E' := explicit_terms_full g' c' (ku * kr * grav) (fun a l => kL * orog a l) (Sst s) in
    let G := implicit_terms_full g c s in
    let G' := implicit_terms_full g' c' (Sst s) in
    (s_vort E' k a l = kr * kr * s_vort E k a l /\ s_div E' k a l = kr * kr * s_div E k a l /\
     s_temp E' k a l = kT * kr * s_temp E k a l /\ s_lnps E' a l = kr * s_lnps E a l) /\
    (s_vort G' k a l = kr * kr * s_vort G k a l /\ s_div G' k a l = kr * kr * s_div G k a l /\
     s_temp G' k a l = kT * kr * s_temp G k a l /\ s_lnps G' a l = kr * s_lnps G a l).
  Proof using All. intros Hk Ha Hl. eapply whole_state_tendencies_covariant; eassumption. Qed.

  (** the explicit (forward) update u + dt (F u + G u) of the four dynamical fields.  The plugin checks the
      implicit solve and one IMEX step on the implementation under two scales (runner whole_state_scales). *)
  Theorem C12_whole_state_step_covariant_partial (tau : F) (s : @State F) dt k a l :
    tau * kr = 1 -> (k < cK c)%nat -> (a < hR g)%nat -> (l < hL g)%nat ->
    let u1 := forward_update (explicit_terms_full g c grav orog s) (implicit_terms_full g c s) s dt in
    let u1' := forward_update (explicit_terms_full g' c' (ku * kr * grav) (fun a l => kL * orog a l) (Sst s))
                              (implicit_terms_full g' c' (Sst s)) (Sst s) (tau * dt) in
    s_vort u1' k a l = s_vort (Sst u1) k a l /\ s_div u1' k a l = s_div (Sst u1) k a l /\
    s_temp u1' k a l = s_temp (Sst u1) k a l /\ s_lnps u1' a l = s_lnps (Sst u1) a l.
  Proof using All. intros Ht Hk Ha Hl. eapply whole_state_step_covariant_partial; eassumption. Qed.

  (** tracers (dimensionless, any number): the n-th tracer tendency of explicit_terms_full scales with kr
      (= 1/time); implicit_terms_full returns zero tracers under both scales *)
  Theorem C12_whole_state_tracers_covariant (s : @State F) n k a l :
    (n < length (s_tr s))%nat -> (k < cK c)%nat -> (a < hR g)%nat -> (l < hL g)%nat ->
    (nth n (s_tr (explicit_terms_full g' c' (ku * kr * grav) (fun a l => kL * orog a l) (Sst s))) zero3 k a l
     = kr * nth n (s_tr (explicit_terms_full g c grav orog s)) zero3 k a l) /\
    (s_tr (implicit_terms_full g' c' (Sst s)) = s_tr (implicit_terms_full g c s)) /\
    (forall t, In t (s_tr (implicit_terms_full g c s)) -> t = zero3).
  Proof. intros Hn Hk Ha Hl. eapply whole_state_tracers_covariant; eassumption. Qed.

  Variable tau : F.
  Hypothesis H_time : tau * kr = 1.
  Hypothesis th0_nz : thickness (cb c) 0%nat <> 0.
  Hypothesis thK_nz : thickness (cb c) (cK c - 1)%nat <> 0.

  (** implicit_inverse_full (method 'split') with the rescaled step: [invt l] = np.linalg.inv of the
      implicit matrix for total wavenumber l has to be a right inverse under the first and a left
      inverse under the second scale (the plugin checks two-sidedness under every scale) *)
  Theorem C12_whole_state_inverse_covariant (eta : F) (invt invt' : nat -> @Mat F) (y : @State F) k a l :
    is_left_inverse (2 * cK c + 1) (implicit_matrix c eta (Deriv.lap_eig (hL g) (hr g) l)) (invt l) ->
    is_left_inverse (2 * cK c + 1) (invt' l) (implicit_matrix c' (tau * eta) (Deriv.lap_eig (hL g') (hr g') l)) ->
    let Z := implicit_inverse_full g c eta invt y in
    let Z' := implicit_inverse_full g' c' (tau * eta) invt' (Sst y) in
    col_eq (cK c) (col_of Z' a l) (col_of (Sst Z) a l) /\ s_vort Z' k a l = s_vort (Sst Z) k a l.
  Proof. intros Hr Hl. eapply whole_state_inverse_covariant; eassumption. Qed.

  (** the model functions only read the index range (so "the state" is its in-range part) *)
  Theorem C12_whole_state_reads_range (g0 : @HGrid F) (c0 : @PEcfg F) grav0 orog0 eta invt0 (s1 s2 : @State F) k a l :
    agree (cK c0) (hR g0) (hL g0) s1 s2 -> (k < cK c0)%nat -> (a < hR g0)%nat -> (l < hL g0)%nat ->
    (s_vort (explicit_terms_full g0 c0 grav0 orog0 s1) k a l = s_vort (explicit_terms_full g0 c0 grav0 orog0 s2) k a l /\
     s_div (explicit_terms_full g0 c0 grav0 orog0 s1) k a l = s_div (explicit_terms_full g0 c0 grav0 orog0 s2) k a l /\
     s_temp (explicit_terms_full g0 c0 grav0 orog0 s1) k a l = s_temp (explicit_terms_full g0 c0 grav0 orog0 s2) k a l /\
     s_lnps (explicit_terms_full g0 c0 grav0 orog0 s1) a l = s_lnps (explicit_terms_full g0 c0 grav0 orog0 s2) a l) /\
    col_eq (cK c0) (col_of (implicit_terms_full g0 c0 s1) a l) (col_of (implicit_terms_full g0 c0 s2) a l) /\
    col_eq (cK c0) (col_of (implicit_inverse_full g0 c0 eta invt0 s1) a l) (col_of (implicit_inverse_full g0 c0 eta invt0 s2) a l).
  Proof.
    intros Hag Hk Ha Hl. split; [exact (explicit_terms_full_ext g0 c0 grav0 orog0 s1 s2 k a l Hag Hk Ha Hl)|].
    split; [now apply implicit_terms_full_ext | now apply implicit_inverse_full_ext].
  Qed.

  (** the in-range part of State as a vector space ([StOps]: operations return normal forms, so the
      vector-space laws are equalities); S = change of scale; the model functions composed with [norm] *)
  Variables invt invt' : F -> nat -> @Mat F.
  Notation SV := (StOps g c).
  Notation S := (Sc (vo := StOps g c) (Lst kr kT g c) (c0st g shift c)).
  Notation Fx0 := (FxS g c grav orog).
  Notation Fx1 := (FxS' ku kr kT kR kL g c grav orog).
  Notation G0 := (GS g c).
  Notation G1 := (GS' kr kT kR kL g c).
  Notation Gi0 := (GinvS g c invt).
  Notation Gi1 := (GinvS' kr kT kR kL g c invt').
  Notation ok := (okS kr kT kR kL g c tau invt invt').

  (** S is the rescaling of the property on the index range, and Fx0/G0/Gi0 are the model functions there *)
  Theorem C12_whole_state_space (u : @State F) eta k a l :
    (k < cK c)%nat -> (a < hR g)%nat -> (l < hL g)%nat ->
    agree (cK c) (hR g) (hL g) (S u) (Sst u) /\
    s_div (Fx0 u) k a l = s_div (explicit_terms_full g c grav orog u) k a l /\
    s_temp (G0 u) k a l = s_temp (implicit_terms_full g c u) k a l /\
    s_lnps (Gi0 u eta) a l = s_lnps (implicit_inverse_full g c eta (invt eta) u) a l.
  Proof.
    intros Hk Ha Hl. split; [eapply ScS_agrees|].
    unfold FxS, GS, GinvS, norm, mk4. cbn [s_div s_temp s_lnps]. unfold cl3, cl2.
    rewrite (inr3_true g c k a l Hk Ha Hl), (inr2_true g a l Ha Hl). repeat split.
  Qed.

  (** every integrator of time_integration.py (Model/Integrators.v) applied to the whole-state model:
      one step of the rescaled problem with time step tau * dt from the rescaled state = the rescaled step *)
  Theorem C12_whole_state_step_covariant dt alpha al be ga a_ex a_im b_ex b_im u p q :
    (ok dt -> euler_step (vo := SV) Fx1 Gi1 (tau * dt) (S u) = S (euler_step (vo := SV) Fx0 Gi0 dt u)) /\
    (ok (half * dt) -> cn_rk2_step (vo := SV) Fx1 G1 Gi1 (tau * dt) (S u) = S (cn_rk2_step (vo := SV) Fx0 G0 Gi0 dt u)) /\
    (ls_ok ok dt al -> ls_step (vo := SV) Fx1 G1 Gi1 (tau * dt) al be ga (S u) = S (ls_step (vo := SV) Fx0 G0 Gi0 dt al be ga u)) /\
    (imex_ok ok dt 1 a_im ->
       imex_step (vo := SV) Fx1 G1 Gi1 (tau * dt) a_ex a_im b_ex b_im (S u)
       = option_map S (imex_step (vo := SV) Fx0 G0 Gi0 dt a_ex a_im b_ex b_im u)) /\
    (ok (two * dt * alpha) ->
       leapfrog_step (vo := SV) Fx1 G1 Gi1 (tau * dt) alpha (S p, S q)
       = (S (fst (leapfrog_step (vo := SV) Fx0 G0 Gi0 dt alpha (p, q))),
          S (snd (leapfrog_step (vo := SV) Fx0 G0 Gi0 dt alpha (p, q))))).
  Proof using All. eapply whole_state_step_covariant; eassumption. Qed.

  Theorem C12_whole_state_trajectory_covariant (step step' : @State F -> @State F) (fl fl' : list (@State F -> @State F -> @State F)) :
    (forall u, step' (S u) = S (step u)) ->
    Forall2 (fun f' f => forall u w, f' (S u) (S w) = S (f u w)) fl' fl ->
    forall n u, Nat.iter n (step_with_filters step' fl') (S u) = S (Nat.iter n (step_with_filters step fl) u).
  Proof. exact (trajectory_covariant (vo := SV) (Lst kr kT g c) (c0st g shift c) step step' fl fl'). Qed.
End C12_whole_state.

(** Non-vacuity of the whole-state hypotheses over Qc: ku = 3, kg = 2, kr = 6, kL = 1/2, kT = 5,
    kR = 9/5, tau = 1/6; a grid with 3 total wavenumbers and radius 2 (tables irrelevant for the
    hypotheses); the characteristic condition for l = 1, 2; and the operator law for the Laplacian
    evaluated on a concrete coefficient (l = 2: eigenvalue -6/4 under the first, -6 under the second scale). *)
Example C12_whole_state_hyps_satisfiable :
  let q := fun z : Q => Q2Qc z in
  let ku := q 3 in let kg := q 2 in let kr := q 6 in let kL := q (1 # 2) in let kT := q 5 in let kR := q (9 # 5) in
  let tau := q (1 # 6) in
  let z2 := fun _ _ : nat => q 0 in
  let g := mkHG 2 3 4 3 (q 2) z2 (fun _ => z2) (fun _ => q 1) z2 z2 (fun _ => q 1) (fun _ => q 0) (q (1 # 10)) in
  ku * kg = kr /\ kR * kT * kg = ku * kr /\ kL * kg = 1 /\ tau * kr = 1 /\ kT <> 0 /\ kR <> 0 /\ hr g <> 0 /\
  (forall l, (1 <= l < hL g)%nat -> lit l <> (0 : Qc) /\ lit l + 1 <> (0 : Qc)) /\
  (forall a b : Qc, feqb a b = true <-> a = b) /\
  lapm g (fun _ _ => q 1) 0%nat 2%nat = q (- 3 # 2) /\
  lapm (rescale_grid kL kr g) (fun _ _ => q 1) 0%nat 2%nat = kg * kg * lapm g (fun _ _ => q 1) 0%nat 2%nat.
Proof.
  cbv zeta.
  split; [apply Qc_is_canon; vm_compute; reflexivity|].
  split; [apply Qc_is_canon; vm_compute; reflexivity|].
  split; [apply Qc_is_canon; vm_compute; reflexivity|].
  split; [apply Qc_is_canon; vm_compute; reflexivity|].
  split; [intro H; vm_compute in H; discriminate H|].
  split; [intro H; vm_compute in H; discriminate H|].
  split; [intro H; vm_compute in H; discriminate H|].
  split.
  { intros l Hl. cbn [hL] in Hl.
    destruct l as [|[|[|l]]]; try (exfalso; lia); split; intro H; vm_compute in H; discriminate H. }
  split.
  { intros a b. split.
    - intros H. apply Qc_is_canon. now apply Qeq_bool_eq.
    - intros ->. apply Qeq_bool_iff. reflexivity. }
  split; apply Qc_is_canon; vm_compute; reflexivity.
Qed.

(** Non-vacuity of the hypotheses of the implicit solve over Qc: one layer, two total wavenumbers on the unit sphere,
    kr = 1/3, kT = 5, kR = 1/180, kg = 2, kL = 1/2, ku = 1/6, tau = 3; [invt] = the adjugate inverse of the
    3 x 3 implicit matrix: [okS (1/2)] holds (right inverse under the first, left inverse under the second
    scale, both wavenumbers) and the layer thickness is non-zero. *)
Example C12_whole_state_inverse_hyps_satisfiable :
  let q := fun z : Q => Q2Qc z in
  let c := mkPE 1 (q 287) (q (2 # 7)) (fun _ => q (- 7 # 10)) (fun k => match k with O => q 0 | _ => q 1 end) (fun _ => q 250) in
  let ku := q (1 # 6) in let kr := q (1 # 3) in let kT := q 5 in let kR := q (1 # 180) in let kg := q 2 in let kL := q (1 # 2) in
  let tau := q 3 in
  let z2 := fun _ _ : nat => q 0 in
  let g := mkHG 1 2 2 2 (q 1) z2 (fun _ => z2) (fun _ => q 1) z2 z2 (fun _ => q 1) (fun _ => q 0) (q (1 # 10)) in
  let invt := fun (eta : Qc) (l : nat) => inv3 (implicit_matrix c eta (Deriv.lap_eig 2 (q 1) l)) in
  let invt' := fun (eta : Qc) (l : nat) => inv3 (implicit_matrix (scale_cfg kT kR c) eta (Deriv.lap_eig 2 (kL * q 1) l)) in
  ku * kg = kr /\ kR * kT * kg = ku * kr /\ kL * kg = 1 /\ tau * kr = 1 /\
  thickness (cb c) 0%nat <> 0 /\ thickness (cb c) (cK c - 1)%nat <> 0 /\
  okS kr kT kR kL g c tau invt invt' (q (1 # 2)).
Proof.
  cbv zeta.
  split; [apply Qc_is_canon; vm_compute; reflexivity|].
  split; [apply Qc_is_canon; vm_compute; reflexivity|].
  split; [apply Qc_is_canon; vm_compute; reflexivity|].
  split; [apply Qc_is_canon; vm_compute; reflexivity|].
  split; [intro H; vm_compute in H; discriminate H|].
  split; [intro H; vm_compute in H; discriminate H|].
  intros l Hl. cbn [hL] in Hl.
  destruct l as [|[|l]]; try (exfalso; lia);
    (split; intros i j Hi Hj;
     destruct i as [|[|[|i]]]; try (exfalso; cbn in Hi; lia);
     destruct j as [|[|[|j]]]; try (exfalso; cbn in Hj; lia);
     apply Qc_is_canon; vm_compute; reflexivity).
Qed.

(** Tie to the source by translation: the nodal column algebra of Model/PrimEq.v that this property reasons about
    is the code of dinosaur/primitive_equations.py (transcribed from the AST on every run by tools/translate/gen_primeq.py). *)
From Dino Require Import Model.Filters Model.PrimEq Model.Implicit Gen.PrimEqSrc Thm.PrimEqSrc.
Theorem C12_model_is_source {F : Type} {o : Ops F} {Fc : FieldC o} (c : @PEcfg F) (m : @Moist F)
    (inc_va : bool) (x : @NCol F) (Tf g vg s q qc qi rt : nat -> F) (k : nat) :
  u_dot_grad x k = u_dot_grad_src x k /\
  t_omega_over_sigma_sp c Tf g vg k = t_omega_over_sigma_sp_src c Tf g vg k /\
  combined_u c inc_va x (rt_dry c x) k = combined_u_src c inc_va x k /\
  combined_v c inc_va x (rt_dry c x) k = combined_v_src c inc_va x k /\
  kinetic x k = kinetic_src x k /\
  temp_vertical_tendency c inc_va x k = temp_vertical_tendency_src c inc_va x k /\
  hsa_nodal x s k = hsa_nodal_src x s k /\
  hsa_mu x s k = hsa_u_src x s k * n_sec2 x /\
  hsa_mv x s k = hsa_v_src x s k * n_sec2 x /\
  temp_adiabatic c x k = temp_adiabatic_src c x k /\
  log_pressure_tendency c x = log_pressure_tendency_src c x /\
  moisture_contribution c m q k = moisture_contribution_src c m q k /\
  rt_moist c m x q k = rt_moist_src c x (moisture_contribution c m q) k /\
  rt_cloud c m x q qc qi k = rt_cloud_src c x (moisture_contribution c m q) qc qi k /\
  combined_u c inc_va x rt k = combined_u_moist_src c inc_va x q rt k /\
  combined_v c inc_va x rt k = combined_v_moist_src c inc_va x q rt k /\
  temp_adiabatic_moist c m x q k = temp_adiabatic_moist_src c m x q k.
Proof. exact (primeq_model_is_source c m inc_va x Tf g vg s q qc qi rt k). Qed.

Print Assumptions C12_factor_homomorphism.
Print Assumptions C12_welldim_homogeneous.
Print Assumptions C12_scale_independence.
Print Assumptions C12_columns_homogeneous.
Print Assumptions C12_nodal_terms_homogeneous.
Print Assumptions C12_moist_and_vertical_terms_homogeneous.
Print Assumptions C12_step_covariant.
Print Assumptions C12_trajectory_covariant.
Print Assumptions C12_column_relations.
Print Assumptions C12_column_hypotheses_discharged.
Print Assumptions C12_column_steps_covariant.
Print Assumptions C12_modal_tendencies_covariant.
Print Assumptions C12_held_suarez_homogeneous.
Print Assumptions C12_held_suarez_nondim_commutes.
Print Assumptions C12_held_suarez_R.
Print Assumptions C12_log_pressure_shift.
Print Assumptions C12_p_over_p0_invariant.
Print Assumptions C12_p_over_p0_invariant_R.
Print Assumptions C12_hyps_satisfiable.
Print Assumptions C12_column_hyps_satisfiable.
Print Assumptions C12_held_suarez_hyps_satisfiable.
Print Assumptions C12_modal_hyps_satisfiable.
Print Assumptions C12_concrete_operators_homogeneous.
Print Assumptions C12_whole_state_tendencies_covariant.
Print Assumptions C12_whole_state_step_covariant_partial.
Print Assumptions C12_whole_state_hyps_satisfiable.
Print Assumptions C12_whole_state_inverse_covariant.
Print Assumptions C12_whole_state_reads_range.
Print Assumptions C12_whole_state_space.
Print Assumptions C12_whole_state_step_covariant.
Print Assumptions C12_whole_state_trajectory_covariant.
Print Assumptions C12_whole_state_inverse_hyps_satisfiable.
Print Assumptions C12_whole_state_tracers_covariant.
Print Assumptions C12_model_is_source.
