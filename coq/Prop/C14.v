(** Property C14 - stepping and scan combinators equal their sequential
    definition for every split.  The proofs are in Thm/Combinators.v and
    Thm/CombinatorsSrc.v; the non-vacuity instance is evaluated here.
    Carry / input / output types, step functions, step
    counts, factorisations, filter lists and weight lists are all universally
    quantified; the accumulation / DFI clauses hold over every field. *)
From Dino Require Import Base.Ops Base.Sums Base.Inst Model.Combinators Thm.Combinators.
From Dino Require Import Model.Filters Model.Invariants Gen.CombinatorsSrc Thm.CombinatorsSrc.
From Coq Require Import Qcanon.
Local Open Scope F_scope.

Section C14_generic.
  Context {St Y C X : Type}.

  (** [scan] (the model of lax.scan) is the sequential loop: the final carry is
      the left fold of the carry update, output k comes from the carry after k
      steps and input k, and there is one output per input. *)
  Theorem C14_scan_sequential (f : C -> X -> C * Y) init xs :
    fst (scan f init xs) = fold_left (fun c x => fst (f c x)) xs init /\
    length (snd (scan f init xs)) = length xs /\
    forall k dx dy, (k < length xs)%nat ->
      nth k (snd (scan f init xs)) dy
      = snd (f (fold_left (fun c x => fst (f c x)) (firstn k xs) init) (nth k xs dx)).
  Proof.
    split; [apply scan_carry_fold|split; [apply scan_length|]].
    intros k dx dy Hk. now apply scan_nth.
  Qed.

  (** repeating a step n times is n applications (n = 0: identity, n = 1: the shortcut) *)
  Theorem C14_repeated_iter (f : St -> St) n x : repeated f n x = Nat.iter n f x.
  Proof. exact (repeated_iter f n x). Qed.

  (** filters are applied in list order, each seeing the input state u *)
  Theorem C14_filters_in_order (f : St -> St) phis phi u :
    step_with_filters f [] u = f u /\
    step_with_filters f (phis ++ [phi]) u = phi u (step_with_filters f phis u) /\
    step_with_filters f phis u = fold_right (fun p acc => p u acc) (f u) (rev phis).
  Proof.
    split; [reflexivity|split; [apply filters_snoc|apply filters_in_order]].
  Qed.

  (** frames and final state of a trajectory, every (outer, inner, start_with_input) *)
  Theorem C14_trajectory_frames (f : St -> St) outer inner (swi : bool) (post : St -> Y) x :
    let r := trajectory_from_step f outer inner swi post x in
    fst r = Nat.iter (outer * inner) f x /\
    length (snd r) = outer /\
    forall k d, (k < outer)%nat ->
      nth k (snd r) d = post (Nat.iter ((if swi then k else S k) * inner) f x).
  Proof. exact (trajectory_frames f outer inner swi post x). Qed.

  (** nested scan = flat scan (carry and stacked outputs) for every accepted
      factorisation; equality as functions of (init, xs), hence also of every
      quantity derived from them (gradients). *)
  Theorem C14_nested_scan_eq_scan (f : C -> X -> C * Y) init (xs : list X) length lengths :
    nested_accepts length (Some (List.length xs)) lengths = true ->
    nested_checkpoint_scan f init (inr xs) length lengths = Some (scan f init xs).
  Proof. exact (nested_scan_eq_scan f init xs length lengths). Qed.

  Theorem C14_nested_scan_eq_scan_noxs (f : C -> X -> C * Y) init (xnone : X) length lengths :
    nested_accepts length None lengths = true ->
    nested_checkpoint_scan f init (inl xnone) length lengths
    = Some (scan f init (repeat xnone (lprod lengths))).
  Proof. exact (nested_scan_accepted f init (inl xnone) length lengths). Qed.

  (** accepted iff non-empty factorisation whose product matches [length] and
      the leading size of [xs] (and no empty non-final level) *)
  Theorem C14_nested_accepts_spec length xs_len lengths :
    nested_accepts length xs_len lengths = true <->
    (lengths <> [] /\ (forall k, length = Some k -> k = lprod lengths) /\
     (forall k, xs_len = Some k -> k = lprod lengths) /\
     Forall (fun l => l <> 0%nat) (removelast lengths)).
  Proof. exact (nested_accepts_spec length xs_len lengths). Qed.

  Theorem C14_nested_scan_rejects (f : C -> X -> C * Y) init (xs : list X) length lengths :
    List.length xs <> lprod lengths \/ (exists k, length = Some k /\ k <> lprod lengths) \/ lengths = [] ->
    nested_checkpoint_scan f init (inr xs) length lengths = None.
  Proof. exact (nested_scan_rejects f init xs length lengths). Qed.
End C14_generic.

Section C14_field.
  Context {F : Type} {o : Ops F} {Fc : FieldC o}.
  Local Notation V := (@Combinators.V F).
  Local Notation ImEx := (@Combinators.ImEx F).

  (** accumulate_repeated = sum_k w_k * step^(k+1)(x) (shape-preserving step) *)
  Theorem C14_accumulate_is_sum (step : V -> V) ws (x : V) :
    (forall k, length (Nat.iter k step x) = length x) ->
    length (accumulate_repeated step ws x) = length x /\
    forall i, (i < length x)%nat ->
      nth i (accumulate_repeated step ws x) 0
      = sumn (length ws) (fun k => nth k ws 0 * nth i (Nat.iter (S k) step x) 0).
  Proof. exact (accumulate_is_sum step ws x). Qed.

  Theorem C14_dfi_formula solver (eq : ImEx) filters ws dt (x : V) :
    let fwd := step_with_filters (solver eq dt) filters in
    let bwd := step_with_filters (solver (time_reversed eq) dt) filters in
    let T := 1 + two * vsum ws in
    (forall k, length (Nat.iter k fwd x) = length x) ->
    (forall k, length (Nat.iter k bwd x) = length x) ->
    length (dfi solver eq filters ws dt x) = length x /\
    forall i, (i < length x)%nat ->
      nth i (dfi solver eq filters ws dt x) 0
      = 0 + nth i x 0 * (1 / T)
        + sumn (length ws) (fun k => nth k ws 0 / T * nth i (Nat.iter (S k) fwd x) 0)
        + sumn (length ws) (fun k => nth k ws 0 / T * nth i (Nat.iter (S k) bwd x) 0).
  Proof. exact (dfi_formula solver eq filters ws dt x). Qed.

  (** a steady state is returned unchanged (needs only total weight <> 0) *)
  Theorem C14_dfi_fixed_point solver (eq : ImEx) filters ws dt (x : V) :
    1 + two * vsum ws <> 0 ->
    step_with_filters (solver eq dt) filters x = x ->
    step_with_filters (solver (time_reversed eq) dt) filters x = x ->
    dfi solver eq filters ws dt x = x.
  Proof. exact (dfi_fixed_point solver eq filters ws dt x). Qed.

  (** reversing time twice is the identity on all three methods; a
      backward-forward Euler step of the reversed equation is a step with -dt *)
  Theorem C14_time_reversed (e : ImEx) s h dt :
    (explicit_terms (time_reversed (time_reversed e)) s = explicit_terms e s /\
     implicit_terms (time_reversed (time_reversed e)) s = implicit_terms e s /\
     implicit_inverse (time_reversed (time_reversed e)) s h = implicit_inverse e s h) /\
    backward_forward_euler (time_reversed e) dt s = backward_forward_euler e (- dt) s.
  Proof.
    split; [exact (time_reversed_involutive e s h)|exact (bfe_reversed_is_negative_dt e dt s)].
  Qed.
End C14_field.

(** Non-vacuity over Qc: a factorisation that is accepted (with the equality
    replayed by computation), and a DFI instance meeting all hypotheses of the
    fixed-point theorem with a non-trivial steady state and weights. *)
Lemma Qc_list_eq (l l' : list Qc) : map this l = map this l' -> l = l'.
Proof.
  revert l'. induction l as [|a l IH]; intros [|b l']; cbn; try discriminate; auto.
  intros [= H1 H2]. f_equal; auto. apply Qc_is_canon. now rewrite H1.
Qed.

Example C14_hyps_satisfiable :
  let q := fun z : Z => Q2Qc (inject_Z z) in
  let f := fun (c x : Qc) => (q 2%Z * c + x, c - x) in
  let xs := map q [1; 2; 3; 4; 5; 6; 7; 8; 9; 10; 11; 12]%Z in
  let eq := linear_imex [[q 0%Z; q 1%Z]; [q 0%Z; q 0%Z]] [q 0%Z; q 1%Z] in
  let ws := [Q2Qc (1#2); Q2Qc (1#4)] in
  let x := [q 3%Z; q 0%Z] in
  (nested_accepts (Some 12%nat) (Some (length xs)) [2; 3; 2]%nat = true /\
   nested_checkpoint_scan f (q 1%Z) (inr xs) (Some 12%nat) [2; 3; 2]%nat = Some (scan f (q 1%Z) xs) /\
   fst (scan f (q 1%Z) xs) = q 12274%Z) /\
  (1 + two * vsum ws <> 0 /\
   step_with_filters (backward_forward_euler eq (Q2Qc (1#2))) [] x = x /\
   step_with_filters (backward_forward_euler (time_reversed eq) (Q2Qc (1#2))) [] x = x /\
   dfi backward_forward_euler eq [] ws (Q2Qc (1#2)) x = x).
Proof.
  cbv zeta. split; [split; [|split]|split; [|split; [|split]]].
  - vm_compute. reflexivity.
  - vm_compute. reflexivity.
  - vm_compute. reflexivity.
  - intro H. vm_compute in H. discriminate H.
  - apply Qc_list_eq. vm_compute. reflexivity.
  - apply Qc_list_eq. vm_compute. reflexivity.
  - apply Qc_list_eq. vm_compute. reflexivity.
Qed.

(** ** Tie to the source by translation (regenerated on every run): the arithmetic of
    accumulate_repeated, _dfi_lanczos_weights and digital_filter_initialization in
    Model/Combinators.v IS the code of dinosaur/time_integration.py ([*_src] transcribed from the
    AST by tools/translate/gen_combinators.py; the bodies of step_with_filters and repeated, the scan
    call and the construction of the forward / backward steps are checked as text). *)
Theorem C14_model_is_source {F : Type} {o : Ops F} {Fc : FieldC o}
    (step_fn : V -> V) (ode_solver : ImEx -> F -> V -> V) (equation : ImEx) (filters : list (V -> V -> V))
    (weights : list F) (dt : F) (state : V) (a b c n nn time_span cutoff_period : F) :
  accumulate_repeated step_fn weights state =
    snd (fst (scan (fun (carry : V * V) weight =>
                      let state' := step_fn (fst carry) in
                      ((state', map2 (fun s a => acc_update_src a weight s) state' (snd carry)), tt))
                   (state, zeros_like state) weights)) /\
  dfi ode_solver equation filters weights dt state =
    (let forward_step := step_with_filters (ode_solver equation dt) filters in
     let backward_step := step_with_filters (ode_solver (time_reversed equation) dt) filters in
     let total_weight := dfi_total_weight_src (vsum weights) in
     let init_weight := dfi_init_weight_src / total_weight in
     let weights' := map (fun w => w / total_weight) weights in
     let init_term := map (fun x => dfi_init_term_src x init_weight) state in
     let forward_term := accumulate_repeated forward_step weights' state in
     let backward_term := accumulate_repeated backward_step weights' state in
     map2 (fun ab c => ab + c) (map2 (fun a b => 0 + a + b) init_term forward_term) backward_term) /\
  (0 + a + b) + c = dfi_sum3_src a b c /\
  dfi_round_arg_src time_span dt = time_span / (Combinators.two * dt) /\
  dfi_sinc1_arg_src n nn = n / (nn + 1) /\
  dfi_sinc2_arg_src n nn time_span cutoff_period = n * time_span / (cutoff_period * nn) /\
  gen_combinators_ok = true.
Proof.
  split; [apply acc_update_matches_source|].
  split; [apply dfi_matches_source|].
  split; [apply dfi_sum3_matches_source|].
  destruct (lanczos_args_match_documentation n nn time_span cutoff_period dt) as (L1 & L2 & L3).
  exact (conj L1 (conj L2 (conj L3 gen_combinators_complete))).
Qed.

Print Assumptions C14_scan_sequential.
Print Assumptions C14_repeated_iter.
Print Assumptions C14_filters_in_order.
Print Assumptions C14_trajectory_frames.
Print Assumptions C14_nested_scan_eq_scan.
Print Assumptions C14_nested_scan_eq_scan_noxs.
Print Assumptions C14_nested_accepts_spec.
Print Assumptions C14_nested_scan_rejects.
Print Assumptions C14_accumulate_is_sum.
Print Assumptions C14_dfi_formula.
Print Assumptions C14_dfi_fixed_point.
Print Assumptions C14_time_reversed.
Print Assumptions C14_hyps_satisfiable.
Print Assumptions C14_model_is_source.
