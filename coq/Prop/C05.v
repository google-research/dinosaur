(** Property C05 - tendencies match the continuous equations; balanced states are steady.
    The proofs are in Thm/PrimEqSpec.v (which builds on Thm/PrimEq.v of C04 and Thm/Sigma.v of C13) and, for the
    executed models, Thm/SteadyFull.v; here are the statements and the instances that show their hypotheses
    satisfiable.  Every theorem is for an arbitrary field [F] (hence the reals),
    an arbitrary number of layers and arbitrary levels.

    Three groups:
    (A) [C05_rest], model level (Model/PrimEq.v, abstract LINEAR horizontal transforms): a resting isothermal
        atmosphere in hydrostatic balance over any orography has zero total tendency;
    (B) [C05_column], column level: the nodal column algebra of the code, explicit + implicit, equals the vertical
        discretisation of the pointwise specification Model/PrimEqSpec.v, grouping stated per theorem;
    (C) [C05_spec], specification level (abstract commutative differential ring): flux form = advective form, the operators as
        coded are div/curl, zonal balanced states (gradient wind / geostrophic) have zero specification
        tendency; the formulas of shallow_water_states.one_layer / multi_layer are balanced.

    NOT proved here (decided by exploration, Oracle A of tools/props/C05.py): that analysis of the
    pointwise specification equals the modal tendency of the model for the vorticity/divergence equations
    (the exactness of products under the transforms); for the temperature equation that statement is
    C04_temperature_modal_invariance's closed form composed with [C05_primeq_column_refines_spec].

    Group (C) is stated over an ABSTRACT COMMUTATIVE DIFFERENTIAL RING [A] of smooth nodal fields (ring laws,
    two commuting additive derivations with the Leibniz rule, mu with cos(lat) d mu/dlat = 1 - mu^2,
    units a, 2, 1 - mu^2).  Non-vacuity: [C05_differential_ring_instance] exhibits every hypothesis in the
    ring of formal power series in mu over Qc with the non-zero derivation (1 - mu^2) d/dmu, and
    [C05_solid_body_steady_series] / [C05_sw_solid_body_series] instantiate the balance theorems there. *)
From Dino Require Import Base.Ops Base.Sums Base.Inst Base.Ord Model.Sigma Thm.Sigma Model.Implicit Model.PrimEq Thm.PrimEq
     Model.PrimEqSpec Thm.PrimEqSpec.
From Dino Require Import Model.Filters Gen.PrimEqSrc Thm.PrimEqSrc.
From Coq Require Import Reals Qcanon.
Local Open Scope F_scope.

Section C05_rest.
  Context {F : Type} {o : Ops F} {Fc : FieldC o}.
  Variables W P : Type.
  Variable toM : (P -> F) -> W -> F.
  Variable divc curlc : (W -> F) -> (W -> F) -> W -> F.
  Variable lap clip : (W -> F) -> W -> F.
  Hypothesis toM_lin : Thm.PrimEq.linear toM.
  Hypothesis divc_lin : Thm.PrimEq.linear2 divc.
  Hypothesis curlc_lin : Thm.PrimEq.linear2 curlc.
  Hypothesis lap_lin : Thm.PrimEq.linear lap.
  Hypothesis clip_lin : Thm.PrimEq.linear clip.

  (** For every K, levels, R, kappa, T0 with R T0 <> 0, gravity, any orography [orog], any constant
      [cst], any nodal gradient of ln ps, Coriolis parameter and sec^2 table: with no wind, no divergence,
      T' = 0, T_ref = T0 on all levels and the MODAL relation lnps = cst*one - g/(R T0) orog:
      temperature, vorticity and surface-pressure tendencies (explicit + implicit) vanish and the
      divergence tendency is exactly g (lap orog - clip (lap orog)): zero iff the orography has no
      content in the clipped top total wavenumber.  No exactness hypothesis on the transforms. *)
  Theorem C05_rest_isothermal_steady (c : @PEcfg F) (grav T0 cst : F) (X : P -> @NCol F) (dv Tm : nat -> W -> F)
          (lnps onem orog : W -> F) :
    cR c * T0 <> 0 -> (forall k, cTref c k = T0) ->
    (forall p k, n_u (X p) k = 0) -> (forall p k, n_v (X p) k = 0) ->
    (forall p k, n_div (X p) k = 0) -> (forall p k, n_temp (X p) k = 0) ->
    (forall k w, dv k w = 0) -> (forall k w, Tm k w = 0) ->
    (forall w, lnps w = cst * onem w - grav / (cR c * T0) * orog w) ->
    (forall w, lap onem w = 0) ->
    forall r w,
      temp_tendency_explicit W P toM divc clip c X r w + temp_tendency_implicit W c dv r w = 0 /\
      vort_tendency_explicit W P toM curlc clip c X (fun p => rt_dry c (X p)) (fun _ => 0) r w = 0 /\
      clip (toM (fun p => log_pressure_tendency c (X p))) w + lnps_implicit_col c (fun s => dv s w) = 0 /\
      div_tendency_explicit W P toM divc lap clip c grav X (fun p => rt_dry c (X p)) orog (fun _ => 0) r w
      + div_tendency_implicit W lap c Tm lnps r w = grav * (lap orog w - clip (lap orog) w) /\
      (clip (lap orog) w = lap orog w ->
       div_tendency_explicit W P toM divc lap clip c grav X (fun p => rt_dry c (X p)) orog (fun _ => 0) r w
       + div_tendency_implicit W lap c Tm lnps r w = 0).
  Proof.
    intros H1 H2 H3 H4 H5 H6 H7 H8 H9 H10 r w.
    split; [apply rest_temperature_steady; assumption|].
    split; [apply rest_vorticity_steady; assumption|].
    split; [apply rest_lnps_steady; assumption|].
    (* the residual, and from it the last conjunct *)
    refine ((fun Rd => conj Rd (residual_vanishes _ _ _ _ Rd)) _).
    apply rest_divergence_residual with (cst := cst) (onem := onem) (T0 := T0); try assumption; auto.
  Qed.

  (** the same for the moist classes (MoistPrimitiveEquations): uniform specific humidity q0 (nodal gradient of q = 0),
      lnps = cst*one - g/(R T0 (1 + eps q0)) orog with eps = Rv/R - 1.  Additional hypotheses: the analysed constant
      field has no laplacian ([lap (toM 1) = 0]) and laplacian(lnps) survives to_nodal -> to_modal under the clip.
      Divergence residual: g/(1 + eps q0) (lap orog - clip(lap orog)). *)
  Theorem C05_rest_isothermal_steady_moist (c : @PEcfg F) (grav T0 cst : F) (X : P -> @NCol F) (dv Tm : nat -> W -> F)
          (onem orog lnpsm : W -> F) (m : @Moist F) (q0 : F) (q gqx gqy : P -> nat -> F) (lapn : P -> F) :
    cR c * T0 <> 0 -> (forall k, cTref c k = T0) ->
    (forall p k, n_u (X p) k = 0) -> (forall p k, n_v (X p) k = 0) ->
    (forall p k, n_div (X p) k = 0) -> (forall p k, n_temp (X p) k = 0) ->
    (forall k w, dv k w = 0) -> (forall k w, Tm k w = 0) ->
    (forall w, lap onem w = 0) ->
    (forall p k, q p k = q0) -> (forall p k, gqx p k = 0) -> (forall p k, gqy p k = 0) ->
    cR c <> 0 -> 1 + (mRv m / cR c - 1) * q0 <> 0 ->
    (forall w, lnpsm w = cst * onem w - grav / (cR c * T0 * (1 + (mRv m / cR c - 1) * q0)) * orog w) ->
    (forall w, lap (toM (fun _ => 1)) w = 0) ->
    (forall w, clip (toM lapn) w = clip (lap lnpsm) w) ->
    forall r w,
      temp_tendency_explicit_moist W P toM divc clip c m X q r w + temp_tendency_implicit W c dv r w = 0 /\
      vort_tendency_explicit W P toM curlc clip c X (fun p => rt_moist c m (X p) (q p))
                             (fun w' => humidity_curl_modal W P toM c m X gqx gqy r w') r w = 0 /\
      clip (toM (fun p => log_pressure_tendency c (X p))) w + lnps_implicit_col c (fun s => dv s w) = 0 /\
      div_tendency_explicit W P toM divc lap clip c grav X (fun p => rt_moist c m (X p) (q p)) orog
                            (fun w' => humidity_div_modal W P toM lap c m X q gqx gqy lapn r w') r w
      + div_tendency_implicit W lap c Tm lnpsm r w
      = grav / (1 + (mRv m / cR c - 1) * q0) * (lap orog w - clip (lap orog) w) /\
      (clip (lap orog) w = lap orog w ->
       div_tendency_explicit W P toM divc lap clip c grav X (fun p => rt_moist c m (X p) (q p)) orog
                             (fun w' => humidity_div_modal W P toM lap c m X q gqx gqy lapn r w') r w
       + div_tendency_implicit W lap c Tm lnpsm r w = 0).
  Proof.
    intros H1 H2 H3 H4 H5 H6 H7 H8 H10 Hq Hgx Hgy HR Hmf Hhyd Hone Hlapn r w.
    split; [apply rest_temperature_steady_moist; assumption|].
    split; [apply rest_vorticity_steady_moist; auto|].
    split; [apply rest_lnps_steady; assumption|].
    refine ((fun Rd => conj Rd (residual_vanishes _ _ _ _ Rd)) _).
    apply rest_divergence_residual_moist with (cst := cst) (onem := onem) (T0 := T0); try assumption; auto.
  Qed.
End C05_rest.

Section C05_column.
  Context {F : Type} {o : Ops F} {Fc : FieldC o}.
  Hypothesis two_nz : two <> 0.
  Hypothesis feqb_sound : forall x y : F, feqb x y = true -> x = y.
  Variable c : @PEcfg F.
  Hypothesis th2_nz : forall k, (S k < cK c)%nat -> thickness (cb c) k + thickness (cb c) (S k) <> 0.
  Hypothesis b_top : cb c 0%nat = 0.

  (** grouping: [explicit vertical advection of T' and of T_ref + explicit kappa (T_ref, T') omega/p
      parts + implicit -H.div] = - sigma_dot dT/dsigma + kappa T omega/p of the spec;
      [explicit -sum(u.grad lnps dsigma) + implicit -sum(div dsigma)] = - sum (div + u.grad lnps) dsigma;
      sigma_dot_full = sigma_{r+1/2} sum_all - sum_{k<=r} of (div + u.grad lnps) dsigma. *)
  Theorem C05_primeq_column_refines_spec (Tref T : nat -> F) (x : NCol) n :
    (n < cK c)%nat ->
    let ci := with_tref c Tref in
    let xi := with_temp x (fun k => T k - Tref k) in
    temp_vertical_tendency ci true xi n + temp_adiabatic ci xi n + temp_implicit_col ci (n_div x) n
    = spec_vadv c (spec_sigma_dot c (gcol x)) T n + ckappa c * (T n * spec_omega_p c (gcol x) (u_dot_grad x) n)
    /\ log_pressure_tendency c x + lnps_implicit_col c (n_div x) = - sumn (cK c) (fun k => gcol x k * thickness (cb c) k)
    /\ sigma_dot_full c x n = spec_sigma_dot c (gcol x) n
    /\ u_dot_grad x n = n_sec2 x * (n_u x n * n_gx x + n_v x n * n_gy x).
  Proof.
    intros Hn ci xi. split; [apply refines_temperature; assumption|].
    split; [apply refines_lnps|]. split; [apply refines_sigma_dot; assumption|].
    apply u_dot_grad_is_spec.
  Qed.

  Theorem C05_primeq_column_refines_spec_moist (m : Moist) (Tref T q : nat -> F) (x : NCol) n :
    (n < cK c)%nat ->
    1 + (mCpv m / (cR c / ckappa c) - 1) * q n <> 0 ->
    let ci := with_tref c Tref in
    let xi := with_temp x (fun k => T k - Tref k) in
    temp_vertical_tendency ci true xi n + temp_adiabatic_moist ci m xi q n + temp_implicit_col ci (n_div x) n
    = spec_vadv c (spec_sigma_dot c (gcol x)) T n
      + ckappa c * (T n * ((1 + (mRv m / cR c - 1) * q n) / (1 + (mCpv m / (cR c / ckappa c) - 1) * q n))
                    * spec_omega_p c (gcol x) (u_dot_grad x) n).
  Proof. intros; apply refines_temperature_moist; assumption. Qed.

  (** the vector differentiated by the vorticity/divergence equations (explicit nodal vector + implicit
      R T_ref grad lnps + explicit humidity corrections) is sec^2 cos(lat) times
      (zeta+f) k x v + sigma_dot dv/dsigma + R Tv grad ln ps  of the spec *)
  Theorem C05_primeq_column_refines_momentum (m : Moist) (Tref T q : nat -> F) (x : NCol) k :
    (k < cK c)%nat -> cR c <> 0 ->
    let ci := with_tref c Tref in
    let xi := with_temp x (fun j => T j - Tref j) in
    effective_pgf_u ci true m xi (rt_moist ci m xi q) q k
    = n_sec2 x * (- n_v x k * (n_vort x k + n_f x) - spec_vadv c (spec_sigma_dot c (gcol x)) (n_u x) k
                  + cR c * (T k * (1 + (mRv m / cR c - 1) * q k)) * n_gx x) /\
    effective_pgf_v ci true m xi (rt_moist ci m xi q) q k
    = n_sec2 x * (n_u x k * (n_vort x k + n_f x) - spec_vadv c (spec_sigma_dot c (gcol x)) (n_v x) k
                  + cR c * (T k * (1 + (mRv m / cR c - 1) * q k)) * n_gy x).
  Proof. intros; apply refines_momentum; assumption. Qed.

  (** the public option [vertical_advection = upwind_vertical_advection]: the code's operator (Model/Sigma.v, tied to the
      implementation by C13) is the specification's first-order upwind difference; it vanishes on level-independent
      profiles and in the interior is  -(max(w_{n-1/2},0) dX_{n-1/2} + min(w_{n+1/2},0) dX_{n+1/2}) *)
  Theorem C05_upwind_is_spec (w x : nat -> F) n :
    upwind_vertical_advection (cK c) (cb c) w x n = spec_vadv_upwind c w x n /\
    ((forall k, x k = x 0%nat) -> spec_vadv_upwind c w x n = 0) /\
    ((0 < n)%nat -> (S n < cK c)%nat ->
     spec_vadv_upwind c w x n = - (fmax (w (n - 1)%nat) 0 * spec_ddsigma c x (n - 1) + fmin (w n) 0 * spec_ddsigma c x n)).
  Proof.
    split; [apply upwind_is_spec|]. split; [apply upwind_constant|apply upwind_one_sided].
  Qed.
End C05_column.

(** * (B') modal layer: the model's divergence / vorticity tendencies are the clipped modal operators applied
    to the analysed specification quantities.  Exactness hypotheses used: [H_div_grad], [H_curl_grad], [lap_const]
    (and [H_leibniz], [H_leibniz_curl] for the moist classes) - the table obligations checked by C04/C02 - plus b_0 = 0.
    NOT assumed and NOT proved: that to_modal of a nodal product is the exact spectral projection of the product of the
    continuous fields (alias-freeness); that last link to the continuous equations is Oracle A of the plugin. *)
Section C05_modal.
  Context {F : Type} {o : Ops F} {Fc : FieldC o}.
  Variables W P : Type.
  Variable toM : (P -> F) -> W -> F.
  Variable divc curlc : (W -> F) -> (W -> F) -> W -> F.
  Variable lap clip : (W -> F) -> W -> F.
  Hypothesis toM_lin : Thm.PrimEq.linear toM.
  Hypothesis divc_lin : Thm.PrimEq.linear2 divc.
  Hypothesis curlc_lin : Thm.PrimEq.linear2 curlc.
  Hypothesis lap_lin : Thm.PrimEq.linear lap.
  Hypothesis clip_lin : Thm.PrimEq.linear clip.
  Variable c : @PEcfg F.
  Hypothesis b_top : cb c 0%nat = 0.
  Variable grav : F.
  Variable X : P -> @NCol F.
  Variable T : nat -> P -> F.
  Variable Tm : nat -> W -> F.
  Variable lnps onem orog : W -> F.
  Hypothesis H_div_grad : forall w,
      clip (divc (toM (fun p => n_gx (X p) * n_sec2 (X p))) (toM (fun p => n_gy (X p) * n_sec2 (X p)))) w = lap lnps w.
  Hypothesis H_curl_grad : forall w,
      clip (curlc (toM (fun p => n_gx (X p) * n_sec2 (X p))) (toM (fun p => n_gy (X p) * n_sec2 (X p)))) w = 0.
  Hypothesis lap_const : forall w, lap onem w = 0.
  Notation sP := (spec_P P c X).
  Notation sQ := (spec_Q P c X).
  Notation rtd := (rt_abs P c T).

  (** dry / with-time classes, any reference profile [Tref]:
      explicit + implicit divergence tendency = clip( -div(spec momentum) - lap(KE + g orog) ) - lap(G.T);
      in the documented form -div(...) - lap(KE + Phi) when G.T has nothing in the clipped wavenumber;
      explicit vorticity tendency = clip( -curl(spec momentum) ). *)
  Theorem C05_primeq_refines_spec (Tref : nat -> F) r w :
    (r < cK c)%nat ->
    div_tendency_explicit W P toM divc lap clip (with_tref c Tref) grav (Xs P X T Tref)
                          (fun p => rt_dry (with_tref c Tref) (Xs P X T Tref p)) orog (fun _ => 0) r w
    + div_tendency_implicit W lap (with_tref c Tref) (Tms W Tm onem Tref) lnps r w
    = clip (fun w' => - divc (toM (fun p => sP rtd p r)) (toM (fun p => sQ rtd p r)) w'
                      - lap (fun w2 => toM (fun p => kinetic (X p) r) w2 + grav * orog w2) w') w
      - lap (fun w' => geo_diff false c (fun k => Tm k w') r) w
    /\ (clip (lap (fun w' => geo_diff false c (fun k => Tm k w') r)) w = lap (fun w' => geo_diff false c (fun k => Tm k w') r) w ->
        div_tendency_explicit W P toM divc lap clip (with_tref c Tref) grav (Xs P X T Tref)
                              (fun p => rt_dry (with_tref c Tref) (Xs P X T Tref p)) orog (fun _ => 0) r w
        + div_tendency_implicit W lap (with_tref c Tref) (Tms W Tm onem Tref) lnps r w
        = clip (fun w' => - divc (toM (fun p => sP rtd p r)) (toM (fun p => sQ rtd p r)) w'
                          - lap (fun w2 => toM (fun p => kinetic (X p) r) w2
                                           + spec_phi c (grav * orog w2) (fun k => Tm k w2) r) w') w)
    /\ vort_tendency_explicit W P toM curlc clip (with_tref c Tref) (Xs P X T Tref)
                              (fun p => rt_dry (with_tref c Tref) (Xs P X T Tref p)) (fun _ => 0) r w
       = clip (fun w' => - curlc (toM (fun p => sP rtd p r)) (toM (fun p => sQ rtd p r)) w') w.
  Proof.
    intros Hr. split; [|split].
    - apply refines_divergence_modal; assumption.
    - intros Hc. apply refines_divergence_modal_energy; assumption.
    - apply refines_vorticity_modal; assumption.
  Qed.

  (** moist classes: R Tv in the momentum vector, the humidity part of the geopotential evaluated at the nodes *)
  Theorem C05_primeq_refines_spec_modal_moist (m : @Moist F) (q gqx gqy : P -> nat -> F) (lapn : P -> F) (Tref : nat -> F) r w :
    cR c <> 0 ->
    (forall r w, clip (fun w' => divc (toM (qgx P X q r)) (toM (qgy P X q r)) w' - toM (leib_div P X q gqx gqy lapn r) w') w = 0) ->
    (forall r w, clip (fun w' => curlc (toM (qgx P X q r)) (toM (qgy P X q r)) w' + toM (leib_curl P X gqx gqy r) w') w = 0) ->
    (r < cK c)%nat ->
    let rtv := rtv_abs P c T m q in
    div_tendency_explicit W P toM divc lap clip (with_tref c Tref) grav (Xs P X T Tref)
        (fun p => rt_moist (with_tref c Tref) m (Xs P X T Tref p) (q p)) orog
        (fun w' => humidity_div_modal W P toM lap (with_tref c Tref) m (Xs P X T Tref) q gqx gqy lapn r w') r w
    + div_tendency_implicit W lap (with_tref c Tref) (Tms W Tm onem Tref) lnps r w
    = clip (fun w' => - divc (toM (fun p => sP rtv p r)) (toM (fun p => sQ rtv p r)) w'
                      - lap (fun w2 => toM (fun p => kinetic (X p) r) w2 + grav * orog w2
                                       + toM (fun p => geo_diff false c (fun k => q p k * T k p * (mRv m / cR c - 1)) r) w2) w') w
      - lap (fun w' => geo_diff false c (fun k => Tm k w') r) w
    /\ vort_tendency_explicit W P toM curlc clip (with_tref c Tref) (Xs P X T Tref)
          (fun p => rt_moist (with_tref c Tref) m (Xs P X T Tref p) (q p))
          (fun w' => humidity_curl_modal W P toM (with_tref c Tref) m (Xs P X T Tref) gqx gqy r w') r w
       = clip (fun w' => - curlc (toM (fun p => sP rtv p r)) (toM (fun p => sQ rtv p r)) w') w.
  Proof.
    intros HR HL HLc Hr rtv. split.
    - apply refines_divergence_modal_moist; assumption.
    - apply refines_vorticity_modal_moist; assumption.
  Qed.
End C05_modal.

Section C05_spec.
  Context {A : Type} {o : Ops A}.
  Hypothesis Aring : ring_theory (@f0 A o) f1 fadd fmul fsub fopp (@eq A).
  Hypothesis div_def : forall x y : A, x / y = x * finv y.
  Variables dlon dmu : A -> A.
  Variables mu a : A.
  Hypothesis inv_a : finv a * a = 1.
  Hypothesis inv_c2 : finv (PrimEqSpec.cos2 mu) * PrimEqSpec.cos2 mu = 1.
  Hypothesis inv_two : finv (@two A o) * two = 1.
  Hypothesis dlon_add : forall x y, dlon (x + y) = dlon x + dlon y.
  Hypothesis dmu_add : forall x y, dmu (x + y) = dmu x + dmu y.
  Hypothesis dlon_leib : forall x y, dlon (x * y) = dlon x * y + x * dlon y.
  Hypothesis dmu_leib : forall x y, dmu (x * y) = dmu x * y + x * dmu y.
  Hypothesis d_commute : forall x, dlon (dmu x) = dmu (dlon x).
  Hypothesis dlon_mu : dlon mu = 0.
  Hypothesis dmu_mu : dmu mu = PrimEqSpec.cos2 mu.
  Hypothesis dlon_a : dlon a = 0.
  Hypothesis dmu_a : dmu a = 0.
  Notation cstA := (cst dlon dmu).
  Notation zonA := (zon dlon).

  (** the code's flux form  X div(v) - div(v X)  is the advective form  - v . grad X *)
  Theorem C05_flux_form_is_advective_form (Uc Vc X : A) :
    X * sdiv dlon dmu mu a Uc Vc - sdiv dlon dmu mu a (Uc * X) (Vc * X)
    = - (PrimEqSpec.sec2 mu * (Uc * dlon X + Vc * dmu X) / a).
  Proof. apply flux_form_is_advective_form; assumption. Qed.

  (** div/curl of the velocity derived from (psi, chi) are lap chi / lap psi; the operators as coded
      (d/dlon and sec d/dlat(cos^2 .) on sec^2-scaled components) are div and curl; lap(constant) = 0 *)
  Theorem C05_operators (psi chi M N : A) :
    sdiv dlon dmu mu a (vel_u dlon dmu a psi chi) (vel_v dlon dmu a psi chi) = slap dlon dmu mu a chi /\
    scurl dlon dmu mu a (vel_u dlon dmu a psi chi) (vel_v dlon dmu a psi chi) = slap dlon dmu mu a psi /\
    div_cos_lat_pt dlon dmu mu a (M * PrimEqSpec.sec2 mu) (N * PrimEqSpec.sec2 mu) = sdiv dlon dmu mu a M N /\
    curl_cos_lat_pt dlon dmu mu a (M * PrimEqSpec.sec2 mu) (N * PrimEqSpec.sec2 mu) = scurl dlon dmu mu a M N /\
    (forall k, cstA k -> slap dlon dmu mu a k = 0).
  Proof.
    split; [apply div_of_velocity; assumption|].
    split; [apply curl_of_velocity; assumption|].
    split; [apply div_cos_lat_is_sdiv; assumption|].
    split; [apply curl_cos_lat_is_scurl; assumption|].
    intros k Hk. apply laplacian_of_constant; assumption.
  Qed.

  Theorem C05_zonal_polynomial_derivative (cs : list A) :
    Forall cstA cs -> dlon (peval cs mu) = 0 /\ dmu (peval cs mu) = PrimEqSpec.cos2 mu * pdiff cs mu.
  Proof.
    intros H. apply zonal_polynomial_derivative; assumption.
  Qed.

  (** primitive equations, solid-body rotation on every level in gradient-wind balance (all K, levels,
      rotation rate, radius, per-layer temperatures Tb_k + tau_k mu^2, uniform humidity q0, ln ps =
      cst + beta mu^2, orography gam mu^2; all parameters constant fields): every component of the
      specification tendency vanishes *)
  Theorem C05_solid_body_steady (c : @PEcfg A) (Omega grav Rv Cpv q0 cst0 beta gam : A) (Uk Tb tau : nat -> A) :
    cstA Omega -> cstA grav -> cstA q0 -> cstA cst0 -> cstA beta -> cstA gam ->
    cstA (cR c) -> cstA (Rv / cR c) -> (forall i, cstA (cls c i)) ->
    (forall k, cstA (Uk k)) -> (forall k, cstA (Tb k)) -> (forall k, cstA (tau k)) ->
    let mf := 1 + (Rv / cR c - 1) * q0 in
    (forall k, Uk k * (Uk k + two * a * Omega)
               + two * (grav * gam + mf * sumn (cK c) (fun j => geo_weights (cK c) (cR c) (cls c) k j * tau j))
               + two * (cR c * mf * Tb k * beta) = 0) ->
    (forall k, beta * tau k = 0) ->
    let st := mkPES (fun k => - (a * Uk k) * mu) (fun _ => 0)
                    (fun k => Tb k + tau k * (mu * mu)) (cst0 + beta * (mu * mu)) (fun _ => q0) in
    let oro := gam * (mu * mu) in
    forall k,
      spec_vort_tend dlon dmu mu a c Omega Rv st k = 0 /\
      spec_div_tend dlon dmu mu a c Omega grav Rv oro st k = 0 /\
      spec_temp_tend dlon dmu mu a c Rv Cpv st k = 0 /\
      spec_lnps_tend dlon dmu mu a c st = 0 /\
      spec_tracer_tend dlon dmu mu a c st (st_q st) k = 0.
  Proof. apply solid_body_steady; assumption. Qed.

  (** shallow water: ANY polynomial jets u_i = cos(lat) w_i(mu) (coefficient lists of any length), polynomial
      potentials and zonal orography in geostrophic balance, any number of layers, any density matrix *)
  Theorem C05_sw_polynomial_jet_steady (Kl : nat) (Rm : nat -> nat -> A) (ref : nat -> A) (Omega : A)
          (ws Ps Phs : nat -> list A) (Os : list A) :
    zonA Omega -> (forall i, zonA (ref i)) -> (forall i j, cstA (Rm i j)) ->
    (forall i, Forall cstA (ws i)) -> (forall i, Forall cstA (Ps i)) -> (forall i, Forall cstA (Phs i)) -> Forall cstA Os ->
    (forall i x, pdiff (Ps i) x = - (a * peval (ws i) x)) ->
    (forall i x, sumn Kl (fun j => Rm i j * pdiff (Phs j) x) + pdiff Os x
                 = - (x * peval (ws i) x * (peval (ws i) x + two * a * Omega))) ->
    let st := mkSWS (fun i => peval (Ps i) mu) (fun _ => 0) (fun i => peval (Phs i) mu) in
    let oro := peval Os mu in
    forall i,
      sw_vort_tend dlon dmu mu a Omega st i = 0 /\
      sw_div_tend dlon dmu mu a Kl Rm Omega oro st i = 0 /\
      sw_pot_tend dlon dmu mu a ref st i = 0.
  Proof. apply sw_polynomial_jet_steady; assumption. Qed.

  (** one layer, u = U0 cos(lat): the balanced height is c0 - (U0^2/2 + a Omega U0) sin^2(lat) *)
  Theorem C05_sw_solid_body_one_layer (ref : nat -> A) (Omega U0 c0 : A) :
    cstA Omega -> cstA U0 -> cstA c0 -> (forall i, zonA (ref i)) ->
    let st := mkSWS (fun _ => - (a * U0) * mu) (fun _ => 0)
                    (fun _ => c0 - (U0 * U0 / two + a * Omega * U0) * (mu * mu)) in
    sw_vort_tend dlon dmu mu a Omega st 0%nat = 0 /\
    sw_div_tend dlon dmu mu a 1 (fun _ _ => 1) Omega 0 st 0%nat = 0 /\
    sw_pot_tend dlon dmu mu a ref st 0%nat = 0.
  Proof. apply sw_solid_body_one_layer; assumption. Qed.

  (** the formulas of shallow_water_states.one_layer (no 1/radius factors, f = sin(lat)) give the vorticity of
      the jet and a vanishing divergence tendency when radius = 1 and 2 Omega = 1; multi_layer reduces to it *)
  Theorem C05_one_layer_formulas_balanced (Omega k0 psi wf wf' pe : A) :
    a = 1 -> two * Omega = 1 -> cstA k0 ->
    zd dlon dmu mu wf wf' -> zd dlon dmu mu psi (- (a * wf)) ->
    let vort := - Eop dmu mu wf in
    slap dlon dmu mu a pe = - Eop dmu mu (wf * (vort + mu)) ->
    let st := mkSWS (fun _ => psi) (fun _ => 0) (fun _ => pe - PrimEqSpec.cos2 mu * wf * wf / two + k0) in
    wzeta dlon dmu mu a st 0%nat = vort /\
    sw_div_tend dlon dmu mu a 1 (fun _ _ => 1) Omega 0 st 0%nat = 0.
  Proof. apply one_layer_formulas_balanced; assumption. Qed.

  Theorem C05_multi_layer_formulas_balanced (Kl : nat) (Rm : nat -> nat -> A) (Omega oro : A)
          (psi chi pot s : nat -> A) i :
    sumn Kl (fun j => Rm i j * pot j) = s i ->
    sw_div_tend dlon dmu mu a Kl Rm Omega oro (mkSWS psi chi pot) i
    = sw_div_tend dlon dmu mu a 1 (fun _ _ => 1) Omega oro (mkSWS (fun _ => psi i) (fun _ => chi i) (fun _ => s i)) 0%nat.
  Proof. apply multi_layer_formulas_balanced; assumption. Qed.
End C05_spec.

(** * non-vacuity of group (C): the ring of formal power series in mu over Qc, mu = X, radius 2,
    d/dlon = 0, cos(lat) d/dlat = (1 - X^2) d/dX (a NON-ZERO derivation), 1/(1 - X^2) = 1 + X^2 + X^4 + ... *)
Example C05_differential_ring_instance :
  ring_theory (@f0 ps psOps) f1 fadd fmul fsub fopp (@eq ps) /\
  (forall x y : ps, x / y = x * finv y) /\
  finv ps_a * ps_a = 1 /\ finv (PrimEqSpec.cos2 ps_X) * PrimEqSpec.cos2 ps_X = 1 /\ finv (@two ps psOps) * two = 1 /\
  (forall x y : ps, ps_dlon (x + y) = ps_dlon x + ps_dlon y) /\ (forall x y : ps, ps_dmu (x + y) = ps_dmu x + ps_dmu y) /\
  (forall x y : ps, ps_dlon (x * y) = ps_dlon x * y + x * ps_dlon y) /\
  (forall x y : ps, ps_dmu (x * y) = ps_dmu x * y + x * ps_dmu y) /\
  (forall x : ps, ps_dlon (ps_dmu x) = ps_dmu (ps_dlon x)) /\
  ps_dlon ps_X = 0 /\ ps_dmu ps_X = PrimEqSpec.cos2 ps_X /\ ps_dlon ps_a = 0 /\ ps_dmu ps_a = 0 /\
  ps_dmu ps_X <> 0.
Proof.
  exact (conj ps_ring (conj psH_div_def (conj psH_inv_a (conj psH_inv_c2 (conj psH_inv_two
          (conj psH_dlon_add (conj psH_dmu_add (conj psH_dlon_leib (conj psH_dmu_leib (conj psH_commute
          (conj psH_dlon_mu (conj psH_dmu_mu (conj psH_dlon_a (conj psH_dmu_a ps_dmu_nontrivial)))))))))))))).
Qed.

Add Ring psR2 : ps_ring.
Definition qq (x : Q) : ps := ps_c (Q2Qc x).
Definition ps_cfg : @PEcfg ps :=
  mkPE 2 (qq (2#7)) (qq (2#7)) (fun i => qq (nth i [-(2#1); -(1#4)] 0)%Q) (fun i => qq (nth i [0; 1#3; 1] 0)%Q) (fun _ => qq (250#1)).

(** the solid-body theorem instantiated in the power-series ring: two levels, radius 2, Omega = 1/2,
    U = 1 on both levels, g = 3, orography -mu^2/2, T = 250 and 251, ln ps = 1 (so beta = 0, tau = 0), q0 = 1/100 *)
Theorem C05_solid_body_steady_series :
  let st := mkPES (fun k => - (ps_a * qq 1) * ps_X) (fun _ => 0)
                  (fun k => qq (inject_Z (250 + Z.of_nat k)) + 0 * (ps_X * ps_X)) (qq 1 + 0 * (ps_X * ps_X)) (fun _ => qq (1#100)) in
  let oro := qq (-(1#2)) * (ps_X * ps_X) in
  forall k,
    spec_vort_tend ps_dlon ps_dmu ps_X ps_a ps_cfg (qq (1#2)) (qq (3#7)) st k = 0 /\
    spec_div_tend ps_dlon ps_dmu ps_X ps_a ps_cfg (qq (1#2)) (qq 3) (qq (3#7)) oro st k = 0 /\
    spec_temp_tend ps_dlon ps_dmu ps_X ps_a ps_cfg (qq (3#7)) (qq 2) st k = 0 /\
    spec_lnps_tend ps_dlon ps_dmu ps_X ps_a ps_cfg st = 0 /\
    spec_tracer_tend ps_dlon ps_dmu ps_X ps_a ps_cfg st (st_q st) k = 0.
Proof.
  apply (@solid_body_steady ps psOps ps_ring psH_div_def ps_dlon ps_dmu ps_X ps_a psH_inv_a psH_inv_c2 psH_inv_two
           psH_dlon_add psH_dmu_add psH_dlon_leib psH_dmu_leib psH_commute psH_dlon_mu psH_dmu_mu psH_dlon_a psH_dmu_a
           ps_cfg (qq (1#2)) (qq 3) (qq (3#7)) (qq 2) (qq (1#100)) (qq 1) 0 (qq (-(1#2)))
           (fun _ => qq 1) (fun k => qq (inject_Z (250 + Z.of_nat k))) (fun _ => 0)).
  1-6, 9-12: intros; exact (ps_cst_c _).
  - exact (ps_cst_c (Q2Qc (2#7))).
  - unfold ps_cfg, qq, cR. rewrite ps_div_c. apply ps_cst_c.
  - intros k. cbv beta.
    rewrite (sumn_zero_ring ps_ring) by (intros; cbv beta; apply ps_mul_0_r).
    transitivity (qq 1 * (qq 1 + (1 + 1) * ps_a * qq (1#2)) + (1 + 1) * (qq 3 * qq (-(1#2)))); [unfold two; ring|].
    (* an equation between constant series: the constants are a subring *)
    unfold qq, ps_a. change (@f1 ps psOps) with (ps_c 1%F). repeat (rewrite ps_c_add || rewrite ps_c_mul).
    apply (f_equal ps_c), Qc_is_canon. vm_compute. reflexivity.
  - intros k. apply ps_mul_0_r.
Qed.

(** the one-layer shallow-water solid-body theorem in the power-series ring *)
Theorem C05_sw_solid_body_series :
  let st := mkSWS (fun _ => - (ps_a * qq 1) * ps_X) (fun _ => 0)
                  (fun _ => qq 5 - (qq 1 * qq 1 / two + ps_a * qq (1#2) * qq 1) * (ps_X * ps_X)) in
  sw_vort_tend ps_dlon ps_dmu ps_X ps_a (qq (1#2)) st 0%nat = 0 /\
  sw_div_tend ps_dlon ps_dmu ps_X ps_a 1 (fun _ _ => 1) (qq (1#2)) 0 st 0%nat = 0 /\
  sw_pot_tend ps_dlon ps_dmu ps_X ps_a (fun _ => qq 1) st 0%nat = 0.
Proof.
  apply (@sw_solid_body_one_layer ps psOps ps_ring psH_div_def ps_dlon ps_dmu ps_X ps_a psH_inv_a psH_inv_c2 psH_inv_two
           psH_dlon_add psH_dmu_add psH_dlon_leib psH_dmu_leib psH_commute psH_dlon_mu psH_dmu_mu psH_dlon_a psH_dmu_a);
    try (intros; first [apply ps_cst_c | reflexivity]).
Qed.

Definition C05_rest_isothermal_steady_R := @C05_rest_isothermal_steady R ROps RFieldC.

(** * non-vacuity of groups (A) and (B): a concrete uneven 3-level instance over Qc with a one-coefficient /
    one-node horizontal discretisation (laplacian = multiplication by -2, clip = identity, hence the constant mode
    [onem] = 0) and non-zero orography: the hypotheses on the configuration and on the operators hold, the implicit and
    explicit halves are individually non-zero.  [feqb_sound] over Qc is [feqb_spec] of Base/Ord.v. *)
Definition q3 (l : list Q) : nat -> Qc := fun k => Q2Qc (nth k l 0%Q).
Definition ex_cfg : @PEcfg Qc :=
  mkPE 3 (Q2Qc (2#7)) (Q2Qc (2#7)) (q3 [-(2#1); -(7#10); -(1#8)]%Q) (q3 [0; 1#4; 3#4; 1]%Q) (fun _ => Q2Qc (250#1)).
Definition ex_rest : @NCol Qc :=
  mkNCol (fun _ => 0) (fun _ => 0) (fun _ => 0) (fun _ => 0) (fun _ => 0) (Q2Qc (1#3)) (Q2Qc (-(1#5))) (Q2Qc (4#3)) (Q2Qc (1#2)).
Definition tI (x : unit -> Qc) (w : unit) : Qc := x tt.
Definition tD (x y : unit -> Qc) (w : unit) : Qc := x tt + y tt.
Definition tL (x : unit -> Qc) (w : unit) : Qc := Q2Qc (-(2#1)) * x tt.
Lemma tI_lin : Thm.PrimEq.linear tI.
Proof. split; [intros x y H b; apply H | intros; unfold tI; cbn; ring]. Qed.
Lemma tD_lin : Thm.PrimEq.linear2 tD.
Proof. split; [intros x1 y1 x2 y2 H1 H2 b; unfold tD; now rewrite H1, H2 | intros; unfold tD; cbn; ring]. Qed.
Lemma tL_lin : Thm.PrimEq.linear tL.
Proof. split; [intros x y H b; unfold tL; now rewrite H | intros; unfold tL; cbn; ring]. Qed.
Example C05_hyps_satisfiable :
  let orog := fun _ : unit => Q2Qc (1#10) in
  let grav := Q2Qc (9#1) in let T0 := Q2Qc (250#1) in
  let lnps := fun w : unit => Q2Qc (3#1) * 0 - grav / (cR ex_cfg * T0) * orog w in
  (@two Qc QcOps <> 0) /\
  (forall k, (S k < cK ex_cfg)%nat -> thickness (cb ex_cfg) k + thickness (cb ex_cfg) (S k) <> 0) /\
  cb ex_cfg 0%nat = 0 /\ cR ex_cfg * T0 <> 0 /\
  Thm.PrimEq.linear tI /\ Thm.PrimEq.linear2 tD /\ Thm.PrimEq.linear tL /\
  (forall w, tL (fun _ => 0) w = 0) /\ (forall w, tI (tL orog) w = tL orog w) /\
  div_tendency_implicit unit tL ex_cfg (fun _ _ => 0) lnps 1 tt <> 0 /\
  div_tendency_explicit unit unit tI tD tL tI ex_cfg grav (fun _ => ex_rest) (fun p => rt_dry ex_cfg ex_rest) orog (fun _ => 0) 1 tt
  + div_tendency_implicit unit tL ex_cfg (fun _ _ => 0) lnps 1 tt = 0.
Proof.
  cbv zeta.
  split; [intro H; discriminate H|].
  split; [intros k Hk; destruct k as [|[|k]]; [| |cbn in Hk; lia]; intro H; vm_compute in H; discriminate H|].
  split; [apply Qc_is_canon; vm_compute; reflexivity|].
  split; [intro H; vm_compute in H; discriminate H|].
  split; [exact tI_lin|]. split; [exact tD_lin|]. split; [exact tL_lin|].
  split; [intros w; apply Qc_is_canon; vm_compute; reflexivity|].
  split; [intros w; reflexivity|].
  split; [intro H; vm_compute in H; discriminate H|].
  apply Qc_is_canon. vm_compute. reflexivity.
Qed.

(** * non-vacuity of the modal-layer hypotheses (B'): one coefficient / one node, to_modal = clip = identity,
    div(x,y) = x + y, curl(x,y) = b x - a y with (a,b) the analysed sec^2 grad(lnps), laplacian = -2 *)
Definition ex_colm : @NCol Qc :=
  mkNCol (q3 [3#20; -(3#28); 1#2]%Q) (q3 [-(1#10); 1#4; 1#7]%Q) (q3 [1#3; -(1#2); 2#5]%Q) (q3 [1#9; 1#8; -(1#6)]%Q)
         (fun _ => 0) (Q2Qc (1#3)) (Q2Qc (-(1#5))) (Q2Qc (4#3)) (Q2Qc (1#2)).
Definition tC (a b : Qc) (x y : unit -> Qc) (w : unit) : Qc := b * x tt - a * y tt.
Example C05_modal_hyps_satisfiable :
  let X := fun _ : unit => ex_colm in
  let ga := n_gx ex_colm * n_sec2 ex_colm in let gb := n_gy ex_colm * n_sec2 ex_colm in
  let lnps := fun _ : unit => (ga + gb) * Q2Qc (-(1#2)) in
  let onem := fun _ : unit => (0 : Qc) in
  let q := fun (_ : unit) (k : nat) => q3 [1#100; 1#50; 3#100]%Q k in
  let gq0 := fun (_ : unit) (_ : nat) => (0 : Qc) in
  let lapn := fun _ : unit => ga + gb in
  Thm.PrimEq.linear tI /\ Thm.PrimEq.linear2 tD /\ Thm.PrimEq.linear2 (tC ga gb) /\ Thm.PrimEq.linear tL /\
  cb ex_cfg 0%nat = 0 /\ cR ex_cfg <> 0 /\
  (forall w, tI (tD (tI (fun p => n_gx (X p) * n_sec2 (X p))) (tI (fun p => n_gy (X p) * n_sec2 (X p)))) w = tL lnps w) /\
  (forall w, tI (tC ga gb (tI (fun p => n_gx (X p) * n_sec2 (X p))) (tI (fun p => n_gy (X p) * n_sec2 (X p)))) w = 0) /\
  (forall w, tL onem w = 0) /\
  (forall r w, tI (fun w' => tD (tI (qgx unit X q r)) (tI (qgy unit X q r)) w' - tI (leib_div unit X q gq0 gq0 lapn r) w') w = 0) /\
  (forall r w, tI (fun w' => tC ga gb (tI (qgx unit X q r)) (tI (qgy unit X q r)) w' + tI (leib_curl unit X gq0 gq0 r) w') w = 0) /\
  tL lnps tt <> 0.
Proof.
  cbv zeta.
  split; [exact tI_lin|]. split; [exact tD_lin|].
  split; [split; [intros x1 y1 x2 y2 H1 H2 w; unfold tC; now rewrite H1, H2 | intros; unfold tC; cbn; ring]|].
  split; [exact tL_lin|].
  split; [apply Qc_is_canon; vm_compute; reflexivity|].
  split; [intro H; vm_compute in H; discriminate H|].
  split; [intros w; apply Qc_is_canon; vm_compute; reflexivity|].
  split; [intros w; unfold tI, tC; cbn; ring|].
  split; [intros w; apply Qc_is_canon; vm_compute; reflexivity|].
  split; [intros r w; unfold tI, tD, qgx, qgy, leib_div; cbn; ring|].
  split; [intros r w; unfold tI, tC, qgx, qgy, leib_curl; cbn; ring|].
  intro H; vm_compute in H; discriminate H.
Qed.

(** * non-vacuity of the moist rest-state hypotheses: two nodes / two coefficients (mean and wave),
    to_modal = (mean, half difference), laplacian = (0, -2), clip = identity, orography with a wave component *)
Definition h2 : Qc := Q2Qc (1#2).
Definition toM2 (f : bool -> Qc) (w : bool) : Qc := if w then (f true - f false) * h2 else (f true + f false) * h2.
Definition toN2 (x : bool -> Qc) (p : bool) : Qc := if p then x false + x true else x false - x true.
Definition lap2 (x : bool -> Qc) (w : bool) : Qc := if w then Q2Qc (-(2#1)) * x true else 0.
Definition id2 (x : bool -> Qc) (w : bool) : Qc := x w.
Definition div2 (x y : bool -> Qc) (w : bool) : Qc := x w + y w.
Definition curl2 (x y : bool -> Qc) (w : bool) : Qc := x w - y w.
Definition ex_rest2 (p : bool) : @NCol Qc :=
  mkNCol (fun _ => 0) (fun _ => 0) (fun _ => 0) (fun _ => 0) (fun _ => 0)
         (if p then Q2Qc (1#3) else Q2Qc (-(1#4))) (Q2Qc (-(1#5))) (if p then Q2Qc (4#3) else Q2Qc (5#4)) (Q2Qc (1#2)).
Example C05_rest_moist_hyps_satisfiable :
  let m := mkMoist (Q2Qc (3#7)) (Q2Qc (2#1)) in
  let q0 := Q2Qc (1#100) in let grav := Q2Qc (9#1) in let T0 := Q2Qc (250#1) in
  let onem := fun w : bool => if w then (0 : Qc) else 1 in
  let orog := fun w : bool => if w then Q2Qc (1#10) else Q2Qc (3#1) in
  let lnpsm := fun w : bool => Q2Qc (3#1) * onem w - grav / (cR ex_cfg * T0 * (1 + (mRv m / cR ex_cfg - 1) * q0)) * orog w in
  let lapn := toN2 (lap2 lnpsm) in
  let q := fun (_ : bool) (_ : nat) => q0 in let gq0 := fun (_ : bool) (_ : nat) => (0 : Qc) in
  Thm.PrimEq.linear toM2 /\ Thm.PrimEq.linear2 div2 /\ Thm.PrimEq.linear2 curl2 /\ Thm.PrimEq.linear lap2 /\ Thm.PrimEq.linear id2 /\
  cR ex_cfg * T0 <> 0 /\ cR ex_cfg <> 0 /\ 1 + (mRv m / cR ex_cfg - 1) * q0 <> 0 /\
  (forall w, lap2 onem w = 0) /\ (forall w, lap2 (toM2 (fun _ => 1)) w = 0) /\
  (forall w, id2 (toM2 lapn) w = id2 (lap2 lnpsm) w) /\
  (forall w, id2 (lap2 orog) w = lap2 orog w) /\
  div_tendency_implicit bool lap2 ex_cfg (fun _ _ => 0) lnpsm 1 true <> 0 /\
  div_tendency_explicit bool bool toM2 div2 lap2 id2 ex_cfg grav ex_rest2 (fun p => rt_moist ex_cfg m (ex_rest2 p) (q p)) orog
                        (fun w' => humidity_div_modal bool bool toM2 lap2 ex_cfg m ex_rest2 q gq0 gq0 lapn 1 w') 1 true
  + div_tendency_implicit bool lap2 ex_cfg (fun _ _ => 0) lnpsm 1 true = 0.
Proof.
  cbv zeta.
  split; [split; [intros x y H b; unfold toM2; now rewrite !H | intros t x y b; unfold toM2; destruct b; cbn; ring]|].
  split; [split; [intros x1 y1 x2 y2 H1 H2 b; unfold div2; now rewrite H1, H2 | intros; unfold div2; cbn; ring]|].
  split; [split; [intros x1 y1 x2 y2 H1 H2 b; unfold curl2; now rewrite H1, H2 | intros; unfold curl2; cbn; ring]|].
  split; [split; [intros x y H b; unfold lap2; now rewrite H | intros t x y b; unfold lap2; destruct b; cbn; ring]|].
  split; [split; [intros x y H b; apply H | intros; unfold id2; cbn; ring]|].
  split; [intro H; vm_compute in H; discriminate H|].
  split; [intro H; vm_compute in H; discriminate H|].
  split; [intro H; vm_compute in H; discriminate H|].
  split; [intros w; destruct w; apply Qc_is_canon; vm_compute; reflexivity|].
  split; [intros w; destruct w; apply Qc_is_canon; vm_compute; reflexivity|].
  split; [intros w; destruct w; apply Qc_is_canon; vm_compute; reflexivity|].
  split; [intros w; reflexivity|].
  split; [intro H; vm_compute in H; discriminate H|].
  apply Qc_is_canon. vm_compute. reflexivity.
Qed.

(** ** Tie to the source by translation (regenerated on every run).
    The nodal column algebra the theorems above are about IS the code of
    dinosaur/primitive_equations.py: the [*_src] terms are transcribed from the
    AST by tools/translate/gen_primeq.py (compute_diagnostic_state, the nodal
    methods of PrimitiveEquations, MoistPrimitiveEquations and the cloud class). *)
Theorem C05_model_is_source {F : Type} {o : Ops F} {Fc : FieldC o} (c : @PEcfg F) (m : @Moist F)
    (inc_va : bool) (x : @NCol F) (Tf g vg s q qc qi rt : nat -> F) (k : nat) :
  u_dot_grad x k = u_dot_grad_src x k /\
  t_omega_over_sigma_sp c Tf g vg k = t_omega_over_sigma_sp_src c Tf g vg k /\
  combined_u c inc_va x (rt_dry c x) k = combined_u_src c inc_va x k /\
  combined_v c inc_va x (rt_dry c x) k = combined_v_src c inc_va x k /\
  kinetic x k = kinetic_src x k /\
  temp_vertical_tendency c inc_va x k = temp_vertical_tendency_src c inc_va x k /\
  hsa_nodal x s k = hsa_nodal_src x s k /\
  hsa_mu x s k = hsa_u_src x s k * n_sec2 x /\
  hsa_mv x s k = hsa_v_src x s k * n_sec2 x /\
  temp_adiabatic c x k = temp_adiabatic_src c x k /\
  log_pressure_tendency c x = log_pressure_tendency_src c x /\
  moisture_contribution c m q k = moisture_contribution_src c m q k /\
  rt_moist c m x q k = rt_moist_src c x (moisture_contribution c m q) k /\
  rt_cloud c m x q qc qi k = rt_cloud_src c x (moisture_contribution c m q) qc qi k /\
  combined_u c inc_va x rt k = combined_u_moist_src c inc_va x q rt k /\
  combined_v c inc_va x rt k = combined_v_moist_src c inc_va x q rt k /\
  temp_adiabatic_moist c m x q k = temp_adiabatic_moist_src c m x q k.
Proof. exact (primeq_model_is_source c m inc_va x Tf g vg s q qc qi rt k). Qed.

Theorem C05_gen_primeq_complete : gen_primeq_ok = true.
Proof. exact gen_primeq_complete. Qed.

(** * (A') the EXECUTED whole-state model (Model/PrimEqFull.v: explicit_terms_full + implicit_terms_full at the concrete
    operators of Model/SHT.v / Model/Deriv.v) at rest.  For every grid table set, every K, levels, constants:
    if the MODAL state has no vorticity, no divergence and no temperature variation on the coefficient range, the reference
    temperature is T0 on the K levels, and lnps = cst * (the (0,0)-only spectrum v00) - g orog / (R T0) as modal arrays, then on
    every in-range coefficient the total tendency of vorticity, temperature and lnps is 0 and the divergence tendency is
    exactly g (lap orog - clip (lap orog)): 0 below the clipped total wavenumber L-1.  Linearity of the five concrete
    operators and lap(constant) = 0 are discharged (C04_concrete_operators_linear); NO table hypothesis remains. *)
From Dino Require Import Model.SHT Model.Deriv Model.PrimEqFull Thm.PrimEqFull Thm.SteadyFull.

Theorem C05_whole_state_rest_isothermal_steady {F : Type} {o : Ops F} {Fc : FieldC o}
        (g : @HGrid F) (c : @PEcfg F) (grav T0 cst v00 : F) (orog : nat -> nat -> F) (s : @State F) :
  cR c * T0 <> 0 -> (forall k, (k < cK c)%nat -> cTref c k = T0) ->
  (forall k a l, (k < cK c)%nat -> (a < hR g)%nat -> (l < hL g)%nat -> s_vort s k a l = 0) ->
  (forall k a l, (k < cK c)%nat -> (a < hR g)%nat -> (l < hL g)%nat -> s_div s k a l = 0) ->
  (forall k a l, (k < cK c)%nat -> (a < hR g)%nat -> (l < hL g)%nat -> s_temp s k a l = 0) ->
  (forall a l, (a < hR g)%nat -> (l < hL g)%nat ->
               s_lnps s a l = cst * onem00 v00 (a, l) - grav / (cR c * T0) * orog a l) ->
  forall k a l, (k < cK c)%nat -> (a < hR g)%nat -> (l < hL g)%nat ->
    let E := explicit_terms_full g c grav orog s in
    let I := implicit_terms_full g c s in
    s_vort E k a l + s_vort I k a l = 0 /\
    s_temp E k a l + s_temp I k a l = 0 /\
    s_lnps E a l + s_lnps I a l = 0 /\
    s_div E k a l + s_div I k a l = grav * (lapm g orog a l - clipm g (lapm g orog) a l) /\
    ((l < hL g - 1)%nat -> s_div E k a l + s_div I k a l = 0).
Proof.
  intros. eapply whole_state_rest_isothermal_steady; eassumption.
Qed.

(** non-vacuity: a zonal grid over Qc (M = 1, L = 3, one longitude, two latitudes), three uneven levels, orography with
    content in every total wavenumber including the clipped one: every hypothesis holds, the implicit half is non-zero,
    the total divergence tendency vanishes at l = 1 and is the non-zero residual at l = L - 1 = 2 *)
Definition rest_grid : @HGrid Qc :=
  mkHG 1 3 1 2 (Q2Qc 1)
    (fun i a => match i, a with O, O => Q2Qc 1 | _, _ => 0 end)
    (fun a j l => match a with
                  | O => match l with
                         | O => match j with O => Q2Qc 1 | S O => Q2Qc 1 | _ => 0 end
                         | S O => match j with O => Q2Qc (-(1#1)) | S O => Q2Qc 1 | _ => 0 end
                         | _ => 0 end
                  | _ => 0 end)
    (fun j => match j with O => Q2Qc (1#2) | S O => Q2Qc (1#2) | _ => 0 end)
    (fun a l => match a with O => match l with S O => Q2Qc (3#4) | S (S O) => Q2Qc (1#3) | _ => 0 end | _ => 0 end)
    (fun a l => match a with O => match l with O => Q2Qc (1#2) | S O => Q2Qc (1#5) | _ => 0 end | _ => 0 end)
    (fun j => Q2Qc (4#3))
    (fun j => match j with O => Q2Qc (-(1#2)) | _ => Q2Qc (1#2) end)
    (Q2Qc (1#2)).
(** its index ranges: one longitude and two latitudes; one order and three degrees *)
Lemma rest_grid_nodes (P : nat -> nat -> Prop) :
  P 0%nat 0%nat -> P 0%nat 1%nat -> forall i j, (i < hI rest_grid)%nat -> (j < hJ rest_grid)%nat -> P i j.
Proof. intros P0 P1 [|i] [|[|j]] Hi Hj; [exact P0|exact P1|..]; cbn in Hi, Hj; lia. Qed.
Lemma rest_grid_coeffs (P : nat -> nat -> Prop) :
  P 0%nat 0%nat -> P 0%nat 1%nat -> P 0%nat 2%nat ->
  forall a l, (a < hR rest_grid)%nat -> (l < hL rest_grid)%nat -> P a l.
Proof. intros P0 P1 P2 [|a] [|[|[|l]]] Ha Hl; [exact P0|exact P1|exact P2|..]; cbn in Ha, Hl; lia. Qed.
Definition rest_orog (a l : nat) : Qc :=
  match a, l with O, O => Q2Qc 3 | O, S O => Q2Qc (1#10) | O, S (S O) => Q2Qc (1#5) | _, _ => 0 end.
Definition rest_lnps (a l : nat) : Qc :=
  Q2Qc 3 * onem00 (Q2Qc 2) (a, l) - Q2Qc 9 / (cR ex_cfg * Q2Qc 250) * rest_orog a l.
Definition rest_state : @State Qc := mkState (fun _ _ _ => 0) (fun _ _ _ => 0) (fun _ _ _ => 0) rest_lnps [].
Example C05_whole_state_rest_hyps_satisfiable :
  let E := explicit_terms_full rest_grid ex_cfg (Q2Qc 9) rest_orog rest_state in
  let I := implicit_terms_full rest_grid ex_cfg rest_state in
  cR ex_cfg * Q2Qc 250 <> 0 /\ (forall k, (k < cK ex_cfg)%nat -> cTref ex_cfg k = Q2Qc 250) /\
  (forall a l, (a < hR rest_grid)%nat -> (l < hL rest_grid)%nat ->
               s_lnps rest_state a l = Q2Qc 3 * onem00 (Q2Qc 2) (a, l) - Q2Qc 9 / (cR ex_cfg * Q2Qc 250) * rest_orog a l) /\
  s_div I 1%nat 0%nat 1%nat <> 0 /\ s_div E 1%nat 0%nat 1%nat + s_div I 1%nat 0%nat 1%nat = 0 /\
  s_div E 1%nat 0%nat 2%nat + s_div I 1%nat 0%nat 2%nat <> 0.
Proof.
  cbv zeta.
  split; [intro H; vm_compute in H; discriminate H|].
  split; [intros k _; reflexivity|].
  split; [intros a l _ _; reflexivity|].
  split; [intro H; vm_compute in H; discriminate H|].
  split; [apply Qc_is_canon; vm_compute; reflexivity|].
  intro H; vm_compute in H; discriminate H.
Qed.

(** * (A'') the EXECUTED MOIST whole-state model (MoistPrimitiveEquations = explicit_terms_full_moist with cloud = false, tracer 0 =
    specific humidity) at rest: isothermal, uniform humidity q0, lnps = cst * (0,0)-spectrum - g orog / (R T0 (1 + eps q0)),
    eps = Rv/R - 1.  On every in-range coefficient the total vorticity, temperature and lnps tendencies vanish and the divergence
    tendency is g/(1 + eps q0) (lap orog - clip (lap orog)).  Linearity and lap(constant) = 0 are discharged.  Named table hypotheses
    (all restricted to the index ranges; checked by the plugin on the implementation's tables): H_q_uniform, H_gradq_zero (nodal
    humidity = q0, its nodal cos-lat gradient = 0), H_lap_one (to_modal(1) has no laplacian), H_lapn (laplacian(lnps) survives
    to_nodal -> to_modal under the clip). *)
Theorem C05_whole_state_rest_isothermal_steady_moist {F : Type} {o : Ops F} {Fc : FieldC o}
        (g : @HGrid F) (c : @PEcfg F) (m : @Moist F) (grav T0 cst v00 q0 : F) (orog : nat -> nat -> F) (s : @State F) :
  cR c * T0 <> 0 -> cR c <> 0 -> 1 + (mRv m / cR c - 1) * q0 <> 0 ->
  (forall k, (k < cK c)%nat -> cTref c k = T0) ->
  (forall k a l, (k < cK c)%nat -> (a < hR g)%nat -> (l < hL g)%nat -> s_vort s k a l = 0) ->
  (forall k a l, (k < cK c)%nat -> (a < hR g)%nat -> (l < hL g)%nat -> s_div s k a l = 0) ->
  (forall k a l, (k < cK c)%nat -> (a < hR g)%nat -> (l < hL g)%nat -> s_temp s k a l = 0) ->
  (forall a l, (a < hR g)%nat -> (l < hL g)%nat ->
               s_lnps s a l = cst * onem00 v00 (a, l) - grav / (cR c * T0 * (1 + (mRv m / cR c - 1) * q0)) * orog a l) ->
  s_tr s <> [] ->
  (forall k i j, (k < cK c)%nat -> (i < hI g)%nat -> (j < hJ g)%nat -> to_nodal g (q_modal s k) i j = q0) ->
  (forall k i j, (k < cK c)%nat -> (i < hI g)%nat -> (j < hJ g)%nat ->
                 to_nodal g (fst (gradm g (q_modal s k))) i j = 0 /\ to_nodal g (snd (gradm g (q_modal s k))) i j = 0) ->
  (forall a l, (a < hR g)%nat -> (l < hL g)%nat -> lap_c g (toM_c g (fun _ => 1)) (a, l) = 0) ->
  (forall a l, (a < hR g)%nat -> (l < hL g)%nat ->
               clip_c g (toM_c g (lapn0 g s)) (a, l) = clip_c g (lap_c g (unc (s_lnps s))) (a, l)) ->
  forall k a l, (k < cK c)%nat -> (a < hR g)%nat -> (l < hL g)%nat ->
    let E := explicit_terms_full_moist g false c m grav orog s in
    let I := implicit_terms_full g c s in
    s_vort E k a l + s_vort I k a l = 0 /\
    s_temp E k a l + s_temp I k a l = 0 /\
    s_lnps E a l + s_lnps I a l = 0 /\
    s_div E k a l + s_div I k a l = grav / (1 + (mRv m / cR c - 1) * q0) * (lapm g orog a l - clipm g (lapm g orog) a l) /\
    ((l < hL g - 1)%nat -> s_div E k a l + s_div I k a l = 0).
Proof.
  intros. eapply whole_state_rest_isothermal_steady_moist; eassumption.
Qed.

(** non-vacuity: the zonal grid [rest_grid] over Qc (the (0,0)-only spectrum 1 synthesises to the constant one), K = 3, Rv/R = 3/2,
    q0 = 1/100, orography with content in every total wavenumber: every hypothesis holds on the index ranges, the implicit half is
    non-zero, the total divergence tendency vanishes at l = 1 and is the non-zero residual at the clipped l = 2 *)
Definition restm_moist : @Moist Qc := mkMoist (Q2Qc (3#7)) (Q2Qc (2#1)).
Definition restm_lnps (a l : nat) : Qc :=
  Q2Qc 3 * onem00 (Q2Qc 1) (a, l)
  - Q2Qc 9 / (cR ex_cfg * Q2Qc 250 * (1 + (mRv restm_moist / cR ex_cfg - 1) * Q2Qc (1#100))) * rest_orog a l.
Definition restm_state : @State Qc :=
  mkState (fun _ _ _ => 0) (fun _ _ _ => 0) (fun _ _ _ => 0) restm_lnps [fun _ a l => Q2Qc (1#100) * onem00 (Q2Qc 1) (a, l)].
Example C05_whole_state_rest_moist_hyps_satisfiable :
  let g := rest_grid in let s := restm_state in let q0 := Q2Qc (1#100) in
  let E := explicit_terms_full_moist g false ex_cfg restm_moist (Q2Qc 9) rest_orog s in
  let I := implicit_terms_full g ex_cfg s in
  1 + (mRv restm_moist / cR ex_cfg - 1) * q0 <> 0 /\ s_tr s <> [] /\
  (forall k i j, (k < cK ex_cfg)%nat -> (i < hI g)%nat -> (j < hJ g)%nat -> to_nodal g (q_modal s k) i j = q0) /\
  (forall k i j, (k < cK ex_cfg)%nat -> (i < hI g)%nat -> (j < hJ g)%nat ->
                 to_nodal g (fst (gradm g (q_modal s k))) i j = 0 /\ to_nodal g (snd (gradm g (q_modal s k))) i j = 0) /\
  (forall a l, (a < hR g)%nat -> (l < hL g)%nat -> lap_c g (toM_c g (fun _ => 1)) (a, l) = 0) /\
  (forall a l, (a < hR g)%nat -> (l < hL g)%nat ->
               clip_c g (toM_c g (lapn0 g s)) (a, l) = clip_c g (lap_c g (unc (s_lnps s))) (a, l)) /\
  s_div I 1%nat 0%nat 1%nat <> 0 /\ s_div E 1%nat 0%nat 1%nat + s_div I 1%nat 0%nat 1%nat = 0 /\
  s_div E 1%nat 0%nat 2%nat + s_div I 1%nat 0%nat 2%nat <> 0.
Proof.
  cbv zeta.
  split; [intro H; vm_compute in H; discriminate H|].
  split; [discriminate|].
  split; [intros k i j _; revert i j; apply rest_grid_nodes; apply Qc_is_canon; vm_compute; reflexivity|].
  split; [intros k i j _; revert i j; apply rest_grid_nodes; split; apply Qc_is_canon; vm_compute; reflexivity|].
  split; [apply rest_grid_coeffs; apply Qc_is_canon; vm_compute; reflexivity|].
  split; [apply rest_grid_coeffs; apply Qc_is_canon; vm_compute; reflexivity|].
  split; [intro H; vm_compute in H; discriminate H|].
  split; [apply Qc_is_canon; vm_compute; reflexivity|].
  intro H; vm_compute in H; discriminate H.
Qed.

(** the same with the uniform humidity given as a MODAL array (tracer 0 = q0 times the (0,0)-only spectrum v00 on the coefficient
    range): H_q_uniform and H_gradq_zero are DERIVED from H_one (the (0,0)-only spectrum v00 synthesises to the constant one - the
    table hypothesis of C04_whole_state_split_invariance); remaining table hypotheses: H_one, H_lap_one, H_lapn. *)
Theorem C05_whole_state_rest_isothermal_steady_moist_modal {F : Type} {o : Ops F} {Fc : FieldC o}
        (g : @HGrid F) (c : @PEcfg F) (m : @Moist F) (grav T0 cst v00 q0 : F) (orog : nat -> nat -> F) (s : @State F) :
  cR c * T0 <> 0 -> cR c <> 0 -> 1 + (mRv m / cR c - 1) * q0 <> 0 ->
  (forall k, (k < cK c)%nat -> cTref c k = T0) ->
  (forall k a l, (k < cK c)%nat -> (a < hR g)%nat -> (l < hL g)%nat -> s_vort s k a l = 0) ->
  (forall k a l, (k < cK c)%nat -> (a < hR g)%nat -> (l < hL g)%nat -> s_div s k a l = 0) ->
  (forall k a l, (k < cK c)%nat -> (a < hR g)%nat -> (l < hL g)%nat -> s_temp s k a l = 0) ->
  (forall a l, (a < hR g)%nat -> (l < hL g)%nat ->
               s_lnps s a l = cst * onem00 v00 (a, l) - grav / (cR c * T0 * (1 + (mRv m / cR c - 1) * q0)) * orog a l) ->
  s_tr s <> [] ->
  (forall k a l, (k < cK c)%nat -> (a < hR g)%nat -> (l < hL g)%nat -> q_modal s k a l = q0 * onem00 v00 (a, l)) ->
  (forall i j, (i < hI g)%nat -> (j < hJ g)%nat -> to_nodal g (cur (onem00 v00)) i j = 1) ->
  (forall a l, (a < hR g)%nat -> (l < hL g)%nat -> lap_c g (toM_c g (fun _ => 1)) (a, l) = 0) ->
  (forall a l, (a < hR g)%nat -> (l < hL g)%nat ->
               clip_c g (toM_c g (lapn0 g s)) (a, l) = clip_c g (lap_c g (unc (s_lnps s))) (a, l)) ->
  forall k a l, (k < cK c)%nat -> (a < hR g)%nat -> (l < hL g)%nat ->
    let E := explicit_terms_full_moist g false c m grav orog s in
    let I := implicit_terms_full g c s in
    s_vort E k a l + s_vort I k a l = 0 /\
    s_temp E k a l + s_temp I k a l = 0 /\
    s_lnps E a l + s_lnps I a l = 0 /\
    s_div E k a l + s_div I k a l = grav / (1 + (mRv m / cR c - 1) * q0) * (lapm g orog a l - clipm g (lapm g orog) a l) /\
    ((l < hL g - 1)%nat -> s_div E k a l + s_div I k a l = 0).
Proof.
  intros H1 H2 H3 H4 H5 H6 H7 H8 H9 Hq H_one.
  eapply whole_state_rest_isothermal_steady_moist; try eassumption.
  - intros k i j Hk. apply (uniform_nodal g v00 q0 H_one). intros a l. apply Hq, Hk.
  - intros k i j Hk _. apply (uniform_grad_nodal g v00 q0 H_one). intros a l. apply Hq, Hk.
Qed.

(** the two hypotheses it has in place of H_q_uniform and H_gradq_zero, on the instance of
    [C05_whole_state_rest_moist_hyps_satisfiable] (the others are shown there) *)
Example C05_whole_state_rest_moist_modal_hyps_satisfiable :
  (forall k a l, (k < cK ex_cfg)%nat -> (a < hR rest_grid)%nat -> (l < hL rest_grid)%nat ->
                 q_modal restm_state k a l = Q2Qc (1#100) * onem00 (Q2Qc 1) (a, l)) /\
  (forall i j, (i < hI rest_grid)%nat -> (j < hJ rest_grid)%nat -> to_nodal rest_grid (cur (onem00 (Q2Qc 1))) i j = 1).
Proof.
  split; [intros; reflexivity|].
  apply rest_grid_nodes; apply Qc_is_canon; vm_compute; reflexivity.
Qed.

(** * (B'') the EXECUTED dry whole-state model refines the specification at the modal layer: [C05_primeq_refines_spec] for
    explicit_terms_full + implicit_terms_full of the state (s0 with temperature variation temp1) under the reference profile T1,
    every in-range coefficient.  X = the ideal nodal columns of the state, T / Tm = absolute temperature (nodal / modal).
    Linearity and lap_const are discharged; remaining named exactness hypotheses are those of C04_whole_state_split_invariance:
    H_one, H_div_grad, H_curl_grad (table obligations of C04, satisfiable: C04_whole_state_hyps_satisfiable), and b_0 = 0. *)
Section C05_whole_refine.
  Context {F : Type} {o : Ops F} {Fc : FieldC o}.
  Variable g : @HGrid F.
  Variable c : @PEcfg F.
  Hypothesis b_top : cb c 0%nat = 0.
  Variable grav : F.
  Variable orog : nat -> nat -> F.
  Variable s0 : @State F.
  Variable temp1 : nat -> nat -> nat -> F.
  Variable T1 : nat -> F.
  Variable v00 : F.
  Hypothesis H_one : forall i j, (i < hI g)%nat -> (j < hJ g)%nat -> to_nodal g (cur (onem00 v00)) i j = 1.
  Notation X := (X_ideal g (cK c) s0).
  Notation T := (T_abs g c temp1 T1 v00).
  Notation Tm := (Tm_abs temp1 T1 v00).
  Hypothesis H_div_grad : forall w,
      clip_c g (divc_c g (toM_c g (fun p => n_gx (X p) * n_sec2 (X p))) (toM_c g (fun p => n_gy (X p) * n_sec2 (X p)))) w
      = lap_c g (unc (s_lnps s0)) w.
  Hypothesis H_curl_grad : forall w,
      clip_c g (curlc_c g (toM_c g (fun p => n_gx (X p) * n_sec2 (X p))) (toM_c g (fun p => n_gy (X p) * n_sec2 (X p)))) w = 0.

  Theorem C05_whole_state_refines_spec k a l :
    (k < cK c)%nat -> (a < hR g)%nat -> (l < hL g)%nat ->
    let E := explicit_terms_full g (with_tref c T1) grav orog (with_stemp s0 temp1) in
    let I := implicit_terms_full g (with_tref c T1) (with_stemp s0 temp1) in
    s_vort E k a l + s_vort I k a l
    = clip_c g (fun w' => - curlc_c g (toM_c g (fun p => spec_P Wi c X (rt_abs Wi c T) p k))
                                      (toM_c g (fun p => spec_Q Wi c X (rt_abs Wi c T) p k)) w') (a, l) /\
    s_div E k a l + s_div I k a l
    = clip_c g (fun w' => - divc_c g (toM_c g (fun p => spec_P Wi c X (rt_abs Wi c T) p k))
                                     (toM_c g (fun p => spec_Q Wi c X (rt_abs Wi c T) p k)) w'
                          - lap_c g (fun w2 => toM_c g (fun p => kinetic (X p) k) w2 + grav * unc orog w2) w') (a, l)
      - lap_c g (fun w' => geo_diff false c (fun k' => Tm k' w') k) (a, l).
  Proof. exact (whole_state_refines_spec g c b_top grav orog s0 temp1 T1 v00 H_one H_div_grad H_curl_grad k a l). Qed.

  (** PARTIAL (solid-body rotation, any gradient-wind balanced state).  Full statement wanted: the executed model has zero total
      tendency on the solid-body state of [C05_solid_body_steady].  Proved: if the clipped modal operators on the analysed
      specification quantities vanish at the coefficient (H_sb_vort, H_sb_div: what [C05_solid_body_steady] says of the continuous
      operators on the continuous fields) the executed total vorticity and divergence tendencies vanish there.  Missing:
      alias-freeness of the transforms on the products of the balanced state, the evaluation homomorphism from the differential ring
      to nodal values, and whole-state statements for temperature / lnps (column refinement + the solid-body oracle of the plugin). *)
  Theorem C05_whole_state_solid_body_steady_partial k a l :
    (k < cK c)%nat -> (a < hR g)%nat -> (l < hL g)%nat ->
    clip_c g (fun w' => - curlc_c g (toM_c g (fun p => spec_P Wi c X (rt_abs Wi c T) p k))
                                    (toM_c g (fun p => spec_Q Wi c X (rt_abs Wi c T) p k)) w') (a, l) = 0 ->
    clip_c g (fun w' => - divc_c g (toM_c g (fun p => spec_P Wi c X (rt_abs Wi c T) p k))
                                   (toM_c g (fun p => spec_Q Wi c X (rt_abs Wi c T) p k)) w'
                        - lap_c g (fun w2 => toM_c g (fun p => kinetic (X p) k) w2 + grav * unc orog w2) w') (a, l)
    - lap_c g (fun w' => geo_diff false c (fun k' => Tm k' w') k) (a, l) = 0 ->
    let E := explicit_terms_full g (with_tref c T1) grav orog (with_stemp s0 temp1) in
    let I := implicit_terms_full g (with_tref c T1) (with_stemp s0 temp1) in
    s_vort E k a l + s_vort I k a l = 0 /\ s_div E k a l + s_div I k a l = 0.
  Proof.
    intros Hk Ha Hl Hv Hd. cbv zeta.
    destruct (C05_whole_state_refines_spec k a l Hk Ha Hl) as (E1 & E2). cbv zeta in E1, E2.
    rewrite E1, E2. split; assumption.
  Qed.
End C05_whole_refine.

(** * (D) shallow water on the MODEL of shallow_water.py: explicit_terms (the assembly [Section SWAssembly] of Model/ShallowWater.v
    that [sw_explicit_terms] instantiates at the concrete operators) + implicit_terms (Model/Implicit.v [sw_implicit_terms]) are the
    clipped modal div / curl / laplacian of the analysed specification quantities of Model/PrimEqSpec.v (absolute-vorticity flux,
    pressure with the FULL weight matrix Rm = density ratios + identity, kinetic energy, mass flux of ref + pot), for abstract
    LINEAR horizontal operators with a diagonal laplacian, in the sense of [C05_primeq_refines_spec].
    Named exactness hypotheses (table obligations of the plugin): H_sw_pot_clip, H_sw_div_vel. *)
From Dino Require Import Model.ShallowWater.
Section C05_sw_model.
  Context {F : Type} {o : Ops F} {Fc : FieldC o}.
  Variables W P : Type.
  Variable toM : (P -> F) -> W -> F.
  Variable divc curlc : (W -> F) -> (W -> F) -> W -> F.
  Variable lap clip : (W -> F) -> W -> F.
  Hypothesis toM_lin : Thm.PrimEq.linear toM.
  Hypothesis divc_lin : Thm.PrimEq.linear2 divc.
  Hypothesis lap_lin : Thm.PrimEq.linear lap.
  Hypothesis clip_lin : Thm.PrimEq.linear clip.
  Variable N : nat.
  Variable dens : nat -> F.
  Variable X : P -> @SWCol F.
  Variable pot dive : nat -> W -> F.
  Variable orog : option (W -> F).
  Variable ref : nat -> F.
  Variable lam : W -> F.
  Hypothesis lap_diag : forall x w, lap x w = x w * lam w.

  Theorem C05_sw_model_refines_spec r w :
    (r < N)%nat ->
    clip (lap (pot r)) w = lap (pot r) w ->
    clip (divc (toM (fun p => s_u (X p) r * s_sec2 (X p))) (toM (fun p => s_v (X p) r * s_sec2 (X p)))) w = dive r w ->
    let imp := sw_implicit_terms (ref r) (lam w) (dive r w, pot r w) in
    sw_vort_explicit W P toM divc clip X r w + 0
    = clip (fun w' => - divc (toM (sw_flux_u P X r)) (toM (sw_flux_v P X r)) w') w /\
    sw_div_explicit W P toM curlc lap clip N dens X pot orog r w + fst imp
    = clip (fun w' => curlc (toM (sw_flux_u P X r)) (toM (sw_flux_v P X r)) w'
                      - lap (fun w2 => sumn N (fun j => sw_Rm dens r j * pot j w2) + sw_orog0 W orog w2 + toM (sw_kin P X r) w2) w') w /\
    sw_pot_explicit W P toM divc clip X r w + snd imp
    = clip (fun w' => - divc (toM (sw_mass_u P X ref r)) (toM (sw_mass_v P X ref r)) w') w.
  Proof. exact (sw_model_refines_spec W P toM divc curlc lap clip toM_lin divc_lin lap_lin clip_lin N dens X pot dive orog ref lam lap_diag r w). Qed.

  (** PARTIAL.  Full statement wanted: a state whose nodal fields are the balanced zonal jet of [C05_sw_polynomial_jet_steady] has zero
      total tendency.  Proved: under the exactness obligations H_sw_jet_vort / H_sw_jet_div / H_sw_jet_pot (the clipped modal operators
      on the analysed nodal specification quantities vanish, as the continuous operators do on the continuous jet by
      [C05_sw_polynomial_jet_steady]) the model's explicit + implicit tendency is zero.  Missing: the evaluation homomorphism from the
      differential ring to nodal values and alias-freeness on the jet's products (checked numerically as table obligations). *)
  Theorem C05_sw_model_jet_steady_partial r w :
    (r < N)%nat ->
    clip (lap (pot r)) w = lap (pot r) w ->
    clip (divc (toM (fun p => s_u (X p) r * s_sec2 (X p))) (toM (fun p => s_v (X p) r * s_sec2 (X p)))) w = dive r w ->
    clip (fun w' => - divc (toM (sw_flux_u P X r)) (toM (sw_flux_v P X r)) w') w = 0 ->
    clip (fun w' => curlc (toM (sw_flux_u P X r)) (toM (sw_flux_v P X r)) w'
                    - lap (fun w2 => sumn N (fun j => sw_Rm dens r j * pot j w2) + sw_orog0 W orog w2 + toM (sw_kin P X r) w2) w') w = 0 ->
    clip (fun w' => - divc (toM (sw_mass_u P X ref r)) (toM (sw_mass_v P X ref r)) w') w = 0 ->
    let imp := sw_implicit_terms (ref r) (lam w) (dive r w, pot r w) in
    sw_vort_explicit W P toM divc clip X r w + 0 = 0 /\
    sw_div_explicit W P toM curlc lap clip N dens X pot orog r w + fst imp = 0 /\
    sw_pot_explicit W P toM divc clip X r w + snd imp = 0.
  Proof.
    intros Hr Hpc Hdv Hv Hd Hp. cbv zeta.
    destruct (C05_sw_model_refines_spec r w Hr Hpc Hdv) as (E1 & E2 & E3). cbv zeta in E1, E2, E3.
    rewrite E1, E2, E3. auto.
  Qed.
End C05_sw_model.

(** the same for the EXECUTED shallow-water model: [sw_explicit_terms] of Model/ShallowWater.v (concrete transforms of Model/SHT.v,
    spectral operators of Model/Deriv.v, both layouts, every table set, any number of layers, orography or None) + the implicit terms.
    The linearity hypotheses and [lap_diag] of [C05_sw_model_refines_spec] are DISCHARGED for the concrete operators
    (sw_toM_lin, sw_divc_lin, sw_curlc_lin, sw_lap_lin, sw_clip_lin in Thm/SteadyFull.v); what remains are the two named exactness
    obligations H_sw_pot_clip, H_sw_div_vel at the coefficient in question. *)
Theorem C05_sw_concrete_refines_spec {F : Type} {o : Ops F} {Fc : FieldC o}
        (fast : bool) (R L I J N : nat) (f : nat -> nat -> F) (p : nat -> nat -> nat -> F) (wq : nat -> F) (rad : F) (wa wb : @arr2 F)
        (dens : nat -> F) (omega : F) (sinlat : nat -> F) (orog : option (@arr2 F)) (vort dive pot : nat -> @arr2 F) (ref : nat -> F)
        r (w : Wn) :
  let X := sw_cols_of_state fast R L I J N f p rad wa wb vort dive pot (sw_sec2 sinlat) (sw_coriolis omega sinlat) in
  let potw := fun k => sw_pk (pot k) in
  let orogw := option_map sw_pk orog in
  let toMs := sw_toM R L I J f p wq in
  let divs := sw_divc fast R L rad wa wb in
  let curls := sw_curlc fast R L rad wa wb in
  let laps := sw_lap L rad in
  let clips := sw_clip L in
  (r < N)%nat ->
  clips (laps (potw r)) w = laps (potw r) w ->
  clips (divs (toMs (fun q => s_u (X q) r * s_sec2 (X q))) (toMs (fun q => s_v (X q) r * s_sec2 (X q)))) w = sw_pk (dive r) w ->
  let E := sw_explicit_terms fast R L I J N f p wq rad wa wb dens omega sinlat orog vort dive pot in
  let imp := sw_implicit_terms (ref r) (lap_eig L rad (snd w)) (dive r (fst w) (snd w), pot r (fst w) (snd w)) in
  fst (fst E) r w + 0
  = clips (fun w' => - divs (toMs (sw_flux_u Wn X r)) (toMs (sw_flux_v Wn X r)) w') w /\
  snd (fst E) r w + fst imp
  = clips (fun w' => curls (toMs (sw_flux_u Wn X r)) (toMs (sw_flux_v Wn X r)) w'
                     - laps (fun w2 => sumn N (fun j => sw_Rm dens r j * potw j w2) + sw_orog0 Wn orogw w2
                                       + toMs (sw_kin Wn X r) w2) w') w /\
  snd E r w + snd imp
  = clips (fun w' => - divs (toMs (sw_mass_u Wn X ref r)) (toMs (sw_mass_v Wn X ref r)) w') w.
Proof.
  cbv zeta. intros Hr Hpc Hdv.
  exact (sw_model_refines_spec Wn Wn _ _ _ _ _ (sw_toM_lin R L I J f p wq) (sw_divc_lin fast R L rad wa wb)
           (sw_lap_lin L rad) (sw_clip_lin L) N dens _ (fun k => sw_pk (pot k)) (fun k => sw_pk (dive k)) (option_map sw_pk orog) ref
           (fun w0 => lap_eig L rad (snd w0)) (sw_lap_diag L rad) r w Hr Hpc Hdv).
Qed.

(** non-vacuity at the concrete operators: the zonal grid [rest_grid] (reference layout), two layers at rest with non-zero
    potentials: both obligations hold at the coefficient (0, 1) and the implicit divergence term is non-zero there *)
Definition swc_pot (k a l : nat) : Qc :=
  match a, l with O, O => Q2Qc 1 | O, S O => Q2Qc (inject_Z (Z.of_nat (S k)) / 3) | _, _ => 0 end.
Example C05_sw_concrete_hyps_satisfiable :
  let g := rest_grid in
  let zero := fun (_ _ _ : nat) => (0 : Qc) in
  let X := sw_cols_of_state false 1 3 1 2 2 (hf g) (hp g) (hr g) (ha g) (hb g) zero zero swc_pot (sw_sec2 (hsin g)) (sw_coriolis (Q2Qc (1#2)) (hsin g)) in
  let toMs := sw_toM 1 3 1 2 (hf g) (hp g) (hw g) in
  let divs := sw_divc false 1 3 (hr g) (ha g) (hb g) in
  let w := (0%nat, 1%nat) in
  sw_clip 3 (sw_lap 3 (hr g) (sw_pk (swc_pot 1))) w = sw_lap 3 (hr g) (sw_pk (swc_pot 1)) w /\
  sw_clip 3 (divs (toMs (fun q => s_u (X q) 1 * s_sec2 (X q))) (toMs (fun q => s_v (X q) 1 * s_sec2 (X q)))) w = sw_pk (zero 1%nat) w /\
  fst (sw_implicit_terms (Q2Qc (7#10)) (lap_eig 3 (hr g) 1) (zero 1%nat 0%nat 1%nat, swc_pot 1 0 1)) <> 0.
Proof.
  cbv zeta.
  split; [apply Qc_is_canon; vm_compute; reflexivity|].
  split; [apply Qc_is_canon; vm_compute; reflexivity|].
  intro H; vm_compute in H; discriminate H.
Qed.

(** non-vacuity of the shallow-water hypotheses: one coefficient / one node over Qc, to_modal = clip = identity, div(x,y) = x + y,
    laplacian = multiplication by -2, two layers with densities 1 and 3/2: the hypotheses hold and both implicit terms are non-zero *)
Definition sw_ex_col : @SWCol Qc :=
  mkSWCol (q3 [1#3; -(1#2)]%Q) (q3 [1#5; 1#7]%Q) (q3 [2#3; 1#4]%Q) (q3 [3#2; 5#4]%Q) (Q2Qc (4#3)) (Q2Qc (1#2)).
Example C05_sw_model_hyps_satisfiable :
  let X := fun _ : unit => sw_ex_col in
  let pot := fun (k : nat) (_ : unit) => q3 [3#2; 5#4]%Q k in
  let dive := fun (k : nat) (_ : unit) => s_u sw_ex_col k * s_sec2 sw_ex_col + s_v sw_ex_col k * s_sec2 sw_ex_col in
  let lam := fun _ : unit => Q2Qc (-(2#1)) in
  Thm.PrimEq.linear tI /\ Thm.PrimEq.linear2 tD /\ Thm.PrimEq.linear tL /\
  (forall x w, tL x w = x w * lam w) /\
  (forall r w, tI (tL (pot r)) w = tL (pot r) w) /\
  (forall r w, tI (tD (tI (fun p => s_u (X p) r * s_sec2 (X p))) (tI (fun p => s_v (X p) r * s_sec2 (X p)))) w = dive r w) /\
  fst (sw_implicit_terms (Q2Qc (7#10)) (lam tt) (dive 1%nat tt, pot 1%nat tt)) <> 0 /\
  snd (sw_implicit_terms (Q2Qc (7#10)) (lam tt) (dive 1%nat tt, pot 1%nat tt)) <> 0 /\
  sw_Rm (q3 [1; 3#2]%Q) 1 0 <> 0.
Proof.
  cbv zeta.
  split; [exact tI_lin|]. split; [exact tD_lin|]. split; [exact tL_lin|].
  split; [intros x []; unfold tL; cbn; ring|].
  split; [intros r w; reflexivity|].
  split; [intros r w; reflexivity|].
  split; [intro H; vm_compute in H; discriminate H|].
  split; [intro H; vm_compute in H; discriminate H|].
  intro H; vm_compute in H; discriminate H.
Qed.

Print Assumptions C05_rest_isothermal_steady.
Print Assumptions C05_primeq_column_refines_spec.
Print Assumptions C05_primeq_column_refines_spec_moist.
Print Assumptions C05_primeq_column_refines_momentum.
Print Assumptions C05_upwind_is_spec.
Print Assumptions C05_primeq_refines_spec.
Print Assumptions C05_primeq_refines_spec_modal_moist.
Print Assumptions C05_rest_isothermal_steady_moist.
Print Assumptions C05_flux_form_is_advective_form.
Print Assumptions C05_operators.
Print Assumptions C05_zonal_polynomial_derivative.
Print Assumptions C05_solid_body_steady.
Print Assumptions C05_sw_polynomial_jet_steady.
Print Assumptions C05_sw_solid_body_one_layer.
Print Assumptions C05_one_layer_formulas_balanced.
Print Assumptions C05_multi_layer_formulas_balanced.
Print Assumptions C05_differential_ring_instance.
Print Assumptions C05_solid_body_steady_series.
Print Assumptions C05_sw_solid_body_series.
Print Assumptions C05_rest_isothermal_steady_R.
Print Assumptions C05_hyps_satisfiable.
Print Assumptions C05_modal_hyps_satisfiable.
Print Assumptions C05_rest_moist_hyps_satisfiable.
Print Assumptions C05_model_is_source.
Print Assumptions C05_gen_primeq_complete.
Print Assumptions C05_whole_state_rest_isothermal_steady.
Print Assumptions C05_whole_state_rest_hyps_satisfiable.
Print Assumptions C05_sw_model_refines_spec.
Print Assumptions C05_sw_model_jet_steady_partial.
Print Assumptions C05_sw_model_hyps_satisfiable.
Print Assumptions C05_sw_concrete_refines_spec.
Print Assumptions C05_sw_concrete_hyps_satisfiable.
Print Assumptions C05_whole_state_rest_isothermal_steady_moist.
Print Assumptions C05_whole_state_rest_moist_hyps_satisfiable.
Print Assumptions C05_whole_state_refines_spec.
Print Assumptions C05_whole_state_solid_body_steady_partial.
Print Assumptions C05_whole_state_rest_isothermal_steady_moist_modal.
Print Assumptions C05_whole_state_rest_moist_modal_hyps_satisfiable.
