(** Property C17 - vertical interpolation is exact on affine data with the
    documented extrapolation; simple horizontal regridders.  The proofs are in
    Thm/Interp.v and Thm/InterpSrc.v.  Every theorem is for an arbitrary ordered
    field [F] (hence the reals), an arbitrary number n >= 2 of strictly
    increasing nodes, all data and ALL queries.

    [incr n X]    : X 0 < X 1 < ... < X (n-1)
    [interp_ref]  : jnp.interp (default path of [interp], [vertical_interpolation], [_vertical_interp])
    [dot_interp]  : [_dot_interp] (accelerator / matrix path)
    [lin_extrap]  : [linear_interp_with_linear_extrap]
    [safe_extrap k] : [_linear_interp_with_safe_extrap(n=k)], [None] = NaN
    [segj X Y j x]: the chord through nodes j, j+1 evaluated at x. *)
From Dino Require Import Base.Ops Base.Sums Base.Inst Base.Ord Model.Interp Thm.Interp.
From Coq Require Import Reals Qcanon Lra.
From Dino Require Import Model.ArrDSL Gen.InterpSrc Thm.InterpSrc.
Local Open Scope F_scope.

Section C17.
  Context {F : Type} {o : Ops F} {Oc : OrdFieldC o}.
  Variables (n : nat) (X : nat -> F).
  Hypothesis Hn : (2 <= n)%nat.
  Hypothesis Hinc : incr n X.

  Theorem C17_interp_at_nodes Y j : (j < n)%nat -> interp_ref n X Y (X j) = Y j.
  Proof. exact (interp_at_nodes n X Hn Hinc Y j). Qed.

  (** agreement with the reference piecewise-linear interpolant on every closed cell
      (the bracket chosen by the search at a tie does not matter) *)
  Theorem C17_interp_ref_on_segment Y j x :
    (S j < n)%nat -> fle (X j) x -> fle x (X (S j)) -> interp_ref n X Y x = segj X Y j x.
  Proof. exact (interp_ref_on_segment n X Hn Hinc Y j x). Qed.

  Theorem C17_interp_affine_exact Y a c x :
    (forall i, (i < n)%nat -> Y i = a * X i + c) ->
    fle (X 0%nat) x -> fle x (X (n - 1)%nat) -> interp_ref n X Y x = a * x + c.
  Proof. exact (interp_affine_exact n X Hn Hinc Y a c x). Qed.

  Theorem C17_interp_between_neighbours Y j x :
    (S j < n)%nat -> fle (X j) x -> fle x (X (S j)) ->
    fle (fmin (Y j) (Y (S j))) (interp_ref n X Y x) /\
    fle (interp_ref n X Y x) (fmax (Y j) (Y (S j))).
  Proof. exact (interp_between_neighbours n X Hn Hinc Y j x). Qed.

  (** the accelerator (matrix) path equals the default path for every query:
      below, at a node, inside, at the last node, above *)
  Theorem C17_dot_interp_eq_ref Y x : dot_interp n X Y x = interp_ref n X Y x.
  Proof. exact (dot_interp_eq_ref n X Hn Hinc Y x). Qed.

  (** unlimited linear extrapolation: first / last chord continued, reference interpolant inside *)
  Theorem C17_linear_extrap_formula Y x :
    (flt x (X 0%nat) -> lin_extrap n X Y x = segj X Y 0 x) /\
    (fle (X (n - 1)%nat) x -> lin_extrap n X Y x = segj X Y (n - 2) x) /\
    (fle (X 0%nat) x -> fle x (X (n - 1)%nat) -> lin_extrap n X Y x = interp_ref n X Y x).
  Proof. exact (linear_extrap_formula n X Hn Hinc Y x). Qed.

  Theorem C17_lin_extrap_affine_exact Y a c x :
    (forall i, (i < n)%nat -> Y i = a * X i + c) -> lin_extrap n X Y x = a * x + c.
  Proof. exact (lin_extrap_affine_exact n X Hn Hinc Y a c x). Qed.

  (** safe extrapolation, completely: on the CLOSED window
      [X 0 - k (X 1 - X 0), X (n-1) + k (X (n-1) - X (n-2))] it is the linearly
      extrapolating interpolant, strictly beyond it is missing *)
  Theorem C17_safe_extrap_char k Y x :
    safe_extrap k n X Y x = if in_window k n X x then Some (lin_extrap n X Y x) else None.
  Proof. exact (safe_extrap_char n X Hn Hinc k Y x). Qed.

  Theorem C17_safe_extrap_window k Y x :
    (flt x (win_lo k X) \/ flt (win_hi k n X) x -> safe_extrap k n X Y x = None) /\
    (fle (win_lo k X) x -> fle x (win_hi k n X) -> safe_extrap k n X Y x = Some (lin_extrap n X Y x)) /\
    (fle (X 0%nat) x -> fle x (X (n - 1)%nat) -> safe_extrap k n X Y x = Some (interp_ref n X Y x)).
  Proof. exact (safe_extrap_window n X Hn Hinc k Y x). Qed.

  Theorem C17_safe_extrap_affine_exact k Y a c x :
    (forall i, (i < n)%nat -> Y i = a * X i + c) ->
    fle (win_lo k X) x -> fle x (win_hi k n X) -> safe_extrap k n X Y x = Some (a * x + c).
  Proof. exact (safe_extrap_affine_exact n X Hn Hinc k Y a c x). Qed.
End C17.

Section C17_wrappers.
  Context {F : Type} {o : Ops F} {Oc : OrdFieldC o}.

  (** pressure -> sigma -> pressure of a column affine in pressure (P: pressure
      centers, sigma: sigma centers, sp: surface pressure; intermediate sigma
      levels may be missing): a returned number is the original value; ... *)
  Theorem C17_roundtrip_partial nP nS (P sigma fld : nat -> F) sp a c j :
    (2 <= nP)%nat -> (2 <= nS)%nat -> incr nP P -> incr nS sigma -> sp <> 0 ->
    (forall i, (i < nP)%nat -> fld i = a * P i + c) -> (j < nP)%nat ->
    roundtrip_p_s_p nP nS P sigma fld sp j = None \/
    roundtrip_p_s_p nP nS P sigma fld sp j = Some (fld j).
  Proof. intros H1 H2 H3 H4 H5 H6. exact (roundtrip_partial nP nS P sigma fld sp a c H1 H2 H3 H4 H5 H6 j). Qed.

  (** ... it is returned on the doubly covered range; ... *)
  Theorem C17_roundtrip_defined nP nS (P sigma fld : nat -> F) sp a c j :
    (2 <= nP)%nat -> (2 <= nS)%nat -> incr nP P -> incr nS sigma -> sp <> 0 ->
    (forall i, (i < nP)%nat -> fld i = a * P i + c) -> (j < nP)%nat ->
    (forall k, (k < nS)%nat -> in_window 1 nP P (sigma k * sp) = true) ->
    in_window 1 nS sigma (P j / sp) = true ->
    roundtrip_p_s_p nP nS P sigma fld sp j = Some (fld j).
  Proof. intros H1 H2 H3 H4 H5 H6. exact (roundtrip_defined nP nS P sigma fld sp a c H1 H2 H3 H4 H5 H6 j). Qed.

  (** ... and missing outside the safe window of the sigma levels. *)
  Theorem C17_roundtrip_outside nP nS (P sigma fld : nat -> F) sp j :
    (2 <= nS)%nat -> in_window 1 nS sigma (P j / sp) = false ->
    roundtrip_p_s_p nP nS P sigma fld sp j = None.
  Proof. intros H2. exact (roundtrip_outside nP nS P sigma fld sp H2 j). Qed.

  (** surface pressure: the code interpolates pressure as a function of
      relative height (g*orography - geopotential) at 0, with unlimited linear
      extrapolation.  With i the selected bracket, p lies on the chord of the
      levels and the geopotential chord over the same two levels equals g*oro at p. *)
  Theorem C17_surface_pressure_on_segment n (L phi : nat -> F) (oro g : F) :
    (2 <= n)%nat -> incr n (rel_height phi oro g) ->
    (forall i, (S i < n)%nat -> L (S i) - L i <> 0) ->
    let i := bracket n (rel_height phi oro g) 0 in
    let p := surface_pressure n L phi oro g in
    p = seg (rel_height phi oro g) L i 0 /\ seg L phi i p = oro * g.
  Proof. exact (surface_pressure_on_segment n L phi oro g). Qed.

  (** hence: the piecewise-linear (linearly extrapolated below ground / above the
      top) geopotential profile, evaluated at the returned pressure, is g*orography *)
  Theorem C17_surface_pressure_is_intercept n (L phi : nat -> F) (oro g : F) :
    (2 <= n)%nat -> incr n (rel_height phi oro g) -> incr n L ->
    lin_extrap n L phi (surface_pressure n L phi oro g) = oro * g.
  Proof. exact (surface_pressure_is_intercept n L phi oro g). Qed.

  Theorem C17_bilinear_constants nlon nlat lonS latS (f : nat -> nat -> F) lonT latT c a b :
    (2 <= nlon)%nat -> (2 <= nlat)%nat -> incr nlon lonS -> incr nlat latS ->
    (forall i j, (i < nlon)%nat -> (j < nlat)%nat -> f i j = c) ->
    bilinear nlon nlat lonS latS f lonT latT a b = c.
  Proof. exact (bilinear_constants nlon nlat lonS latS f lonT latT c a b). Qed.

  Theorem C17_bilinear_identity_same_grid nlon nlat lonS latS (f : nat -> nat -> F) a b :
    (2 <= nlon)%nat -> (2 <= nlat)%nat -> incr nlon lonS -> incr nlat latS ->
    (a < nlon)%nat -> (b < nlat)%nat ->
    bilinear nlon nlat lonS latS f lonS latS a b = f a b.
  Proof. exact (bilinear_identity_same_grid nlon nlat lonS latS f a b). Qed.

  Theorem C17_nearest_constants (idx : nat -> nat) (f : nat -> F) N c t :
    (forall i, (i < N)%nat -> f i = c) -> (idx t < N)%nat -> nearest idx f t = c.
  Proof. exact (nearest_constants idx f N c t). Qed.

  (** given that the neighbour index of a point of the same grid is itself (table obligation) *)
  Theorem C17_nearest_identity_same_grid (idx : nat -> nat) (f : nat -> F) t :
    idx t = t -> nearest idx f t = f t.
  Proof. exact (nearest_identity_same_grid idx f t). Qed.
End C17_wrappers.

Lemma incr_R n (X : nat -> R) : (forall i, (S i < n)%nat -> (X i < X (S i))%R) -> incr n X.
Proof. intros H i Hi. apply flt_R. now apply H. Qed.

Theorem C17_interp_between_neighbours_R (n : nat) (X Y : nat -> R) j x :
  (2 <= n)%nat -> (forall i, (S i < n)%nat -> (X i < X (S i))%R) ->
  (S j < n)%nat -> (X j <= x <= X (S j))%R ->
  (Rmin (Y j) (Y (S j)) <= interp_ref n X Y x <= Rmax (Y j) (Y (S j)))%R.
Proof.
  intros Hn Hinc Hj [A B].
  destruct (interp_between_neighbours n X Hn (incr_R n X Hinc) Y j x Hj) as [L U]; try (apply fle_R; assumption).
  rewrite fmin_R in L. rewrite fmax_R in U. split; apply fle_R; assumption.
Qed.

Lemma nsc_R k (d : R) : @nsc R ROps k d = (INR k * d)%R.
Proof.
  induction k as [|k IH].
  - cbn. lra.
  - rewrite S_INR. cbn [nsc]. rewrite IH. cbn. lra.
Qed.

Theorem C17_dot_interp_eq_ref_R (n : nat) (X Y : nat -> R) (x : R) :
  (2 <= n)%nat -> (forall i, (S i < n)%nat -> (X i < X (S i))%R) ->
  dot_interp n X Y x = interp_ref n X Y x.
Proof. intros Hn H. exact (dot_interp_eq_ref n X Hn (incr_R n X H) Y x). Qed.

(** the documented window over the reals, end points included *)
Theorem C17_safe_extrap_window_R (n k : nat) (X Y : nat -> R) (x : R) :
  (2 <= n)%nat -> (forall i, (S i < n)%nat -> (X i < X (S i))%R) ->
  let lo := (X 0%nat - INR k * (X 1%nat - X 0%nat))%R in
  let hi := (X (n - 1)%nat + INR k * (X (n - 1)%nat - X (n - 2)%nat))%R in
  ((lo <= x <= hi)%R -> safe_extrap k n X Y x = Some (lin_extrap n X Y x)) /\
  ((x < lo \/ hi < x)%R -> safe_extrap k n X Y x = None).
Proof.
  intros Hn H lo hi.
  destruct (safe_extrap_window n X Hn (incr_R n X H) k Y x) as (W0 & W1 & _).
  assert (El : @win_lo R ROps k X = lo) by (unfold win_lo, lo; rewrite nsc_R; reflexivity).
  assert (Eh : @win_hi R ROps k n X = hi) by (unfold win_hi, hi; rewrite nsc_R; reflexivity).
  rewrite El, Eh in *. split.
  - intros [A B]. apply W1; apply fle_R; assumption.
  - intros [A|A]; apply W0; [left|right]; apply flt_R; assumption.
Qed.

(** Non-vacuity: the hypotheses are met by concrete uneven instances over Qc
    (4 pressure levels, 3 sigma levels, a monotone geopotential column). *)
Example C17_hyps_satisfiable :
  let q := fun l (k : nat) => Q2Qc (nth k l 0%Q) in
  let P := q [100; 200; 350; 400]%Q in
  let sigma := q [1#4; 1#2; 7#8]%Q in
  let phi := q [50; 30; 20; 5]%Q in
  let sp := Q2Qc 400 in
  incr 4 P /\ incr 3 sigma /\ sp <> 0 /\
  incr 4 (rel_height phi (Q2Qc 3) (Q2Qc 10)) /\
  (forall k, (k < 3)%nat -> in_window 1 4 P (sigma k * sp) = true) /\
  (forall j, (j < 4)%nat -> in_window 1 3 sigma (P j / sp) = true) /\
  safe_extrap 1 4 P phi (Q2Qc 450) = Some (Q2Qc (-10)) /\
  safe_extrap 1 4 P phi (Q2Qc 451) = None.
Proof.
  cbv zeta. repeat apply conj.
  - intros i Hi. destruct i as [|[|[|i]]]; try lia; vm_compute; reflexivity.
  - intros i Hi. destruct i as [|[|i]]; try lia; vm_compute; reflexivity.
  - intro H. discriminate H.
  - intros i Hi. destruct i as [|[|[|i]]]; try lia; vm_compute; reflexivity.
  - intros k Hk. destruct k as [|[|[|k]]]; try lia; vm_compute; reflexivity.
  - intros j Hj. destruct j as [|[|[|[|j]]]]; try lia; vm_compute; reflexivity.
  - vm_compute. reflexivity.
  - vm_compute. reflexivity.
Qed.

(** The model is the source: the array programs of dinosaur/vertical_interpolation.py, transcribed
    from the AST on every run (Gen/InterpSrc.v, tools/translate/gen_interp.py) into the array DSL of
    Model/ArrDSL.v with LENGTH-CHECKED elementwise operations, have the lengths and the entries /
    values of the hand-written Model/Interp.v, for every node count n = m + 2 >= 2, all nodes, data
    (without missing values) and queries, and every number k of extrapolation rounds.
    [safe_extrap_xp_src] / [safe_extrap_fp_src] are the loop of _linear_interp_with_safe_extrap applied to
    the nodes / the data; its final jnp.interp(.., left=nan, right=nan) is pinned textually by the
    translator (jnp.interp semantics are trusted: [interp_nan]). *)
Theorem C17_model_is_source {F : Type} {o : Ops F} {Fc : FieldC o}
    (m k nh : nat) (xpf fpf y lev phi ha hb : nat -> F) (x oro g sp : F) :
  let n := S (S m) in
  dot_interp_src x (n, xpf) (n, fpf) = dot_interp n xpf fpf x /\
  linear_interp_with_linear_extrap_src x (n, xpf) (n, fpf) = lin_extrap n xpf fpf x /\
  (fst (extrapolate_left_src (n, y)) = S n /\
   forall i, (i < S n)%nat -> snd (extrapolate_left_src (n, y)) i = extr_left eLF y i) /\
  (fst (extrapolate_right_src (n, y)) = S n /\
   forall i, (i < S n)%nat -> snd (extrapolate_right_src (n, y)) i = extr_right eRF n y i) /\
  (fst (extrapolate_both_src (n, y)) = S (S n) /\
   forall i, (i < S (S n))%nat -> snd (extrapolate_both_src (n, y)) i = extr_both eLF eRF n y i) /\
  ((fst (safe_extrap_xp_src k (n, y)) = (n + 2 * k)%nat /\
    forall i, (i < n + 2 * k)%nat -> snd (safe_extrap_xp_src k (n, y)) i = pad_x k n y i) /\
   (fst (safe_extrap_fp_src k (n, y)) = (n + 2 * k)%nat /\
    forall i, (i < n + 2 * k)%nat -> snd (safe_extrap_fp_src k (n, y)) i = pad_x k n y i)) /\
  surface_pressure_src (n, lev) (n, phi) oro g = surface_pressure n lev phi oro g /\
  (fst (hyb_sigma_boundaries_src (S nh, ha) (S nh, hb) sp) = S nh /\
   forall i, snd (hyb_sigma_boundaries_src (S nh, ha) (S nh, hb) sp) i = hyb_sigma_boundaries ha hb sp i) /\
  (fst (hyb_sigma_centers_src (S nh, ha) (S nh, hb) sp) = nh /\
   forall i, (i < nh)%nat -> snd (hyb_sigma_centers_src (S nh, ha) (S nh, hb) sp) i = hyb_sigma_centers ha hb sp i).
Proof.
  intros n.
  split; [exact (dot_interp_matches m xpf fpf x)|].
  split; [exact (lin_extrap_matches m xpf fpf x)|].
  assert (Hn : (2 <= n)%nat) by (unfold n; lia).
  split; [exact (extrapolate_left_matches _ n y Hn (SigmaSrc.tab_pair n y))|].
  split; [exact (extrapolate_right_matches _ n y Hn (SigmaSrc.tab_pair n y))|].
  split; [exact (extrapolate_both_matches _ n y Hn (SigmaSrc.tab_pair n y))|].
  split; [exact (safe_extrap_matches k _ n y Hn (SigmaSrc.tab_pair n y))|].
  split; [exact (surface_pressure_matches m lev phi oro g)|].
  split; [exact (hyb_sigma_boundaries_matches (S nh) ha hb sp)|].
  exact (hyb_sigma_centers_matches nh ha hb sp).
Qed.

(** the translator understood every statement it is meant to transcribe (fail closed), and the
    documented default number of extrapolation cells is 1 *)
Theorem C17_gen_interp_complete : gen_interp_ok = true /\ safe_extrap_default_n = 1%nat.
Proof. split; reflexivity. Qed.

Print Assumptions C17_interp_at_nodes.
Print Assumptions C17_interp_ref_on_segment.
Print Assumptions C17_interp_affine_exact.
Print Assumptions C17_interp_between_neighbours.
Print Assumptions C17_interp_between_neighbours_R.
Print Assumptions C17_dot_interp_eq_ref.
Print Assumptions C17_linear_extrap_formula.
Print Assumptions C17_lin_extrap_affine_exact.
Print Assumptions C17_safe_extrap_char.
Print Assumptions C17_safe_extrap_window.
Print Assumptions C17_safe_extrap_affine_exact.
Print Assumptions C17_roundtrip_partial.
Print Assumptions C17_roundtrip_defined.
Print Assumptions C17_roundtrip_outside.
Print Assumptions C17_surface_pressure_on_segment.
Print Assumptions C17_surface_pressure_is_intercept.
Print Assumptions C17_bilinear_constants.
Print Assumptions C17_bilinear_identity_same_grid.
Print Assumptions C17_nearest_constants.
Print Assumptions C17_nearest_identity_same_grid.
Print Assumptions C17_dot_interp_eq_ref_R.
Print Assumptions C17_safe_extrap_window_R.
Print Assumptions C17_hyps_satisfiable.
Print Assumptions C17_model_is_source.
Print Assumptions C17_gen_interp_complete.
