(** Property C19 - persistence and restructuring round trips lose nothing.
    The proofs are in Thm/Trees.v and Thm/Attrs.v.  Nested dictionaries: any depth
    and width, any key names (character-code lists, the empty string included)
    that do not contain the one-character separator, any number of empty
    sub-dictionaries.  Arrays: any leaf sizes along the packing axis, any slab
    type.  Spectral arrays: any sizes, any carrier with a zero. *)
From Coq Require Import ZArith List Bool Lia Permutation.
Import ListNotations.
From Dino Require Import Base.Ops Base.Ord Model.Trees Thm.Trees Model.Attrs Thm.Attrs.

(** flatten_dict accepts every well-formed dictionary and unflatten_dict gives
    back a dictionary that Python's [==] identifies with the input (both
    argument orders of [==]) *)
Theorem C19_unflatten_flatten (sep : Z) (d : dict) :
  wf_dict sep d = true ->
  exists flat empties r,
    flatten_dict sep [] d = Some (flat, empties) /\
    unflatten_dict sep flat empties = Some r /\
    tree_eqb (Node r) (Node d) = true /\ tree_eqb (Node d) (Node r) = true.
Proof. exact (unflatten_flatten sep d). Qed.

(** the same, as "what is found at every key path" (leaf value / dictionary / nothing) *)
Theorem C19_unflatten_flatten_paths (sep : Z) (d : dict) :
  wf_dict sep d = true ->
  exists flat empties r,
    flatten_dict sep [] d = Some (flat, empties) /\
    unflatten_dict sep flat empties = Some r /\
    forall q, view q (Node r) = view q (Node d).
Proof. exact (unflatten_flatten_views sep d). Qed.

(** [==] on dictionaries with unique keys is exactly "same content at every path" *)
Theorem C19_dict_eq_is_pathwise (t1 t2 : tree) :
  ndt t1 -> ndt t2 ->
  (tree_eqb t1 t2 = true <-> forall q, view q t1 = view q t2).
Proof.
  intros N1 N2. split; [now apply tree_eqb_views|now apply views_eq_tree_eqb].
Qed.

(** the other direction: a flat dictionary plus a tuple of empty keys whose
    keys are pairwise distinct and prefix-consistent (no key path is a prefix of
    another) is recovered by flatten_dict after unflatten_dict, up to order *)
Theorem C19_flatten_unflatten (sep : Z) (flat : list (str * Z)) (empties : list str) :
  NoDup (map fst flat ++ empties) ->
  PF (flat_entries sep flat empties) ->
  exists r flat' empties',
    unflatten_dict sep flat empties = Some r /\
    flatten_dict sep [] r = Some (flat', empties') /\
    Permutation flat' flat /\ Permutation empties' empties.
Proof. exact (flatten_unflatten sep flat empties). Qed.

(** replace_with_matching_or_default returns the structure of [x]: the same
    dictionaries (empty ones included) and a leaf wherever [x] has a leaf *)
Theorem C19_replace_structure (x repl : dict) (default : Z) (chk : bool) (r : dict) :
  wf_dict amp x = true ->
  replace_with_matching_or_default x repl default chk = Some r ->
  forall q, match view q (Node x) with
            | Some (Some _) => exists v, view q (Node r) = Some (Some v)
            | o => view q (Node r) = o
            end.
Proof. exact (replace_structure x repl default chk r). Qed.

Theorem C19_unpack_pack {A} (leaves : list (list A)) packed :
  pack_pytree leaves = Some packed ->
  unpack_to_pytree packed (map (@length A) leaves) = Some leaves.
Proof. exact (unpack_pack leaves packed). Qed.

Theorem C19_unstack_stack {A} (leaves : list A) stacked :
  stack_pytree leaves = Some stacked -> unstack_to_pytree stacked (length leaves) = Some leaves.
Proof. exact (unstack_stack leaves stacked). Qed.

Theorem C19_concat_split {A} (i : Z) (inputs : list (list A)) :
  concat_along_axis [fst (split_along_axis i inputs); snd (split_along_axis i inputs)] = Some inputs.
Proof. exact (concat_split i inputs). Qed.

(** split_axis(keep_dims=True) gives one pytree per index and concat_along_axis
    of those pytrees is the input (all leaves of size n >= 1 along the axis) *)
Theorem C19_split_axis_concat {A} (inputs : list (list A)) (n : nat) :
  inputs <> [] -> (1 <= n)%nat -> Forall (fun a => length a = n) inputs ->
  exists trees, split_axis_keep inputs = Some trees /\ length trees = n /\
                concat_along_axis trees = Some inputs.
Proof. exact (split_axis_concat inputs n). Qed.

Theorem C19_empty_pytree {A} : @pack_pytree A [] = None /\ @stack_pytree A [] = None.
Proof. exact pack_empty. Qed.

(** spectral up-sampling then down-sampling is the identity; up-sampling keeps
    every coefficient at its (m, l) index and writes exact zeros elsewhere *)
Section Spectral.
  Context {F : Type} {o : Ops F}.

  Theorem C19_down_up_identity (Mw Lw Mw' Lw' M L M' L' : nat) (x y : list (list F)) :
    length x = M -> Forall (fun row => length row = L) x ->
    (Mw <= Mw')%nat -> (Lw <= Lw')%nat ->
    upsample f0 M L M' L' x = Some y ->
    downsample Mw' Lw' Mw Lw M L y = Some x.
  Proof. exact (downsample_upsample f0 Mw Lw Mw' Lw' M L M' L' x y). Qed.

  Theorem C19_upsample_coef (M L M' L' : nat) (x y : list (list F)) m l :
    length x = M -> Forall (fun row => length row = L) x ->
    upsample f0 M L M' L' x = Some y ->
    coef f0 y m l = (if Nat.ltb m M && Nat.ltb l L then coef f0 x m l else f0) /\
    length y = M' /\ Forall (fun row => length row = L') y.
  Proof. exact (upsample_spec f0 M L M' L' x y m l). Qed.
End Spectral.

Section Dims.
Local Open Scope Z_scope.
(** For an admissible coordinate system (boolean predicate [admissible]: the
    number of layers is not 1, nodal and modal horizontal shapes differ, both
    have two axes) and no user-supplied extra coordinates, the table that
    data_to_xarray uses is exactly the documented one, with the sample/time
    prefix: *)
Theorem C19_dims_table_documented (K : Z) (modal nodal : shape) (times samples : option Z) :
  admissible K modal nodal = true ->
  exists M1 M2 N1 N2, modal = [M1; M2] /\ nodal = [N1; N2] /\
  xarray_table K modal nodal times samples [] =
    Some (map (update_shape_dims times samples false) (documented K M1 M2 N1 N2)).
Proof. exact (xarray_table_documented K modal nodal times samples). Qed.

(** ... hence the eight documented roles have pairwise different shapes, each
    role's shape receives exactly its documented names (same rank as the
    shape), and every accepted shape is one of the roles. *)
Theorem C19_dims_inference_injective (K : Z) (modal nodal : shape) (times samples : option Z) :
  admissible K modal nodal = true ->
  exists M1 M2 N1 N2, modal = [M1; M2] /\ nodal = [N1; N2] /\
    let doc := documented K M1 M2 N1 N2 in
    NoDup (map fst doc) /\
    (forall sh d, In (sh, d) doc ->
       dims_of K modal nodal times samples [] (pre_s times samples ++ sh) = Some (Some (pre_d times samples ++ d)) /\
       length d = length sh) /\
    (forall sh dd, dims_of K modal nodal times samples [] sh = Some (Some dd) ->
       exists sh0 d0, In (sh0, d0) doc /\ sh = pre_s times samples ++ sh0 /\ dd = pre_d times samples ++ d0).
Proof. exact (dims_inference_injective K modal nodal times samples). Qed.

(** Outside the predicate the table does collide (both replayed on the
    implementation by the plugin): with one layer every 3-d nodal field
    (1, lon, lat) is given the two names (lon, lat); with equal nodal and modal
    shapes a 2-d field is labelled modal while 3-d fields are labelled nodal. *)
Theorem C19_dims_one_layer_refuted (M1 M2 N1 N2 : Z) (times samples : option Z) :
  dims_of 1 [M1; M2] [N1; N2] times samples [] (pre_s times samples ++ [1; N1; N2])
  = Some (Some (pre_d times samples ++ NODAL)).
Proof. exact (dims_one_layer_refuted M1 M2 N1 N2 times samples). Qed.

Theorem C19_dims_nodal_eq_modal_refuted (K N1 N2 : Z) (times samples : option Z) :
  K <> 1 ->
  dims_of K [N1; N2] [N1; N2] times samples [] (pre_s times samples ++ [N1; N2])
    = Some (Some (pre_d times samples ++ MODAL)) /\
  dims_of K [N1; N2] [N1; N2] times samples [] (pre_s times samples ++ [K; N1; N2])
    = Some (Some (pre_d times samples ++ d_level :: NODAL)) /\
  dims_of K [N1; N2] [N1; N2] times samples [] (pre_s times samples ++ [1; N1; N2])
    = Some (Some (pre_d times samples ++ d_surface :: NODAL)).
Proof. exact (dims_nodal_eq_modal_refuted K N1 N2 times samples). Qed.

End Dims.

(** coordinate system -> attrs -> coordinate system: every field that defines the discretisation is restored: wavenumbers, node
    counts, latitude spacing, longitude offset, radius, the vertical class and
    its boundaries / layers / centers.  Exactly two fields are dropped: the
    spherical-harmonics implementation class (reset to RealSphericalHarmonics)
    and the mesh (reset to None) - see [restored]. *)
Theorem C19_attrs_roundtrip {F : Type} {o : Ops F} (tol0 tol1 : F) (g : grid) (v : vertical) :
  grid_ok g = true -> vertical_ok tol0 tol1 v = true ->
  exists a, cs_asdict g v = Some a /\ from_attrs tol0 tol1 a = Some (restored g, Some v).
Proof. exact (attrs_roundtrip tol0 tol1 g v). Qed.

(** the hypotheses are satisfiable: a T21-like system with 8 layers is
    admissible; a gauss grid with uneven sigma levels passes the constructors *)
Example C19_attrs_hyps_satisfiable :
  admissible 8 [43; 23]%Z [64; 32]%Z = true /\ admissible 1 [43; 23]%Z [64; 32]%Z = false /\
  admissible 8 [7; 5]%Z [7; 5]%Z = false /\
  let g := @mkGrid Q 22%Z 23%Z 64%Z 32%Z [103; 97; 117; 115; 115]%Z (1 # 10)%Q 6371%Q default_impl None in
  grid_ok g = true /\
  @vertical_ok Q QOps (1 # 100000000) (1001 # 100000000) (VSigma [0; 1 # 3; 9 # 10; 1]%Q) = true /\
  @vertical_ok Q QOps (1 # 100000000) (1001 # 100000000) (VPressure [50; 500; 850]%Q) = true.
Proof. vm_compute. repeat split; reflexivity. Qed.

(** Non-vacuity: a non-trivial dictionary satisfies the precondition, i.e.
    {'ab': {}, 'ac': {}, '': {'a': 1, '': {}}, 'a': {'b': {'c': 2, 'd': {}}, 'bc': 3}, 'b': 4}
    with sep = '&' (38); letters a=97 b=98 c=99 d=100 *)
Definition C19_example_dict : dict :=
  [ ([97; 98], Node []); ([97; 99], Node []);
    ([], Node [([97], Leaf 1); ([], Node [])]);
    ([97], Node [([98], Node [([99], Leaf 2); ([100], Node [])]); ([98; 99], Leaf 3)]);
    ([98], Leaf 4) ]%Z.

Example C19_hyps_satisfiable :
  wf_dict 38 C19_example_dict = true /\
  flatten_dict 38 [] C19_example_dict =
    Some ([([38; 97], 1); ([97; 38; 98; 38; 99], 2); ([97; 38; 98; 99], 3); ([98], 4)],
          [[97; 98]; [97; 99]; [38]; [97; 38; 98; 38; 100]])%Z /\
  (* a key containing the separator is rejected *)
  flatten_dict 38 [] [([97; 38; 98], Leaf 1)]%Z = None /\
  wf_dict 38 [([97; 38; 98], Leaf 1)]%Z = false.
Proof. vm_compute. repeat split; reflexivity. Qed.

(** regression instances of the two repaired defects, and a prefix-consistent flat dictionary:
    {'ab': {}, 'ac': {}} and {'': {'a': 1}, 'a': 2} are accepted and round-trip;
    flat = {'a&b': 1, 'c': 2}, empty = ('a&d',) satisfies the hypotheses of C19_flatten_unflatten *)
Example C19_regressions :
  flatten_dict 38 [] [([97; 98], Node []); ([97; 99], Node [])]%Z = Some ([], [[97; 98]; [97; 99]])%Z /\
  flatten_dict 38 [] [([], Node [([97], Leaf 1)]); ([97], Leaf 2)]%Z = Some ([([38; 97], 1); ([97], 2)], [])%Z /\
  unflatten_dict 38 [([38; 97], 1); ([97], 2)]%Z [] = Some [([], Node [([97], Leaf 1)]); ([97], Leaf 2)]%Z /\
  NoDup (map fst [([97; 38; 98], 1); ([99], 2)] ++ [[97; 38; 100]])%Z /\
  PF (flat_entries 38 [([97; 38; 98], 1); ([99], 2)] [[97; 38; 100]])%Z.
Proof.
  repeat split; try (vm_compute; reflexivity).
  - repeat constructor; cbn; intuition discriminate.
  - intros e1 e2 H1 H2. cbn in H1, H2.
    destruct H1 as [<-|[<-|[<-|[]]]], H2 as [<-|[<-|[<-|[]]]]; (now left) || (now right).
Qed.

(** the hypotheses of C19_replace_structure are met:
    x = {'a': {'b': 1, 'e': {}}, 'c': 2}, replace = {'a': {'b': 7}}, default -1 *)
Example C19_replace_example :
  let x := [([97], Node [([98], Leaf 1); ([101], Node [])]); ([99], Leaf 2)]%Z in
  let rep := [([97], Node [([98], Leaf 7)])]%Z in
  wf_dict amp x = true /\
  replace_with_matching_or_default x rep (-1) true =
    Some [([97], Node [([98], Leaf 7); ([101], Node [])]); ([99], Leaf (-1))]%Z /\
  (* an unused replace key is rejected when the check is on *)
  replace_with_matching_or_default x [([122], Leaf 0)]%Z (-1) true = None.
Proof. vm_compute. repeat split; reflexivity. Qed.

Print Assumptions C19_unflatten_flatten.
Print Assumptions C19_unflatten_flatten_paths.
Print Assumptions C19_dict_eq_is_pathwise.
Print Assumptions C19_flatten_unflatten.
Print Assumptions C19_replace_structure.
Print Assumptions C19_unpack_pack.
Print Assumptions C19_unstack_stack.
Print Assumptions C19_concat_split.
Print Assumptions C19_split_axis_concat.
Print Assumptions C19_empty_pytree.
Print Assumptions C19_down_up_identity.
Print Assumptions C19_upsample_coef.
Print Assumptions C19_dims_table_documented.
Print Assumptions C19_dims_inference_injective.
Print Assumptions C19_dims_one_layer_refuted.
Print Assumptions C19_dims_nodal_eq_modal_refuted.
Print Assumptions C19_attrs_roundtrip.
Print Assumptions C19_attrs_hyps_satisfiable.
Print Assumptions C19_hyps_satisfiable.
Print Assumptions C19_regressions.
Print Assumptions C19_replace_example.
