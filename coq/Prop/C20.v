(** Property C20 - physical forcings are bounded, periodic and dissipative.
    Proofs are in Thm/Forcings.v; what concerns the constants of the source and
    the instance of the Held-Suarez rates at Coq's [R] is derived here.

    Solar radiation: statements over the reals with Coq's [cos], [sin], [PI],
    for all orbital/daily phases, longitudes and latitudes (no restriction on
    the latitude is needed), all mean irradiances S and variations V with
    0 <= V <= S; the constants of the source (Gen/Constants.v, regenerated on
    every run) are shown to satisfy this.
    Held-Suarez: statements for every ordered field (hence the reals), every
    grid (operators as arbitrary matrices), every state and parameter set with
    the stated signs.

    NOT proved: "the global mean equals one quarter of the instantaneous solar
    constant up to quadrature error" (an integral over the sphere of
    max(0, .)); it is explored numerically against Grid.integrate by
    tools/props/C20.py. *)
From Dino Require Import Base.Ops Base.Sums Base.Inst Base.Ord Gen.Constants Model.Forcings Thm.Forcings.
From Coq Require Import Reals Qcanon Lra Qreals.
Local Open Scope F_scope.

(** the translator understood the source, and the source formulas are the model's *)
Theorem C20_gen_constants_complete : gen_constants_ok = true.
Proof. reflexivity. Qed.

Section C20_any_field.
  Context {F : Type} {o : Ops F} {Fc : FieldC o}.
  Variables (cosf sinf : F -> F) (pi : F).

  Theorem C20_source_formulas_match_model op syn lon lat S V p :
    gen_get_direct_solar_irradiance cosf sinf pi op S V p = direct_solar_irradiance cosf op S V p /\
    gen_get_declination cosf sinf pi op = declination sinf pi op /\
    gen_equation_of_time cosf sinf pi op = equation_of_time cosf sinf pi op /\
    gen_get_hour_angle cosf sinf pi op syn lon = hour_angle cosf sinf pi op syn lon /\
    gen_get_solar_sin_altitude cosf sinf pi op syn lon lat = solar_sin_altitude cosf sinf pi op syn lon lat /\
    gen_get_radiation_flux cosf sinf pi op syn lon lat S V = radiation_flux cosf sinf pi S V op syn lon lat.
  Proof.
    split; [apply gen_irradiance_ok|]. split; [apply gen_declination_ok|].
    split; [apply gen_equation_of_time_ok|]. split; [apply gen_hour_angle_ok|].
    split; [apply gen_sin_altitude_ok|apply gen_radiation_flux_ok].
  Qed.

  (** exact zero at night in any field (the mask is a 0 factor, not a small number) *)
  Theorem C20_flux_zero_at_night_any_field S V op syn lon lat :
    fleb (solar_sin_altitude cosf sinf pi op syn lon lat) 0 = true ->
    radiation_flux cosf sinf pi S V op syn lon lat = 0.
  Proof. intros H. unfold radiation_flux. now apply flux_of_night. Qed.
End C20_any_field.

Notation Rsinalt := (@solar_sin_altitude R ROps cos sin PI).
Notation Rflux := (@radiation_flux R ROps cos sin PI).
Notation Rnflux := (@normalized_radiation_flux R ROps cos sin PI).
Notation Rsrflux := (@solar_radiation_flux R ROps cos sin PI).
Notation S0 := (@TOTAL_SOLAR_IRRADIANCE R ROps PI).
Notation V0 := (@SOLAR_IRRADIANCE_VARIATION R ROps PI).

Lemma Q2R_le_of_bool (p q : Q) : Qle_bool p q = true -> (Q2R p <= Q2R q)%R.
Proof. intros H. apply Qle_Rle. now apply Qle_bool_iff. Qed.

Theorem C20_source_constants_ordered : (0 <= V0 <= S0)%R.
Proof.
  unfold TOTAL_SOLAR_IRRADIANCE, SOLAR_IRRADIANCE_VARIATION. rewrite !fofQ_R.
  split.
  - replace 0%R with (Q2R 0) by (unfold Q2R; cbn; lra). apply Q2R_le_of_bool. reflexivity.
  - apply Q2R_le_of_bool. reflexivity.
Qed.

Theorem C20_sin_altitude_le_1 op syn lon lat : (-1 <= Rsinalt op syn lon lat <= 1)%R.
Proof. exact (sin_altitude_bounds op syn lon lat). Qed.

Theorem C20_flux_nonneg S V op syn lon lat : (0 <= V -> V <= S -> 0 <= Rflux S V op syn lon lat)%R.
Proof. exact (flux_nonneg S V op syn lon lat). Qed.

Theorem C20_flux_le_perihelion S V op syn lon lat : (0 <= V -> V <= S -> Rflux S V op syn lon lat <= S + V)%R.
Proof. exact (flux_le_perihelion S V op syn lon lat). Qed.

(** with the constants of the source, in any non-negative unit scale [k]
    ([SolarRadiation] nondimensionalises S and V by the same factor) *)
Theorem C20_flux_bounds_source_constants k op syn lon lat :
  (0 <= k -> 0 <= Rflux (k * S0) (k * V0) op syn lon lat <= k * (S0 + V0))%R.
Proof.
  intros Hk. destruct C20_source_constants_ordered as [H0 H1].
  assert (A : (0 <= k * V0)%R) by now apply Rmult_le_pos.
  assert (B : (k * V0 <= k * S0)%R) by now apply Rmult_le_compat_l.
  replace (k * (S0 + V0))%R with (k * S0 + k * V0)%R by ring. now apply flux_bounds.
Qed.

Theorem C20_flux_zero_at_night S V op syn lon lat :
  (Rsinalt op syn lon lat <= 0)%R -> Rflux S V op syn lon lat = 0%R.
Proof. exact (flux_zero_at_night S V op syn lon lat). Qed.

Theorem C20_flux_pos_by_day S V op syn lon lat :
  (0 <= V -> V < S -> 0 < Rsinalt op syn lon lat -> 0 < Rflux S V op syn lon lat)%R.
Proof. exact (flux_pos_by_day S V op syn lon lat). Qed.

Theorem C20_flux_periodic S V op syn lon lat (n m : Z) :
  Rflux S V (op + IZR n * (2 * PI))%R (syn + IZR m * (2 * PI))%R lon lat = Rflux S V op syn lon lat.
Proof. exact (flux_periodic S V op syn lon lat n m). Qed.

(** [SolarRadiation.radiation_flux]: the phase reduction is invisible ... *)
Theorem C20_flux_wrap_invariant S V ref_o ref_s rate_o rate_s t n_o n_s lon lat :
  Rsrflux S V ref_o ref_s rate_o rate_s t n_o n_s lon lat
  = Rflux S V (ref_o + rate_o * t)%R (ref_s + rate_s * t)%R lon lat.
Proof. exact (flux_wrap_invariant S V ref_o ref_s rate_o rate_s t n_o n_s lon lat). Qed.

(** ... and the flux is periodic in model time *)
Theorem C20_flux_time_periodic S V ref_o ref_s rate_o rate_s t T (a b : Z) n_o n_s n_o' n_s' lon lat :
  (rate_o * T = IZR a * (2 * PI))%R -> (rate_s * T = IZR b * (2 * PI))%R ->
  Rsrflux S V ref_o ref_s rate_o rate_s (t + T)%R n_o' n_s' lon lat
  = Rsrflux S V ref_o ref_s rate_o rate_s t n_o n_s lon lat.
Proof. exact (flux_time_periodic S V ref_o ref_s rate_o rate_s t T a b n_o n_s n_o' n_s' lon lat). Qed.

Theorem C20_normalized_in_unit_interval S V op syn lon lat :
  (0 <= V -> V <= S -> 0 < S + V -> 0 <= Rnflux S V op syn lon lat <= 1)%R.
Proof. exact (normalized_in_unit_interval S V op syn lon lat). Qed.

Theorem C20_normalized_is_scaled S V op syn lon lat :
  (S + V <> 0)%R -> Rnflux S V op syn lon lat = (Rflux S V op syn lon lat / (S + V))%R.
Proof. exact (normalized_is_scaled S V op syn lon lat). Qed.

Section C20_HS.
  Context {F : Type} {o : Ops F} {Oc : OrdFieldC o}.

  Theorem C20_hs_kv_nonneg (P : HSParams F) s : fle 0 (hp_kf P) -> fle 0 (hs_kv P s).
  Proof. exact (hs_kv_nonneg P s). Qed.

  Theorem C20_hs_kv_zero_above_boundary_layer (P : HSParams F) s :
    flt (hp_sigma_b P) 1 -> fle s (hp_sigma_b P) -> hs_kv P s = 0.
  Proof. exact (hs_kv_zero_above_boundary_layer P s). Qed.

  Theorem C20_hs_kt_ge_ka (P : HSParams F) s cl :
    flt 0 (hp_ka P) -> fle (hp_ka P) (hp_ks P) -> fle (hp_ka P) (hs_kt P s cl) /\ flt 0 (hs_kt P s cl).
  Proof. intros H0 H. split; [now apply hs_kt_ge_ka|now apply hs_kt_pos]. Qed.

  Theorem C20_hs_kt_le_ks (P : HSParams F) s cl :
    fle (hp_ka P) (hp_ks P) -> flt (hp_sigma_b P) 1 -> fle s 1 -> fle (cl * cl) 1 ->
    fle (hs_kt P s cl) (hp_ks P).
  Proof. exact (hs_kt_le_ks P s cl). Qed.

  Theorem C20_hs_teq_ge_minT (P : HSParams F) pk logp cl sl : fle (hp_minT P) (hs_teq P pk logp cl sl).
  Proof. exact (hs_teq_ge_minT P pk logp cl sl). Qed.

  (** what is coded: the drag goes through the wind. Vorticity and divergence
      tendencies are minus the level's friction rate times the round trip
      (vor, div) -> cos(lat) u,v -> nodal -> / cos^2 -> modal -> curl, div ... *)
  Theorem C20_hs_drag_through_wind (G : HSGrid F) P sigma (vor div : nat -> F) i :
    hs_vorticity_tendency G P sigma vor div i = (- hs_kv P sigma) * roundtrip_vor G vor div i /\
    hs_divergence_tendency G P sigma vor div i = (- hs_kv P sigma) * roundtrip_div G vor div i.
  Proof. split; [apply hs_vorticity_tendency_linear|apply hs_divergence_tendency_linear]. Qed.

  (** ... so, where that round trip is the identity (table obligation
      H_uv_roundtrip), the tendencies are -kv(sigma) * (vor, div) *)
  Theorem C20_hs_drag_linear (G : HSGrid F) P sigma (vor div : nat -> F) i :
    roundtrip_vor G vor div i = vor i -> roundtrip_div G vor div i = div i ->
    hs_vorticity_tendency G P sigma vor div i = (- hs_kv P sigma) * vor i /\
    hs_divergence_tendency G P sigma vor div i = (- hs_kv P sigma) * div i.
  Proof. exact (hs_drag_linear G P sigma vor div i). Qed.

  (** no drag above the boundary layer, for every state (no round-trip hypothesis) *)
  Theorem C20_hs_drag_zero_above_boundary_layer (G : HSGrid F) P sigma (vor div : nat -> F) i :
    flt (hp_sigma_b P) 1 -> fle sigma (hp_sigma_b P) ->
    hs_vorticity_tendency G P sigma vor div i = 0 /\ hs_divergence_tendency G P sigma vor div i = 0.
  Proof. exact (hs_drag_zero_above_boundary_layer G P sigma vor div i). Qed.

  Theorem C20_hs_temperature_tendency_is_relaxation (G : HSGrid F) P sigma tref (tv pk logp : nat -> F) i :
    hs_temperature_tendency G P sigma tref tv pk logp i
    = matop (g_nn G) (g_toM G)
            (fun p => (- hs_kt P sigma (g_cosl G p)) *
                      ((tref + matop (g_nm G) (g_toN G) tv p)
                       - hs_teq P (pk p) (logp p) (g_cosl G p) (g_sinl G p))) i.
  Proof. exact (hs_temperature_tendency_is_relaxation G P sigma tref tv pk logp i). Qed.

  (** pointwise dissipation: the tendencies oppose the departure / the wind *)
  Theorem C20_hs_nodal_dissipative kt kv tref tvar teq cu cl :
    fle 0 kt -> fle 0 kv -> cl <> 0 ->
    fle (((tref + tvar) - teq) * hs_nodal_temperature_tendency kt tref tvar teq) 0 /\
    fle (cu * hs_nodal_velocity_tendency kv cu cl) 0.
  Proof.
    intros H1 H2 H3. split; [now apply hs_nodal_temperature_relaxes|now apply hs_nodal_velocity_damped].
  Qed.

  Theorem C20_hs_lnps_tendency_zero (lnps : nat -> F) i : hs_log_surface_pressure_tendency lnps i = 0.
  Proof. exact (hs_lnps_tendency_zero lnps i). Qed.
End C20_HS.

(** Over the reals, with cos(latitude), p^kappa and log p as the code uses them. *)
Theorem C20_hs_rates_R (P : HSParams R) (sigma lat ps kappa : R) :
  (0 <= hp_kf P -> 0 < hp_ka P <= hp_ks P -> hp_sigma_b P < 1 -> sigma <= 1 ->
   let p := hs_p_over_p0 P sigma ps in
   0 <= hs_kv P sigma /\
   (sigma <= hp_sigma_b P -> hs_kv P sigma = 0) /\
   hp_ka P <= hs_kt P sigma (cos lat) <= hp_ks P /\
   hp_minT P <= hs_teq P (Rpower p kappa) (ln p) (cos lat) (sin lat))%R.
Proof.
  intros Hkf [Hka Hks] Hb Hs p.
  assert (Hc : (cos lat * cos lat <= 1)%R).
  { pose proof (sin2_cos2 lat) as H. pose proof (Rle_0_sqr (sin lat)) as H2. unfold Rsqr in *. lra. }
  apply fle_R in Hkf, Hks, Hs, Hc. apply flt_R in Hb. rewrite <- !fle_R.
  split; [now apply (hs_kv_nonneg (Oc := ROrd))|].
  split; [intros Hs2; now apply (hs_kv_zero_above_boundary_layer (Oc := ROrd))|].
  split; [split; [now apply (hs_kt_ge_ka (Oc := ROrd))|now apply (hs_kt_le_ks (Oc := ROrd))]|].
  apply (hs_teq_ge_minT (Oc := ROrd)).
Qed.

(** the sun is below the horizon somewhere and above it somewhere at every
    instant (uses the generated obliquity: |declination| < pi/2) *)
Example C20_night_and_day_exist op syn :
  (exists lon, Rsinalt op syn lon 0 <= 0)%R /\ (exists lon, 0 < Rsinalt op syn lon 0)%R.
Proof. exact (night_and_day_exist op syn). Qed.

(** the Held-Suarez hypotheses hold for the default parameters of the source
    (per-day rates) on a concrete (degenerate one-mode) grid over Qc, where
    the round-trip hypothesis holds too *)
Definition hs_defaults_Qc : HSParams Qc :=
  mkHSParams (Q2Qc hs_default_p0_Q) (Q2Qc hs_default_sigma_b_Q) (Q2Qc hs_default_kf_Q)
             (Q2Qc hs_default_ka_Q) (Q2Qc hs_default_ks_Q) (Q2Qc hs_default_minT_Q)
             (Q2Qc hs_default_maxT_Q) (Q2Qc hs_default_dTy_Q) (Q2Qc hs_default_dThz_Q).

Example C20_hs_hyps_satisfiable :
  let P := hs_defaults_Qc in
  let one := fun _ _ : nat => Q2Qc 1 in let zero := fun _ _ : nat => Q2Qc 0 in
  let G := mkHSGrid Qc 1 1 one one one zero zero one one zero zero one (fun _ => Q2Qc 1) (fun _ => Q2Qc 0) in
  let vor := fun _ : nat => Q2Qc (3 # 1) in let div := fun _ : nat => Q2Qc (-5 # 7) in
  fle 0 (hp_kf P) /\ flt 0 (hp_ka P) /\ fle (hp_ka P) (hp_ks P) /\ flt (hp_sigma_b P) 1 /\
  flt 0 (hp_minT P) /\ fle (hp_minT P) (hp_maxT P) /\
  roundtrip_vor G vor div 0%nat = vor 0%nat /\ roundtrip_div G vor div 0%nat = div 0%nat /\
  hs_vorticity_tendency G P (Q2Qc (17 # 20)) vor div 0%nat = - (Q2Qc (1 # 2)) * vor 0%nat.
Proof. cbv zeta. repeat split; vm_compute; reflexivity. Qed.

Print Assumptions C20_gen_constants_complete.
Print Assumptions C20_source_formulas_match_model.
Print Assumptions C20_flux_zero_at_night_any_field.
Print Assumptions C20_source_constants_ordered.
Print Assumptions C20_sin_altitude_le_1.
Print Assumptions C20_flux_nonneg.
Print Assumptions C20_flux_le_perihelion.
Print Assumptions C20_flux_bounds_source_constants.
Print Assumptions C20_flux_zero_at_night.
Print Assumptions C20_flux_pos_by_day.
Print Assumptions C20_flux_periodic.
Print Assumptions C20_flux_wrap_invariant.
Print Assumptions C20_flux_time_periodic.
Print Assumptions C20_normalized_in_unit_interval.
Print Assumptions C20_normalized_is_scaled.
Print Assumptions C20_hs_kv_nonneg.
Print Assumptions C20_hs_kv_zero_above_boundary_layer.
Print Assumptions C20_hs_kt_ge_ka.
Print Assumptions C20_hs_kt_le_ks.
Print Assumptions C20_hs_teq_ge_minT.
Print Assumptions C20_hs_drag_through_wind.
Print Assumptions C20_hs_drag_linear.
Print Assumptions C20_hs_drag_zero_above_boundary_layer.
Print Assumptions C20_hs_temperature_tendency_is_relaxation.
Print Assumptions C20_hs_nodal_dissipative.
Print Assumptions C20_hs_lnps_tendency_zero.
Print Assumptions C20_hs_rates_R.
Print Assumptions C20_night_and_day_exist.
Print Assumptions C20_hs_hyps_satisfiable.
