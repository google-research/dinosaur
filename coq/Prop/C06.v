(** Property C06 - IMEX integrators reach their design order and never amplify
    stiff linear modes.  The proofs are in Thm/Integrators*.v; the non-vacuity instances
    (the reals have characteristic 0, the pairs are a module) are proved here.  Every
    coefficient is the one of Gen/Tableaux.v, which is re-translated from
    dinosaur/time_integration.py on every run.

    Formalised: the order conditions on the generated coefficients, the Taylor
    coefficients of the linear multiplier, the reductions, A-stability for all z, the
    length validations, and (section NonlinearOrder) the ORDER ITSELF for nonlinear F:
    the step functions of the model, run at the carrier "truncated power series in h",
    reproduce the Taylor series of the exact flow of the scalar problem
    u' = F(u) + g u with symbolic u0, g, F^(j)(u0)/j! over every field of characteristic
    0, up to the design order and not beyond.
    Cited, not formalised (Butcher; Kennedy and Carpenter): that for SYSTEMS
    (vector-valued elementary differentials) the same tree conditions suffice; the
    scalar problem separates all conditions of the orders claimed here (see the
    header of Thm/IntegratorsOrder.v). *)
From Dino Require Import Base.Ops Base.Sums Base.Inst Gen.Tableaux Model.Integrators
  Thm.Integrators Thm.IntegratorsStab Thm.IntegratorsArk Thm.IntegratorsSil3
  Model.SeriesH Thm.IntegratorsOrder.
From Coq Require Import Reals Qreals Qabs Lra.

(** the translator understood every construct it had to read (fail-closed switch) *)
Theorem C06_gen_complete : gen_complete = true.
Proof. exact gen_complete_ok. Qed.

(** ** Order conditions ([..._ok eps t]: every listed residual has |.| <= eps; eps = 0: exact).
    Tableaux: hand-derived Butcher forms of the two directly coded schemes, Butcher
    forms computed by [lowstorage_to_butcher] from the generated alphas/betas/gammas,
    and the generated SIL3 tableau. *)
Theorem C06_order_euler :
  additive_order1_ok 0 euler_tab = true /\ additive_order2_ok 0 euler_tab = false.
Proof. exact order_euler. Qed.

Theorem C06_order_cn_rk2 :
  additive_order2_ok 0 rk2_tab = true /\
  additive_order3_ok 0 rk2_tab = false /\ explicit_order3_tall_ok 0 rk2_tab = false.
Proof. exact order_cn_rk2. Qed.

Theorem C06_order_cn_rk3 :
  additive_order2_ok 0 rk3_tab = true /\ explicit_order3_ok 0 rk3_tab = true /\
  additive_order3_ok 0 rk3_tab = false /\ explicit_order4_ok 0 rk3_tab = false.
Proof. exact order_cn_rk3. Qed.

Theorem C06_order_cn_rk4 :
  additive_order2_ok eps13 rk4_tab = true /\
  explicit_order3_ok eps13 rk4_tab = true /\ explicit_order4_ok eps13 rk4_tab = true /\
  coupling_bIcEcE_ok (1 # 1000) rk4_tab = false /\
  explicit_order5_bushy_ok (1 # 100000) rk4_tab = false.
Proof. exact order_cn_rk4. Qed.

Theorem C06_order_sil3 :
  additive_order2_ok 0 sil3_tab = true /\
  explicit_order3_tall_ok 0 sil3_tab = true /\ explicit_order3_bushy_ok 0 sil3_tab = false /\
  explicit_order4_tall_ok 0 sil3_tab = false /\ additive_order3_ok 0 sil3_tab = false.
Proof. exact order_sil3. Qed.

(** meaning of the deciders: a list of residuals passes iff each one is within eps *)
Theorem C06_order_decider_sound (eps : Q) (l : list Q) :
  all_within eps l = true <-> Forall (fun x => Qabs x <= eps)%Q l.
Proof. exact (all_within_spec eps l). Qed.

Theorem C06_rk4_near_carpenter_kennedy :
  let eps := (6 # 10000000000000)%Q in
  close_lists eps rk4_betas ck_A = true /\ close_lists eps rk4_gammas ck_B = true /\
  close_lists eps rk4_alphas ck_c = true.
Proof. exact rk4_near_carpenter_kennedy. Qed.

(** ** Linear right-hand sides F u = a u, G u = b u: the step functions of the model
    run in the truncated power-series algebra Q[[x,y]] (x = dt a, y = dt b); the
    coefficient of x^i y^j of the one-step multiplier equals 1/(i! j!) up to the
    design order, and not beyond.
    (Full statement "for every commutative ring and all scalars a, b the multiplier
    is the rational function with this expansion" needs the evaluation homomorphism
    Q[[x,y]] -> germs, which is not formalised: the series run *is* the expansion
    because the step only uses ring operations and inverses of units 1 - eta y.) *)
Theorem C06_linear_taylor_series :
  let E := ser_exp 1 in
  (taylor_upto 0 1 ser_euler E = true /\ taylor_upto 0 2 ser_euler E = false) /\
  (taylor_upto 0 2 ser_rk2 E = true /\ taylor_x_upto 0 3 ser_rk2 E = false) /\
  (taylor_upto 0 2 ser_rk3 E = true /\ taylor_x_upto 0 3 ser_rk3 E = true /\
   taylor_upto 0 3 ser_rk3 E = false /\ taylor_x_upto 0 4 ser_rk3 E = false) /\
  (taylor_upto eps13 2 ser_rk4 E = true /\ taylor_x_upto eps13 4 ser_rk4 E = true /\
   taylor_upto (1 # 100000) 3 ser_rk4 E = false /\ taylor_x_upto (1 # 100000) 5 ser_rk4 E = false) /\
  (is_some_ser ser_sil3 = true /\
   taylor_upto 0 2 (some_ser ser_sil3) E = true /\ taylor_x_upto 0 3 (some_ser ser_sil3) E = true /\
   taylor_upto 0 3 (some_ser ser_sil3) E = false /\ taylor_x_upto 0 4 (some_ser ser_sil3) E = false).
Proof. exact linear_taylor_series. Qed.

Theorem C06_leapfrog_second_order_series :
  taylor_upto 0 2 (ser_leapfrog leapfrog_alpha_default) (ser_exp 1) = true /\
  taylor_upto 0 3 (ser_leapfrog leapfrog_alpha_default) (ser_exp 1) = false /\
  taylor_upto 0 1 (ser_leapfrog 1) (ser_exp 1) = true /\
  taylor_upto 0 2 (ser_leapfrog 1) (ser_exp 1) = false.
Proof. exact leapfrog_second_order_series. Qed.

(** ** Reduction to the underlying explicit / implicit method: any carrier, any
    module V over it with x + 0 = x and c.0 = 0, any operators. *)
Section Reduction.
  Context {F : Type} {o : Ops F} {V : Type} {vo : VOps F V}.
  Hypothesis vadd_0_r : forall x : V, vadd x vzero = x.
  Hypothesis vscal_0 : forall c : F, vscal c (vzero : V) = vzero.
  Variable Fx G : V -> V.
  Variable Ginv : V -> F -> V.

  (** G = 0 and G_inv = id: forward Euler / Heun / the explicit 2N low-storage
      Runge-Kutta scheme with the same betas, gammas (every list length) *)
  Theorem C06_reduces_to_explicit dt u :
    euler_step Fx (fun x _ => x) dt u = vadd u (vscal dt (Fx u)) /\
    cn_rk2_step Fx (fun _ => vzero) (fun x _ => x) dt u =
      (let k1 := Fx u in let k2 := Fx (vadd u (vscal dt k1)) in
       vadd u (vscal dt (vscal half (vadd k2 k1)))) /\
    forall be ga al h, length al = S (length be) ->
      ls_loop Fx (fun _ => vzero) (fun x _ => x) dt al be ga h u = ls_explicit_loop Fx dt be ga h u.
  Proof.
    split; [|split].
    - exact (euler_reduces_to_explicit Fx dt u).
    - exact (cn_rk2_reduces_to_explicit vadd_0_r vscal_0 Fx dt u).
    - intros be ga al h Hl. exact (ls_reduces_to_explicit vadd_0_r vscal_0 Fx dt be ga al h u Hl).
  Qed.

  (** F = 0: backward Euler / one Crank-Nicolson step / the chain of Crank-Nicolson
      substeps of sizes dt (alpha_{k+1} - alpha_k) *)
  Theorem C06_reduces_to_implicit dt u :
    euler_step (fun _ => vzero) Ginv dt u = backward_euler_step Ginv dt u /\
    cn_rk2_step (fun _ => vzero) G Ginv dt u = cn_substep G Ginv (fmul half dt) u /\
    forall be ga al, length be = length ga -> length al = S (length be) ->
      ls_step (fun _ => vzero) G Ginv dt al be ga u = cn_chain G Ginv dt al u.
  Proof.
    split; [|split].
    - exact (euler_reduces_to_implicit vadd_0_r vscal_0 Ginv dt u).
    - exact (cn_rk2_reduces_to_implicit vadd_0_r vscal_0 G Ginv dt u).
    - intros be ga al Hg Hl. exact (ls_reduces_to_implicit vadd_0_r vscal_0 G Ginv dt be ga al u Hg Hl).
  Qed.
End Reduction.

(** ** The interpreter of `imex_runge_kutta` (skipping zero coefficients, evaluating
    F(Y_i), G(Y_i) only when a later coefficient needs them) never fails and computes
    the additive Runge-Kutta step in Butcher form: every tableau (all shapes and
    sizes), every carrier whose zero test is sound, every module with x + 0 = x and
    0.x = 0, all operators F, G, G_inv, all step sizes. *)
Section ImexIsArk.
  Context {F : Type} {o : Ops F} {V : Type} {vo : VOps F V}.
  Hypothesis nz_false_zero : forall c : F, nz c = false -> c = f0.
  Hypothesis vadd_0_r : forall x : V, vadd x vzero = x.
  Hypothesis vscal_0_l : forall x : V, vscal f0 x = vzero.
  Theorem C06_imex_is_ark (Fx G : V -> V) (Ginv : V -> F -> V) dt a_ex a_im b_ex b_im y0 :
    imex_step Fx G Ginv dt a_ex a_im b_ex b_im y0 = Some (ark_step Fx G Ginv dt a_ex a_im b_ex b_im y0).
  Proof. exact (imex_is_ark nz_false_zero vadd_0_r vscal_0_l Fx G Ginv dt a_ex a_im b_ex b_im y0). Qed.
End ImexIsArk.

(** ** The step functions are additive Runge-Kutta steps in Butcher form.
    Any field of scalars, any module over it, ARBITRARY (nonlinear) F and G; the only
    hypothesis on G_inv is that y = G_inv(x, eta) solves y = x + eta G(y), i.e.
    (1 - eta G) y = x (linearity of G is not even needed).  The low-storage 2N +
    Crank-Nicolson step equals [ark_step] with the Butcher arrays of
    [lowstorage_to_butcher] for EVERY coefficient list (all lengths, by induction over
    the stage loop with the invariant  h_k = sum_j hc_kj F(Y_j),
    u_k = y0 + dt sum_j ue_kj F(Y_j) + dt sum_j ui_kj G(Y_j));  the two directly coded
    schemes equal [ark_step] on their hand-derived tableaux.  These are exactly the
    tableaux whose order conditions are decided above. *)
Section StepFunctionsAreArk.
  Context {F : Type} {o : Ops F} {Fc : FieldC o} {V : Type} {vo : VOps F V} {Mc : ModuleC o vo}.
  Variable Fx G : V -> V.
  Variable Ginv : V -> F -> V.
  Hypothesis Ginv_solves : forall x eta, Ginv x eta = vadd x (vscal eta (G (Ginv x eta))).

  Theorem C06_lowstorage_is_ark dt y0 (al be ga : list F) :
    ls_step Fx G Ginv dt al be ga y0 =
    (let '(ae, ai, bex, bim) := lowstorage_to_butcher al be ga in
     ark_step Fx G Ginv dt ae ai bex bim y0).
  Proof. exact (lowstorage_is_ark Fx G Ginv Ginv_solves dt y0 al be ga). Qed.

  Theorem C06_direct_schemes_are_ark dt y0 :
    euler_step Fx Ginv dt y0 =
      (let '(ae, ai, bex, bim) := @euler_tableau F o in ark_step Fx G Ginv dt ae ai bex bim y0) /\
    cn_rk2_step Fx G Ginv dt y0 =
      (let '(ae, ai, bex, bim) := @cn_rk2_tableau F o in ark_step Fx G Ginv dt ae ai bex bim y0).
  Proof.
    split; [exact (euler_is_ark Fx G Ginv Ginv_solves dt y0)|exact (cn_rk2_is_ark Fx G Ginv Ginv_solves dt y0)].
  Qed.
End StepFunctionsAreArk.

(** ** Reduction of the imex_runge_kutta interpreter: with G = 0, G_inv = id it is the
    classical explicit Runge-Kutta step (a_ex, b_ex); with F = 0 the diagonally
    implicit Runge-Kutta step (a_im, b_im).  Every tableau with as many a_ex as a_im
    rows (guaranteed by the validation), every F / G / G_inv. *)
Section ImexReduces.
  Context {F : Type} {o : Ops F} {V : Type} {vo : VOps F V}.
  Hypothesis nz_false_zero : forall c : F, nz c = false -> c = f0.
  Hypothesis vadd_0_r : forall x : V, vadd x vzero = x.
  Hypothesis vscal_0_l : forall x : V, vscal f0 x = vzero.
  Hypothesis vscal_0_r : forall c : F, vscal c (vzero : V) = vzero.

  Theorem C06_imex_reduces_to_explicit (Fx : V -> V) dt a_ex a_im b_ex b_im y0 :
    length a_ex = length a_im ->
    imex_step Fx (fun _ => vzero) (fun x _ => x) dt a_ex a_im b_ex b_im y0
    = Some (erk_step Fx dt a_ex b_ex y0).
  Proof.
    intros Hl. rewrite (imex_is_ark nz_false_zero vadd_0_r vscal_0_l). f_equal.
    exact (ark_reduces_to_explicit vadd_0_r vscal_0_r Fx dt y0 a_ex a_im b_ex b_im Hl).
  Qed.

  Theorem C06_imex_reduces_to_implicit (G : V -> V) (Ginv : V -> F -> V) dt a_ex a_im b_ex b_im y0 :
    length a_ex = length a_im ->
    imex_step (fun _ => vzero) G Ginv dt a_ex a_im b_ex b_im y0
    = Some (dirk_step G Ginv dt a_im b_im y0).
  Proof.
    intros Hl. rewrite (imex_is_ark nz_false_zero vadd_0_r vscal_0_l). f_equal.
    exact (ark_reduces_to_implicit vadd_0_r vscal_0_r G Ginv dt y0 a_ex a_im b_ex b_im Hl).
  Qed.
End ImexReduces.

(** ** Order for NONLINEAR F by formal power series in the step size h.
    K: any field with 1 + .. + 1 <> 0 (characteristic 0; [ofZ] is the canonical map
    Z -> K).  u0, g, c_j = F^(j)(u0)/j! (j = 0..4): arbitrary elements of K.
    [run_*]: the step functions [euler_step], [cn_rk2_step], [ls_step], [imex_step],
    [leapfrog_step] of Model/Integrators.v at the carrier of power series truncated
    after h^4, dt = h, F = Taylor's formula, G = g., G_inv = geometric series, on the
    coefficients of Gen/Tableaux.v.  [exact_flow]: the Taylor series of the solution.
    [tcoef s k]: coefficient of h^k.  Negative parts: witnesses u0 = g = 1,
    (c0..c4) = (1, 2, 1, 1, 1). *)
Local Open Scope F_scope.
Section NonlinearOrder.
  Context {K : Type} {oK : Ops K} {Kc : FieldC oK}.
  Hypothesis char0 : forall p : positive, @ofZ K oK (Zpos p) <> 0.
  Variables u0 g c0 c1 c2 c3 c4 : K.
  Notation cs := [c0; c1; c2; c3; c4].
  Notation W := [1; 1 + 1; 1; 1; 1].
  Notation EX := (exact_flow (@ofQ K oK) NN).

  (** the comparison series starts at u0 and solves dE/dh = F(E) + g E modulo h^4 *)
  Theorem C06_series_exact_flow_is_taylor :
    let E := EX cs u0 g in
    tcoef E 0 = u0 /\
    forall k, (k <= 3)%nat ->
      tcoef (tderiv (@ofQ K oK) E) k = tcoef (tadd (Fser NN cs u0 E) (Gser NN g E)) k.
  Proof. exact (exact_flow_solves_ode char0 u0 g c0 c1 c2 c3 c4). Qed.

  (** the geometric series is the inverse of 1 - eta g in the truncated ring *)
  Theorem C06_series_ginv_is_inverse (x0 x1 x2 x3 x4 e1 e2 e3 e4 : K) :
    let x := [x0; x1; x2; x3; x4] in let eta := [0; e1; e2; e3; e4] in
    let y := Ginvser NN g x eta in
    forall k, (k <= 4)%nat -> tcoef (tsub y (tmul NN eta (Gser NN g y))) k = tcoef x k.
  Proof. exact (Ginvser_solves char0 x0 x1 x2 x3 x4 e1 e2 e3 e4 g). Qed.

  Theorem C06_nonlinear_order_euler :
    (forall k, (k <= 1)%nat -> tcoef (run_euler NN cs u0 g) k = tcoef (EX cs u0 g) k) /\
    tcoef (run_euler NN W 1 1) 2 <> tcoef (EX W 1 1) 2.
  Proof. split; [exact (euler_order1 char0 u0 g c0 c1 c2 c3 c4)|exact (euler_not_order2 char0)]. Qed.

  Theorem C06_nonlinear_order_cn_rk2 :
    (forall k, (k <= 2)%nat -> tcoef (run_rk2 (@ofQ K oK) NN cs u0 g) k = tcoef (EX cs u0 g) k) /\
    tcoef (run_rk2 (@ofQ K oK) NN W 1 1) 3 <> tcoef (EX W 1 1) 3.
  Proof. split; [exact (rk2_order2 char0 u0 g c0 c1 c2 c3 c4)|exact (rk2_not_order3 char0)]. Qed.

  (** Williamson RK3 + CN: order 2 for every g, not 3; with g = 0 order 3, not 4 *)
  Theorem C06_nonlinear_order_cn_rk3 :
    let RK3 := fun cs u0 g => run_ls (@ofQ K oK) NN cs u0 g rk3_alphas rk3_betas rk3_gammas in
    (forall k, (k <= 2)%nat -> tcoef (RK3 cs u0 g) k = tcoef (EX cs u0 g) k) /\
    tcoef (RK3 W 1 1) 3 <> tcoef (EX W 1 1) 3 /\
    (forall k, (k <= 3)%nat -> tcoef (RK3 cs u0 0) k = tcoef (EX cs u0 0) k) /\
    tcoef (RK3 W 1 0) 4 <> tcoef (EX W 1 0) 4.
  Proof.
    cbv zeta. repeat split.
    - exact (rk3_order2 char0 u0 g c0 c1 c2 c3 c4).
    - exact (rk3_not_order3_general char0).
    - exact (rk3_order3_G0 char0 u0 g c0 c1 c2 c3 c4).
    - exact (rk3_not_order4_G0 char0).
  Qed.

  (** Carpenter-Kennedy RK4 + CN, 13-digit decimals ("to rounding" made explicit as in
      C06_order_cn_rk4): the h^k coefficient of the step is the exact one plus the value
      at (u0, g, c0..c4) of a defect polynomial all of whose coefficients are <= 1e-13
      in absolute value - for k <= 2 and every g, for k <= 4 when g = 0; the h^3 defect
      for general g has a coefficient > 1e-5, and the h^3 coefficients differ at W *)
  Theorem C06_nonlinear_order_cn_rk4 :
    let RK4 := fun cs u0 g => run_ls (@ofQ K oK) NN cs u0 g rk4_alphas rk4_betas rk4_gammas in
    let rho := rho7 u0 g c0 c1 c2 c3 c4 in
    near_upto eps13 2 (rk4P csV p0 p1) (XP csV p0 p1) = true /\
    near_upto (1 # 100000) 3 (rk4P csV p0 p1) (XP csV p0 p1) = false /\
    near_upto eps13 4 (rk4P csV p0 []) (XP csV p0 []) = true /\
    (forall k, tcoef (RK4 cs u0 g) k =
               tcoef (EX cs u0 g) k + pev rho (defect (rk4P csV p0 p1) (XP csV p0 p1) k)) /\
    (forall k, tcoef (RK4 cs u0 0) k =
               tcoef (EX cs u0 0) k + pev rho (defect (rk4P csV p0 []) (XP csV p0 []) k)) /\
    tcoef (RK4 W 1 1) 3 <> tcoef (EX W 1 1) 3.
  Proof.
    cbv zeta. pose proof rk4_defects_general as H. cbv zeta in H. destruct H as (H1 & H2 & _).
    split; [|split; [|split; [|split; [|split]]]].
    - exact H1.
    - exact H2.
    - exact rk4_defects_G0.
    - exact (rk4_order2_near char0 u0 g c0 c1 c2 c3 c4).
    - exact (rk4_order4_G0_near char0 u0 g c0 c1 c2 c3 c4).
    - exact (rk4_not_order3_general char0).
  Qed.

  (** SIL3 through the zero-skipping interpreter: order 2 for every g, not 3; g = 0:
      order 2 only for nonlinear F, order 3 for linear F (c2 = c3 = c4 = 0), not 4 *)
  Theorem C06_nonlinear_order_sil3 :
    let SIL3 := fun cs u0 g => run_imex (@ofQ K oK) NN cs u0 g sil3_a_ex sil3_a_im sil3_b_ex sil3_b_im in
    (exists s, SIL3 cs u0 g = Some s /\ forall k, (k <= 2)%nat -> tcoef s k = tcoef (EX cs u0 g) k) /\
    (exists s, SIL3 W 1 1 = Some s /\ tcoef s 3 <> tcoef (EX W 1 1) 3) /\
    (exists s, SIL3 W 1 0 = Some s /\ tcoef s 3 <> tcoef (EX W 1 0) 3) /\
    (exists s, SIL3 [c0; c1; 0; 0; 0] u0 0 = Some s /\
               forall k, (k <= 3)%nat -> tcoef s k = tcoef (EX [c0; c1; 0; 0; 0] u0 0) k) /\
    (exists s, SIL3 [1; 1 + 1; 0; 0; 0] 1 0 = Some s /\ tcoef s 4 <> tcoef (EX [1; 1 + 1; 0; 0; 0] 1 0) 4).
  Proof.
    cbv zeta. split; [|split; [|split; [|split]]].
    - exact (sil3_order2 char0 u0 g c0 c1 c2 c3 c4).
    - exact (sil3_not_order3_general char0).
    - exact (sil3_G0_nonlinear_not_order3 char0).
    - exact (sil3_G0_linear_order3 char0 u0 g c0 c1 c2 c3 c4).
    - exact (sil3_G0_linear_not_order4 char0).
  Qed.

  (** semi-implicit leapfrog from the exact snapshots u(-h), u(0): second-order
      consistent for the default alpha read from the source, not third; alpha = 1 only first *)
  Theorem C06_nonlinear_order_leapfrog :
    let LF := fun al cs u0 g => run_leapfrog (@ofQ K oK) NN cs u0 g al in
    (forall k, (k <= 2)%nat -> tcoef (LF leapfrog_alpha_default cs u0 g) k = tcoef (EX cs u0 g) k) /\
    tcoef (LF leapfrog_alpha_default W 1 1) 3 <> tcoef (EX W 1 1) 3 /\
    (forall k, (k <= 1)%nat -> tcoef (LF 1%Q cs u0 g) k = tcoef (EX cs u0 g) k) /\
    tcoef (LF 1%Q W 1 1) 2 <> tcoef (EX W 1 1) 2.
  Proof.
    cbv zeta. repeat split.
    - exact (leapfrog_order2 char0 u0 g c0 c1 c2 c3 c4).
    - exact (leapfrog_not_order3 char0).
    - exact (leapfrog_alpha1_order1 char0 u0 g c0 c1 c2 c3 c4).
    - exact (leapfrog_alpha1_not_order2 char0).
  Qed.
End NonlinearOrder.
Local Close Scope F_scope.

(** ** A-stability over the reals: u' = z u treated implicitly (F = 0, G = z.,
    G_inv(., eta) = (1 - eta z)^-1 .), complex numbers as pairs, |.|^2 = nsq.
    For every step size dt >= 0 and every z with Re z <= 0. *)
Local Open Scope R_scope.

Theorem C06_A_stable_backward_euler (z u : Cplx) (dt : R) :
  0 <= dt -> fst z <= 0 ->
  nsq (euler_step (vo := CVOps) F0 (Ginvz z) dt u) <= nsq u.
Proof. exact (A_stable_backward_euler z u dt). Qed.

(** every coefficient set with non-decreasing alphas - in particular the generated
    RK3 and RK4 sets (their monotonicity is a computed fact about Gen/Tableaux.v) *)
Theorem C06_A_stable_cn_lowstorage (z u : Cplx) (dt : R) :
  0 <= dt -> fst z <= 0 ->
  (forall al be ga, NonDec al ->
     nsq (ls_step (o := ROps) (vo := CVOps) F0 (Gz z) (Ginvz z) dt al be ga u) <= nsq u) /\
  nsq (ls_step (o := ROps) (vo := CVOps) F0 (Gz z) (Ginvz z) dt
         (map Q2R rk3_alphas) (map Q2R rk3_betas) (map Q2R rk3_gammas) u) <= nsq u /\
  nsq (ls_step (o := ROps) (vo := CVOps) F0 (Gz z) (Ginvz z) dt
         (map Q2R rk4_alphas) (map Q2R rk4_betas) (map Q2R rk4_gammas) u) <= nsq u.
Proof.
  intros Hd Hx. split; [|split].
  - intros al be ga Hal. now apply A_stable_cn_lowstorage_any.
  - now apply A_stable_cn_rk3.
  - now apply A_stable_cn_rk4.
Qed.

Theorem C06_A_stable_cn_rk2 (z u : Cplx) (dt : R) :
  0 <= dt -> fst z <= 0 ->
  nsq (cn_rk2_step (o := ROps) (vo := CVOps) F0 (Gz z) (Ginvz z) dt u) <= nsq u.
Proof. exact (A_stable_cn_rk2 z u dt). Qed.

(** leapfrog with F = 0: future = rho^2 * previous for both characteristic roots *)
Theorem C06_A_stable_leapfrog (z prev cur : Cplx) (dt alpha : R) :
  0 <= dt -> / 2 <= alpha -> fst z <= 0 ->
  nsq (snd (leapfrog_step (o := ROps) (vo := CVOps) F0 (Gz z) (Ginvz z) dt alpha (prev, cur))) <= nsq prev.
Proof. exact (A_stable_leapfrog z prev cur dt alpha). Qed.

Theorem C06_A_stable_leapfrog_default (z prev cur : Cplx) (dt : R) :
  0 <= dt -> fst z <= 0 ->
  nsq (snd (leapfrog_step (o := ROps) (vo := CVOps) F0 (Gz z) (Ginvz z) dt (Q2R leapfrog_alpha_default)
              (prev, cur))) <= nsq prev.
Proof. intros. apply A_stable_leapfrog; auto. exact leapfrog_default_alpha_ok. Qed.

(** SIL3: through the zero-skipping interpreter on the GENERATED tableau.  The
    implicit stability function is derived in Coq from the generated a_im, b_im
    (r(0,w) = (12 + 5 w)/((w - 3)(w - 4)), w = dt z, by the field tactic on C), and
    |D|^2 - |N|^2 = t^4 + 14 t^3 + 48 t^2 + 288 t + 2 t^2 s + 14 t s + s^2
    (t = - Re w >= 0, s = (Im w)^2) has only non-negative coefficients.  A changed
    generated coefficient makes the derivation, hence the check, fail. *)
Theorem C06_A_stable_sil3 (z u : Cplx) (dt : R) :
  0 <= dt -> fst z <= 0 ->
  exists y, imex_step (o := ROps) (vo := CVOps) F0 (Gz z) (Ginvz z) dt
              (RLL sil3_a_ex) (RLL sil3_a_im) (RL sil3_b_ex) (RL sil3_b_im) u = Some y /\
            nsq y <= nsq u.
Proof. exact (A_stable_sil3 z u dt). Qed.

(** the hypothesis of section NonlinearOrder holds over the reals (non-vacuity), and
    the real instance of the order statements for the schemes with G = 0 *)
Lemma ofZ_R_pos (p : positive) : 0 < @ofZ R ROps (Zpos p).
Proof.
  induction p as [|p IH] using Pos.peano_ind.
  - change (0 < 1). lra.
  - rewrite Pos2Z.inj_succ. unfold Z.succ. rewrite (@ofZ_add R ROps RFieldC).
    change (0 < @ofZ R ROps (Zpos p) + 1). lra.
Qed.
Example C06_nonlinear_hyps_satisfiable : forall p : positive, @ofZ R ROps (Zpos p) <> 0.
Proof. intros p. pose proof (ofZ_R_pos p). lra. Qed.

Theorem C06_nonlinear_order_reals (u0 c0 c1 c2 c3 c4 : R) :
  let EX := exact_flow (@ofQ R ROps) NN in
  (forall k, (k <= 3)%nat ->
     tcoef (run_ls (@ofQ R ROps) NN [c0; c1; c2; c3; c4] u0 0 rk3_alphas rk3_betas rk3_gammas) k
     = tcoef (EX [c0; c1; c2; c3; c4] u0 0) k) /\
  (exists s, run_imex (@ofQ R ROps) NN [c0; c1; 0; 0; 0] u0 0 sil3_a_ex sil3_a_im sil3_b_ex sil3_b_im = Some s /\
     forall k, (k <= 3)%nat -> tcoef s k = tcoef (EX [c0; c1; 0; 0; 0] u0 0) k).
Proof.
  cbv zeta. split.
  - exact (rk3_order3_G0 C06_nonlinear_hyps_satisfiable u0 0 c0 c1 c2 c3 c4).
  - exact (sil3_G0_linear_order3 C06_nonlinear_hyps_satisfiable u0 0 c0 c1 0 0 0).
Qed.

Local Close Scope R_scope.

(** ** Length validation: the translated acceptance predicates reject exactly the
    inconsistent shapes (all lengths). *)
Theorem C06_lengths_validated (la lb lg : nat) :
  ls_rejects la lb lg = false <-> (la = S lb /\ lb = lg).
Proof. exact (ls_lengths_validated la lb lg). Qed.

Theorem C06_tableau_validated (a_ex_rows a_im_rows : list nat) (n_b_ex n_b_im : nat) :
  tableau_rejects a_ex_rows a_im_rows n_b_ex n_b_im = false <->
  (S (length a_ex_rows) = n_b_ex /\ S (length a_im_rows) = n_b_ex /\ n_b_im = n_b_ex /\
   (forall i, (i < length a_ex_rows)%nat -> nth i a_ex_rows 0%nat = (i + 1)%nat) /\
   (forall i, (i < length a_im_rows)%nat -> nth i a_im_rows 0%nat = (i + 2)%nat)).
Proof. exact (tableau_validated a_ex_rows a_im_rows n_b_ex n_b_im). Qed.

(** ** Non-vacuity: the module hypotheses hold for V = Cplx over R; G_inv of the
    stability theorems really inverts 1 - eta G; the generated shapes are accepted
    and a truncated alpha list (the historical defect) is rejected. *)
Example C06_hyps_satisfiable :
  (forall x : Cplx, vadd x vzero = x) /\ (forall c : R, vscal c (vzero : Cplx) = vzero) /\
  (forall c : R, nz c = false -> c = 0%R) /\ (forall x : Cplx, vscal 0%R x = vzero) /\
  ModuleC ROps CVOps /\
  (forall (x : Cplx) (eta : R),
     Ginvz (0, 1)%R x eta = vadd x (vscal eta (Gz (0, 1)%R (Ginvz (0, 1)%R x eta)))) /\
  (forall (z u : Cplx) (eta : R), (0 <= eta)%R -> (fst z <= 0)%R ->
     Ginvz z (vadd u (vscal (- eta)%R (Gz z u))) eta = u) /\
  NonDec (map Q2R rk4_alphas) /\
  ls_rejects (length rk4_alphas) (length rk4_betas) (length rk4_gammas) = false /\
  ls_rejects 5 3 3 = true /\ ls_rejects 4 3 4 = true /\
  tableau_rejects (map (@length Q) sil3_a_ex) (map (@length Q) sil3_a_im) (length sil3_b_ex) (length sil3_b_im) = false /\
  tableau_rejects [1; 3]%nat [2; 3]%nat 3 3 = true.
Proof.
  repeat match goal with |- _ /\ _ => split end.
  - exact vadd_0_r.
  - exact vscal_0_r.
  - exact R_nz_false.
  - exact vscal_0_l.
  - exact Cplx_module.
  - exact Ginvz_solves_imag.
  - intros z u eta He Hx. apply Ginvz_inverse.
    pose proof (Dz_ge_1 z eta He Hx). lra.
  - apply nondec_Q2R, rk4_alphas_nondecreasing.
  - vm_compute. reflexivity.
  - vm_compute. reflexivity.
  - vm_compute. reflexivity.
  - vm_compute. reflexivity.
  - vm_compute. reflexivity.
Qed.

Print Assumptions C06_gen_complete.
Print Assumptions C06_order_euler.
Print Assumptions C06_order_cn_rk2.
Print Assumptions C06_order_cn_rk3.
Print Assumptions C06_order_cn_rk4.
Print Assumptions C06_order_sil3.
Print Assumptions C06_order_decider_sound.
Print Assumptions C06_rk4_near_carpenter_kennedy.
Print Assumptions C06_linear_taylor_series.
Print Assumptions C06_leapfrog_second_order_series.
Print Assumptions C06_series_exact_flow_is_taylor.
Print Assumptions C06_series_ginv_is_inverse.
Print Assumptions C06_nonlinear_order_euler.
Print Assumptions C06_nonlinear_order_cn_rk2.
Print Assumptions C06_nonlinear_order_cn_rk3.
Print Assumptions C06_nonlinear_order_cn_rk4.
Print Assumptions C06_nonlinear_order_sil3.
Print Assumptions C06_nonlinear_order_leapfrog.
Print Assumptions C06_nonlinear_hyps_satisfiable.
Print Assumptions C06_nonlinear_order_reals.
Print Assumptions C06_imex_is_ark.
Print Assumptions C06_lowstorage_is_ark.
Print Assumptions C06_direct_schemes_are_ark.
Print Assumptions C06_imex_reduces_to_explicit.
Print Assumptions C06_imex_reduces_to_implicit.
Print Assumptions C06_reduces_to_explicit.
Print Assumptions C06_reduces_to_implicit.
Print Assumptions C06_A_stable_backward_euler.
Print Assumptions C06_A_stable_cn_lowstorage.
Print Assumptions C06_A_stable_cn_rk2.
Print Assumptions C06_A_stable_sil3.
Print Assumptions C06_A_stable_leapfrog.
Print Assumptions C06_A_stable_leapfrog_default.
Print Assumptions C06_lengths_validated.
Print Assumptions C06_tableau_validated.
Print Assumptions C06_hyps_satisfiable.
