(** Property C10 - the dynamics are equivariant under the symmetries of the
    rotating sphere.  Proofs are in Thm/Symmetry.v, Thm/ShallowWater.v and
    Thm/SymmetryLegendre.v.  Every theorem is for an arbitrary field [F] (hence the
    reals), arbitrary sizes and both modal layouts ([fast = false]:
    RealSphericalHarmonics, [fast = true]: FastSphericalHarmonics).  Facts about the
    tables f, p, w, the rotation tables c, s and the recurrence weights a, b are named
    hypotheses, re-checked numerically by the plugin on every explored grid.

    The composition into the explicit primitive-equation tendencies is proved, for the
    mirror and for the rotation by k grid steps (orography rotated too), over the nodal
    column algebra of Model/PrimEq.v (property C04's model of primitive_equations.py:
    dry, moist, cloud classes) assembled with the concrete transforms / spectral
    operators (theorems C10_primeq_...), and so is the equivariance of the implicit
    terms / implicit inverse (column operators depending on l only).  Not proved here
    (explored on the implementation by the plugin's oracles): the explicit terms of
    held_suarez.py (no Coq model of them exists), and the composition tendencies ->
    integrator step for the concrete operators (the step theorems are over abstract
    equivariant F, G, G_inv).

    Shallow water (section C10_shallow_water): ShallowWaterEquations.explicit_terms is
    modelled in Model/ShallowWater.v (nodal algebra of one node and all layers, density
    ratios, orography, assembly over the concrete transforms / spectral operators with
    their default clip=True) and proved mirror- and rotation-equivariant end to end:
    explicit_terms of the transformed MODAL state (orography transformed too) is the
    transformed explicit_terms, for every number of layers, any densities, both layouts
    (theorems C10_sw_...). *)
From Dino Require Import Base.Ops Base.Field Base.Sums Base.Inst Gen.DerivExprs Model.SHT Model.Deriv Model.Invariants Model.Sigma Model.Implicit
     Model.PrimEq Model.Symmetry Model.ShallowWater Model.Legendre Gen.Legendre Thm.Deriv Thm.Implicit Thm.Symmetry Thm.ShallowWater
     Thm.Legendre Thm.SymmetryLegendre.
From Coq Require Import Qcanon.
Local Open Scope F_scope.

Section C10.
  Context {F : Type} {o : Ops F} {Fc : FieldC o}.
  Variables (fast : bool) (R : nat).
  Hypothesis HR : layout_ok fast R.

  (** rotations compose by angle addition; the zero angle is the identity *)
  Theorem C10_rot_group (c1 s1 c2 s2 : nat -> F) (x : marr) i l :
    (i < R)%nat -> s1 0%nat = 0 -> s2 0%nat = 0 ->
    rot_modal fast c1 s1 (rot_modal fast c2 s2 x) i l
      = rot_modal fast (rot_c_comp c1 s1 c2 s2) (rot_s_comp c1 s1 c2 s2) x i l /\
    rot_modal fast (fun _ => 1) (fun _ => 0) x i l = x i l.
  Proof using Fc HR.
    intros _ H1 H2. split; [now apply rot_compose|now apply rot_identity].
  Qed.

  (** the rotation by k+1 grid steps is one step after k steps, and the tables stay unit *)
  Theorem C10_rot_steps k (c s : nat -> F) (x : marr) i l :
    (i < R)%nat -> s 0%nat = 0 -> (forall j, c j * c j + s j * s j = 1) ->
    rot_modal fast (rot_c_pow (S k) c s) (rot_s_pow (S k) c s) x i l
      = rot_modal fast c s (rot_modal fast (rot_c_pow k c s) (rot_s_pow k c s) x) i l /\
    rot_s_pow k c s 0%nat = 0 /\
    forall j, rot_c_pow k c s j * rot_c_pow k c s j + rot_s_pow k c s j * rot_s_pow k c s j = 1.
  Proof using Fc HR.
    intros _ H0 Hu. split; [now apply rot_pow_succ|].
    split; [now apply rot_pow_s0|]. intros j. now apply rot_pow_unit.
  Qed.

  (** with c^2 + s^2 = 1 the action is a bijection *)
  Theorem C10_rot_inverse (c s : nat -> F) (x : marr) i l :
    (i < R)%nat -> s 0%nat = 0 -> (forall j, c j * c j + s j * s j = 1) ->
    rot_modal fast c (rot_s_inv s) (rot_modal fast c s x) i l = x i l /\
    rot_modal fast c s (rot_modal fast c (rot_s_inv s) x) i l = x i l.
  Proof using Fc HR. intros _. apply rot_inverse. Qed.

  Theorem C10_mir_involutive ps (x : marr) i l : mir_modal fast ps (mir_modal fast ps x) i l = x i l.
  Proof. intros; eapply mir_involutive; eassumption. Qed.

  Theorem C10_rot_mir_commute ps (c s : nat -> F) (x : marr) i l :
    (i < R)%nat -> mir_modal fast ps (rot_modal fast c s x) i l = rot_modal fast c s (mir_modal fast ps x) i l.
  Proof using Fc HR. intros _. apply rot_mir_commute. Qed.

  Section Tables.
    Variables (L I J : nat) (f : nat -> nat -> F) (p : nat -> nat -> nat -> F) (w : nat -> F).

    Theorem C10_synth_rot_equivariant k c s (x : marr) i j :
      H_rot_table fast R I f k c s -> H_p_pairs fast R L J p -> s 0%nat = 0 -> (i < I)%nat -> (j < J)%nat ->
      synth R L J f p (rot_modal fast c s x) i j = shift_lon I k (synth R L J f p x) i j.
    Proof. intros; eapply synth_rot_equivariant; eassumption. Qed.

    Theorem C10_analysis_rot_equivariant k c s (z : marr) a l :
      H_rot_table fast R I f k c s -> H_p_pairs fast R L J p -> H_rot_unit c s -> (a < R)%nat -> (l < L)%nat ->
      analysis R I J f p w (shift_lon I k z) a l = rot_modal fast c s (analysis R I J f p w z) a l.
    Proof. intros; eapply analysis_rot_equivariant; eassumption. Qed.

    Theorem C10_synth_mir_equivariant ps (x : marr) i j :
      H_parity fast R L J p -> (j < J)%nat ->
      synth R L J f p (mir_modal fast ps x) i j = sgn_if ps * flip_lat J (synth R L J f p x) i j.
    Proof. intros; eapply synth_mir_equivariant; eassumption. Qed.

    Theorem C10_analysis_mir_equivariant ps (z : marr) a l :
      H_parity fast R L J p -> H_nodes_sym J w -> (a < R)%nat -> (l < L)%nat ->
      analysis R I J f p w (fun i j => sgn_if ps * flip_lat J z i j) a l = mir_modal fast ps (analysis R I J f p w z) a l.
    Proof. intros; eapply analysis_mir_equivariant; eassumption. Qed.
  End Tables.

  Theorem C10_nodal_pointwise_equivariant (phi : F -> F -> F) pi I J k (y z : marr) i j :
    reindex pi (fun i j => phi (y i j) (z i j)) i j = phi (reindex pi y i j) (reindex pi z i j) /\
    nodal_mul (shift_lon I k y) (shift_lon I k z) i j = shift_lon I k (nodal_mul y z) i j /\
    nodal_mul (flip_lat J y) (flip_lat J z) i j = flip_lat J (nodal_mul y z) i j /\
    nodal_mul (fun i j => - flip_lat J y i j) (fun i j => - flip_lat J z i j) i j = flip_lat J (nodal_mul y z) i j /\
    nodal_mul (fun i j => - flip_lat J y i j) (flip_lat J z) i j = - flip_lat J (nodal_mul y z) i j.
  Proof. split; [reflexivity|apply nodal_mul_shift_flip]. Qed.

  Theorem C10_column_ops_equivariant N (A : nat -> nat -> F) (x : stack3) (c s : nat -> F) ps I J k n i l :
    column_op N A (rot_stack fast c s x) n i l = rot_stack fast c s (column_op N A x) n i l /\
    column_op N A (mir_stack fast ps x) n i l = mir_stack fast ps (column_op N A x) n i l /\
    column_op N A (fun n => shift_lon I k (x n)) n i l = shift_lon I k (column_op N A x n) i l /\
    column_op N A (fun n => flip_lat J (x n)) n i l = flip_lat J (column_op N A x n) i l.
  Proof. intros; eapply column_op_equivariant; eassumption. Qed.

  Theorem C10_dlon_equivariant (c s : nat -> F) ps (x : marr) i l :
    (i < R)%nat -> s 0%nat = 0 ->
    d_dlon fast R (rot_modal fast c s x) i l = rot_modal fast c s (d_dlon fast R x) i l /\
    d_dlon fast R (mir_modal fast ps x) i l = mir_modal fast ps (d_dlon fast R x) i l.
  Proof.
    intros Hi H0. split; [eapply dlon_rot_commute; eassumption|eapply dlon_mir_commute; eassumption].
  Qed.

  (** laplacian, inverse laplacian, clip_wavenumbers and every filter that scales by a function of l *)
  Theorem C10_l_operators_equivariant (e : nat -> F) (c s : nat -> F) ps (x : marr) L C n r i l :
    (l_scale e (rot_modal fast c s x) i l = rot_modal fast c s (l_scale e x) i l /\
     l_scale e (mir_modal fast ps x) i l = mir_modal fast ps (l_scale e x) i l) /\
    laplacian L r x = l_scale (lap_eig L r) x /\
    inverse_laplacian L r x = l_scale (inv_eig L r) x /\
    clip L C n x = l_scale (fun l => if Nat.ltb l (C - (n + (C - L))) then 1 else 0) x.
  Proof. split; [apply l_scale_equivariant|repeat split]. Qed.

  Theorem C10_lat_derivatives_rot_equivariant L C (a b : marr) (c s : nat -> F) (x : marr) i l :
    (i < R)%nat -> (l < C)%nat -> s 0%nat = 0 -> sym_rows fast R a -> sym_rows fast R b ->
    D1 L C a b (rot_modal fast c s x) i l = rot_modal fast c s (D1 L C a b x) i l /\
    D2 L C a b (rot_modal fast c s x) i l = rot_modal fast c s (D2 L C a b x) i l.
  Proof. intros; eapply lat_derivatives_rot; eassumption. Qed.

  (** cos_lat_d_dlat and sec_lat_d_dlat_cos2 shift l by +-1: they ANTI-commute with (-1)^(l+m) *)
  Theorem C10_lat_derivatives_mirror_sign L C (a b : marr) ps (x : marr) i l :
    (l < C)%nat ->
    D1 L C a b (mir_modal fast ps x) i l = mir_modal fast (negb ps) (D1 L C a b x) i l /\
    D2 L C a b (mir_modal fast ps x) i l = mir_modal fast (negb ps) (D2 L C a b x) i l.
  Proof. intros; eapply lat_derivatives_mirror_sign; eassumption. Qed.

  Theorem C10_vector_calculus_mirror L C r (a b : marr) cl ps (x u v : marr) i l :
    (i < R)%nat -> (l < C)%nat ->
    fst (cos_lat_grad fast L R C r a b cl (mir_modal fast ps x)) i l
      = mir_modal fast ps (fst (cos_lat_grad fast L R C r a b cl x)) i l /\
    snd (cos_lat_grad fast L R C r a b cl (mir_modal fast ps x)) i l
      = mir_modal fast (negb ps) (snd (cos_lat_grad fast L R C r a b cl x)) i l /\
    div_cos_lat fast L R C r a b cl (mir_modal fast ps u, mir_modal fast (negb ps) v) i l
      = mir_modal fast ps (div_cos_lat fast L R C r a b cl (u, v)) i l /\
    curl_cos_lat fast L R C r a b cl (mir_modal fast ps u, mir_modal fast (negb ps) v) i l
      = mir_modal fast (negb ps) (curl_cos_lat fast L R C r a b cl (u, v)) i l /\
    fst (k_cross (mir_modal fast ps u, mir_modal fast (negb ps) v)) i l = - mir_modal fast ps (fst (k_cross (u, v))) i l /\
    snd (k_cross (mir_modal fast ps u, mir_modal fast (negb ps) v)) i l = - mir_modal fast (negb ps) (snd (k_cross (u, v))) i l.
  Proof.
    intros Hi Hl. split; [now apply grad_lon_mir|]. split; [now apply grad_lat_mir|]. split; [now apply div_mir|].
    split; [now apply curl_mir|apply k_cross_mir].
  Qed.

  Theorem C10_vector_calculus_rot L C r (a b : marr) cl (c s : nat -> F) (x u v : marr) i l :
    (i < R)%nat -> (l < C)%nat -> s 0%nat = 0 -> sym_rows fast R a -> sym_rows fast R b ->
    fst (cos_lat_grad fast L R C r a b cl (rot_modal fast c s x)) i l
      = rot_modal fast c s (fst (cos_lat_grad fast L R C r a b cl x)) i l /\
    snd (cos_lat_grad fast L R C r a b cl (rot_modal fast c s x)) i l
      = rot_modal fast c s (snd (cos_lat_grad fast L R C r a b cl x)) i l /\
    div_cos_lat fast L R C r a b cl (rot_modal fast c s u, rot_modal fast c s v) i l
      = rot_modal fast c s (div_cos_lat fast L R C r a b cl (u, v)) i l /\
    curl_cos_lat fast L R C r a b cl (rot_modal fast c s u, rot_modal fast c s v) i l
      = rot_modal fast c s (curl_cos_lat fast L R C r a b cl (u, v)) i l /\
    fst (k_cross (rot_modal fast c s u, rot_modal fast c s v)) i l = rot_modal fast c s (fst (k_cross (u, v))) i l /\
    snd (k_cross (rot_modal fast c s u, rot_modal fast c s v)) i l = rot_modal fast c s (snd (k_cross (u, v))) i l.
  Proof.
    intros Hi _ H0 Sa Sb. destruct (grad_rot fast L R C r a b cl HR c s i l Hi H0 Sa Sb x) as [G1 G2].
    split; [exact G1|]. split; [exact G2|]. split; [now apply div_rot|]. split; [now apply curl_rot|apply k_cross_rot].
  Qed.

  Theorem C10_coriolis_symmetry omega (sinlat : nat -> F) I J k i j :
    (forall j, (j < J)%nat -> sinlat (J - 1 - j)%nat = - sinlat j) -> (j < J)%nat ->
    shift_lon I k (coriolis omega sinlat) i j = coriolis omega sinlat i j /\
    flip_lat J (coriolis omega sinlat) i j = - coriolis omega sinlat i j.
  Proof. intros; eapply coriolis_symmetry; eassumption. Qed.
End C10.

(** steps and trajectories: any vector space V, any equality E on it, any linear T *)
Section C10_steps.
  Context {F : Type} {o : Ops F} {V : Type} {vo : VSp F V}.
  Variables (Fx G : V -> V) (Ginv : F -> V -> V) (T : V -> V) (E : V -> V -> Prop).
  Hypothesis Hsym : sym_hyps Fx G Ginv T E.

  (** every map built from u, 0, +, scalar *, F, G, G_inv commutes with T (and respects E) *)
  Theorem C10_step_equivariant (t : stepterm F) :
    (forall env, E (eval Fx G Ginv t (fun i => T (env i))) (T (eval Fx G Ginv t env))) /\
    equivariant1 E T (step_of Fx G Ginv t).
  Proof.
    destruct Hsym as (H1 & H2 & H3 & H4 & H5 & H6 & H7 & H8 & H9 & H10 & H11 & H12 & H13 & H14).
    split; [intros env; apply term_equivariant; assumption|apply step_equivariant; assumption].
  Qed.

  (** k steps with (equivariant) step filters, by induction on k *)
  Theorem C10_trajectory_equivariant (t : stepterm F) (filters : list (V -> V -> V)) k :
    Forall (equivariant2 E T) filters ->
    equivariant1 E T (iter k (with_filters (step_of Fx G Ginv t) filters)).
  Proof.
    destruct Hsym as (H1 & H2 & H3 & H4 & H5 & H6 & H7 & H8 & H9 & H10 & H11 & H12 & H13 & H14).
    apply trajectory_equivariant; assumption.
  Qed.

  Theorem C10_leapfrog_trajectory_equivariant (t : stepterm F) (filters : list (V * V -> V * V -> V * V)) k :
    Forall (equivariant2 (E2 E) (T2 T)) filters ->
    equivariant1 (E2 E) (T2 T) (iter k (with_filters (lf_step_of Fx G Ginv t) filters)).
  Proof.
    destruct Hsym as (H1 & H2 & H3 & H4 & H5 & H6 & H7 & H8 & H9 & H10 & H11 & H12 & H13 & H14).
    apply lf_trajectory_equivariant; assumption.
  Qed.

  (** the integrators of time_integration.py, arbitrary coefficient lists / tableaux *)
  Theorem C10_integrators_equivariant (dt alpha : F) (al be ga : list F) (a_ex a_im : list (list F)) (b_ex b_im : list F) :
    equivariant1 E T (step_of Fx G Ginv (euler_term dt)) /\
    equivariant1 E T (step_of Fx G Ginv (cn_rk2_term dt)) /\
    equivariant1 E T (step_of Fx G Ginv (ls_step_term dt al be ga)) /\
    (forall t, imex_term dt a_ex a_im b_ex b_im = Some t -> equivariant1 E T (step_of Fx G Ginv t)) /\
    equivariant1 (E2 E) (T2 T) (lf_step_of Fx G Ginv (leapfrog_term dt alpha)).
  Proof. exact (integrators_equivariant Fx G Ginv T E dt alpha al be ga a_ex a_im b_ex b_im Hsym). Qed.
End C10_steps.

Section C10_primeq.
  Context {F : Type} {o : Ops F} {Fc : FieldC o}.
  Variable c : @PEcfg F.

  (** every nodal expression of Model/PrimEq.v is pointwise in the horizontal: permuting all per-node inputs (tables sec2_lat
      and f invariant under the permutation, as for longitude shifts) permutes every nodal output *)
  Theorem C10_primeq_nodal_shift_equivariant {P A : Type} (pi : P -> P) (fn : NCol -> A)
          (U V Z D T : P -> nat -> F) (gx gy sec2 cor : P -> F) p :
    (forall p, sec2 (pi p) = sec2 p) -> (forall p, cor (pi p) = cor p) ->
    fn (mk_cols (fun p => U (pi p)) (fun p => V (pi p)) (fun p => Z (pi p)) (fun p => D (pi p)) (fun p => T (pi p))
                (fun p => gx (pi p)) (fun p => gy (pi p)) sec2 cor p)
    = (fun p' => fn (mk_cols U V Z D T gx gy sec2 cor p')) (pi p).
  Proof. exact (primeq_nodal_shift_equivariant pi fn U V Z D T gx gy sec2 cor p). Qed.

  (** parities under the mirror (inputs: u even, v odd, vorticity odd, divergence / T' / tracers even,
      grad lnps = (even, odd), sec2 even, f odd - [ncol_mirror]), all K, all level sets:
      scalar totals even, flux (even, odd), momentum terms (even, odd), kinetic energy even, R T' variants even,
      humidity divergence / geopotential terms even, humidity curl term odd *)
  Theorem C10_primeq_nodal_mirror_equivariant va sparse (m : Moist) (x : NCol) (rt q qc qi s gqx gqy : nat -> F) lapl n :
    (n < cK c)%nat ->
    (temp_nodal_total c va (ncol_mirror x) n = temp_nodal_total c va x n /\
     temp_nodal_total_moist c va m (ncol_mirror x) q n = temp_nodal_total_moist c va m x q n /\
     tracer_nodal_total c va (ncol_mirror x) s n = tracer_nodal_total c va x s n /\
     log_pressure_tendency c (ncol_mirror x) = log_pressure_tendency c x /\
     hsa_mu (ncol_mirror x) s n = hsa_mu x s n /\
     hsa_mv (ncol_mirror x) s n = - hsa_mv x s n) /\
    (combined_u c va (ncol_mirror x) rt n = combined_u c va x rt n /\
     combined_v c va (ncol_mirror x) rt n = - combined_v c va x rt n /\
     kinetic (ncol_mirror x) n = kinetic x n /\
     rt_dry c (ncol_mirror x) n = rt_dry c x n /\
     rt_moist c m (ncol_mirror x) q n = rt_moist c m x q n /\
     rt_cloud c m (ncol_mirror x) q qc qi n = rt_cloud c m x q qc qi n) /\
    (humidity_div_nodal c m (ncol_mirror x) q gqx (fun j => - gqy j) lapl n = humidity_div_nodal c m x q gqx gqy lapl n /\
     humidity_curl_nodal c m (ncol_mirror x) gqx (fun j => - gqy j) n = - humidity_curl_nodal c m x gqx gqy n /\
     humidity_geo_nodal c sparse m (ncol_mirror x) q n = humidity_geo_nodal c sparse m x q n).
  Proof.
    intros Hn. pose proof (ncol_mirror_rel c x) as E. pose proof (@neg1_sq F o Fc) as S.
    split; [|split; [|exact (primeq_humidity_nodal_mirror c sparse m x q gqx gqy lapl n)]].
    - split; [now apply (temp_nodal_total_act c _ _ x S E)|]. split; [now apply (temp_nodal_total_moist_act c _ _ x S E)|].
      split; [now apply (tracer_nodal_total_act c _ _ x S E)|]. split; [now apply (log_pressure_tendency_act c _ _ x S E)|].
      split; [now apply (hsa_mu_act c _ _ x E)|]. rewrite (hsa_mv_act c _ _ x E s s n Hn eq_refl). apply neg1_mul.
    - split; [now apply (combined_u_act c _ _ x S E)|].
      split; [rewrite (combined_v_act c _ _ x S E va rt rt n Hn eq_refl); apply neg1_mul|].
      split; [now apply (kinetic_act c _ _ x S E)|]. repeat split.
  Qed.

  (** composition with the concrete transforms and spectral operators, un-padded modal shape (R, L) *)
  Section Concrete.
    Variables (fast : bool) (R L I J : nat) (f : nat -> nat -> F) (p : nat -> nat -> nat -> F) (wq : nat -> F)
              (rad : F) (wa wb : @marr F) (grav : F).
    Hypothesis HR : layout_ok fast R.
    Hypothesis Hpar : H_parity fast R L J p.
    Hypothesis Hnod : H_nodes_sym J wq.
    Let toM := toMc R I J f p wq.
    Let divc := divcc fast R L rad wa wb.
    Let curlc := curlcc fast R L rad wa wb.
    Let lap := lapc L rad.
    Let clp := clipc L.
    Let piN := piNc J.

    (** velocities of the mirrored state: (u, v) from (pseudo-scalar vorticity, scalar divergence) is (even, odd) *)
    Theorem C10_get_cos_lat_vector_mirror cl (vort dive : marr) i l :
      (i < R)%nat -> (l < L)%nat ->
      fst (get_cos_lat_vector fast L R L rad wa wb cl (mir_modal fast true vort) (mir_modal fast false dive)) i l
        = mir_modal fast false (fst (get_cos_lat_vector fast L R L rad wa wb cl vort dive)) i l /\
      snd (get_cos_lat_vector fast L R L rad wa wb cl (mir_modal fast true vort) (mir_modal fast false dive)) i l
        = mir_modal fast true (snd (get_cos_lat_vector fast L R L rad wa wb cl vort dive)) i l.
    Proof. intros; eapply get_cos_lat_vector_mirror; eassumption. Qed.

    (** the nodal columns synthesised from the mirrored modal diagnostic fields are (entrywise) the mirrored
        family of nodal columns *)
    Theorem C10_primeq_columns_of_mirrored_state (um vm zeta delta temp : nat -> marr) (gxm gym : marr) (sec2 cor : nat -> F) :
      (forall j, (j < J)%nat -> sec2 j = sec2 (J - 1 - j)%nat) -> (forall j, (j < J)%nat -> cor j = - cor (J - 1 - j)%nat) ->
      cols_eqv Wc (inPc I J) c
        (cols_of_modal R L J f p (fun k => mir_modal fast false (um k)) (fun k => mir_modal fast true (vm k))
                       (fun k => mir_modal fast true (zeta k)) (fun k => mir_modal fast false (delta k))
                       (fun k => mir_modal fast false (temp k)) (mir_modal fast false gxm) (mir_modal fast true gym) sec2 cor)
        (mirX Wc piN (cols_of_modal R L J f p um vm zeta delta temp gxm gym sec2 cor)).
    Proof. intros; eapply primeq_columns_of_mirrored_state; eassumption. Qed.

    (** the explicit tendencies of the mirrored family of columns are the mirrored tendencies:
        temperature (dry / moist), tracers, log surface pressure and divergence are scalars, vorticity a pseudo-scalar *)
    Theorem C10_primeq_tendency_mirror_equivariant (m : Moist) (X : Wc -> NCol) (rt q s : Wc -> nat -> F)
            (orog hum humz : Wc -> F) r a l :
      (r < cK c)%nat -> (a < R)%nat -> (l < L)%nat ->
      temp_tendency_explicit Wc Wc toM divc clp c (mirX Wc piN X) r (a, l)
        = mir_modal fast false (un (temp_tendency_explicit Wc Wc toM divc clp c X r)) a l /\
      temp_tendency_explicit_moist Wc Wc toM divc clp c m (mirX Wc piN X) (fun n => q (piN n)) r (a, l)
        = mir_modal fast false (un (temp_tendency_explicit_moist Wc Wc toM divc clp c m X q r)) a l /\
      tracer_tendency_explicit Wc Wc toM divc clp c (mirX Wc piN X) (fun n => s (piN n)) r (a, l)
        = mir_modal fast false (un (tracer_tendency_explicit Wc Wc toM divc clp c X s r)) a l /\
      toM (fun n => log_pressure_tendency c (mirX Wc piN X n)) (a, l)
        = mir_modal fast false (un (toM (fun n => log_pressure_tendency c (X n)))) a l /\
      div_tendency_explicit Wc Wc toM divc lap clp c grav (mirX Wc piN X) (fun n => rt (piN n)) (Sec fast orog) (Sec fast hum) r (a, l)
        = mir_modal fast false (un (div_tendency_explicit Wc Wc toM divc lap clp c grav X rt orog hum r)) a l /\
      vort_tendency_explicit Wc Wc toM curlc clp c (mirX Wc piN X) (fun n => rt (piN n)) (Soc fast humz) r (a, l)
        = mir_modal fast true (un (vort_tendency_explicit Wc Wc toM curlc clp c X rt humz r)) a l.
    Proof. intros; eapply primeq_tendency_mirror_equivariant; eassumption. Qed.

    (** ... and so are the tendencies computed from the columns of the mirrored MODAL state *)
    Theorem C10_primeq_mirrored_state_tendency (m : Moist) (um vm zeta delta temp : nat -> marr) (gxm gym : marr)
            (sec2 cor : nat -> F) (rt rt' q q' s s' : Wc -> nat -> F) (orog hum humz : Wc -> F) r a l :
      let X := cols_of_modal R L J f p um vm zeta delta temp gxm gym sec2 cor in
      let X' := cols_of_modal R L J f p (fun k => mir_modal fast false (um k)) (fun k => mir_modal fast true (vm k))
                              (fun k => mir_modal fast true (zeta k)) (fun k => mir_modal fast false (delta k))
                              (fun k => mir_modal fast false (temp k)) (mir_modal fast false gxm) (mir_modal fast true gym) sec2 cor in
      (forall j, (j < J)%nat -> sec2 j = sec2 (J - 1 - j)%nat) -> (forall j, (j < J)%nat -> cor j = - cor (J - 1 - j)%nat) ->
      (forall n, inPc I J n -> rt' n r = rt (piN n) r) -> (forall n, inPc I J n -> q' n r = q (piN n) r) ->
      (forall n, inPc I J n -> forall k, (k < cK c)%nat -> s' n k = s (piN n) k) ->
      (r < cK c)%nat -> (a < R)%nat -> (l < L)%nat ->
      temp_tendency_explicit Wc Wc toM divc clp c X' r (a, l)
        = mir_modal fast false (un (temp_tendency_explicit Wc Wc toM divc clp c X r)) a l /\
      temp_tendency_explicit_moist Wc Wc toM divc clp c m X' q' r (a, l)
        = mir_modal fast false (un (temp_tendency_explicit_moist Wc Wc toM divc clp c m X q r)) a l /\
      tracer_tendency_explicit Wc Wc toM divc clp c X' s' r (a, l)
        = mir_modal fast false (un (tracer_tendency_explicit Wc Wc toM divc clp c X s r)) a l /\
      toM (fun n => log_pressure_tendency c (X' n)) (a, l)
        = mir_modal fast false (un (toM (fun n => log_pressure_tendency c (X n)))) a l /\
      div_tendency_explicit Wc Wc toM divc lap clp c grav X' rt' (Sec fast orog) (Sec fast hum) r (a, l)
        = mir_modal fast false (un (div_tendency_explicit Wc Wc toM divc lap clp c grav X rt orog hum r)) a l /\
      vort_tendency_explicit Wc Wc toM curlc clp c X' rt' (Soc fast humz) r (a, l)
        = mir_modal fast true (un (vort_tendency_explicit Wc Wc toM curlc clp c X rt humz r)) a l.
    Proof.
      intros X X'; intros; eapply primeq_mirrored_state_tendency; eassumption.
    Qed.

    (** humidity corrections of the moist classes (q even, grad q = (even, odd), laplacian(lnps) even) *)
    Theorem C10_primeq_humidity_mirror (m : Moist) (X : Wc -> NCol) (q gqx gqy : Wc -> nat -> F) (lapn : Wc -> F) r a l :
      (a < R)%nat -> (l < L)%nat ->
      humidity_div_modal Wc Wc toM lap c m (mirX Wc piN X) (fun n => q (piN n)) (fun n => gqx (piN n))
                         (fun n k => - gqy (piN n) k) (fun n => lapn (piN n)) r (a, l)
        = mir_modal fast false (un (humidity_div_modal Wc Wc toM lap c m X q gqx gqy lapn r)) a l /\
      humidity_curl_modal Wc Wc toM c m (mirX Wc piN X) (fun n => gqx (piN n)) (fun n k => - gqy (piN n) k) r (a, l)
        = mir_modal fast true (un (humidity_curl_modal Wc Wc toM c m X gqx gqy r)) a l.
    Proof. intros; eapply primeq_humidity_mirror_concrete; eassumption. Qed.
  End Concrete.

  (** the same for the rotation by k longitude grid steps (tables [rc], [rs] of the rotation angle), both layouts *)
  Section ConcreteRot.
    Variables (fast : bool) (R L I J : nat) (f : nat -> nat -> F) (p : nat -> nat -> nat -> F) (wq : nat -> F)
              (rad : F) (wa wb : @marr F) (grav : F) (k : nat) (rc rs : nat -> F).
    Hypothesis HR : layout_ok fast R.
    Hypothesis Hrot : H_rot_table fast R I f k rc rs.
    Hypothesis Hpp : H_p_pairs fast R L J p.
    Hypothesis Hun : H_rot_unit rc rs.
    Hypothesis Hwa : sym_rows fast R wa.
    Hypothesis Hwb : sym_rows fast R wb.
    Let toM := toMc R I J f p wq.
    Let divc := divcc fast R L rad wa wb.
    Let curlc := curlcc fast R L rad wa wb.
    Let lap := lapc L rad.
    Let clp := clipc L.
    Let piN := piNr I k.
    Let Rm := Rmc fast rc rs.

    Theorem C10_get_cos_lat_vector_rot cl (vort dive : marr) i l :
      (i < R)%nat -> (l < L)%nat ->
      fst (get_cos_lat_vector fast L R L rad wa wb cl (rot_modal fast rc rs vort) (rot_modal fast rc rs dive)) i l
        = rot_modal fast rc rs (fst (get_cos_lat_vector fast L R L rad wa wb cl vort dive)) i l /\
      snd (get_cos_lat_vector fast L R L rad wa wb cl (rot_modal fast rc rs vort) (rot_modal fast rc rs dive)) i l
        = rot_modal fast rc rs (snd (get_cos_lat_vector fast L R L rad wa wb cl vort dive)) i l.
    Proof. intros; eapply get_cos_lat_vector_rot; eassumption. Qed.

    (** the nodal columns synthesised from the rotated modal fields are (entrywise) the family shifted by k nodes *)
    Theorem C10_primeq_columns_of_rotated_state (um vm zeta delta temp : nat -> marr) (gxm gym : marr) (sec2 cor : nat -> F) :
      cols_eqv Wc (inPc I J) c
        (cols_of_modal R L J f p (fun n => rot_modal fast rc rs (um n)) (fun n => rot_modal fast rc rs (vm n))
                       (fun n => rot_modal fast rc rs (zeta n)) (fun n => rot_modal fast rc rs (delta n))
                       (fun n => rot_modal fast rc rs (temp n)) (rot_modal fast rc rs gxm) (rot_modal fast rc rs gym) sec2 cor)
        (rotX Wc piN (cols_of_modal R L J f p um vm zeta delta temp gxm gym sec2 cor)).
    Proof. intros; eapply primeq_columns_of_rotated_state; eassumption. Qed.

    (** explicit tendencies of the shifted family of columns = rotated tendencies (orography and humidity
        corrections rotated too): temperature (dry / moist), tracers, lnps, divergence, vorticity *)
    Theorem C10_primeq_tendency_rot_equivariant (m : Moist) (X : Wc -> NCol) (rt q s : Wc -> nat -> F)
            (orog hum humz : Wc -> F) r a l :
      (a < R)%nat -> (l < L)%nat ->
      temp_tendency_explicit Wc Wc toM divc clp c (rotX Wc piN X) r (a, l)
        = rot_modal fast rc rs (un (temp_tendency_explicit Wc Wc toM divc clp c X r)) a l /\
      temp_tendency_explicit_moist Wc Wc toM divc clp c m (rotX Wc piN X) (fun n => q (piN n)) r (a, l)
        = rot_modal fast rc rs (un (temp_tendency_explicit_moist Wc Wc toM divc clp c m X q r)) a l /\
      tracer_tendency_explicit Wc Wc toM divc clp c (rotX Wc piN X) (fun n => s (piN n)) r (a, l)
        = rot_modal fast rc rs (un (tracer_tendency_explicit Wc Wc toM divc clp c X s r)) a l /\
      toM (fun n => log_pressure_tendency c (rotX Wc piN X n)) (a, l)
        = rot_modal fast rc rs (un (toM (fun n => log_pressure_tendency c (X n)))) a l /\
      div_tendency_explicit Wc Wc toM divc lap clp c grav (rotX Wc piN X) (fun n => rt (piN n)) (Rm orog) (Rm hum) r (a, l)
        = rot_modal fast rc rs (un (div_tendency_explicit Wc Wc toM divc lap clp c grav X rt orog hum r)) a l /\
      vort_tendency_explicit Wc Wc toM curlc clp c (rotX Wc piN X) (fun n => rt (piN n)) (Rm humz) r (a, l)
        = rot_modal fast rc rs (un (vort_tendency_explicit Wc Wc toM curlc clp c X rt humz r)) a l.
    Proof. intros; eapply primeq_tendency_rot_equivariant; eassumption. Qed.

    (** ... and so are the tendencies computed from the columns of the rotated MODAL state *)
    Theorem C10_primeq_rotated_state_tendency (m : Moist) (um vm zeta delta temp : nat -> marr) (gxm gym : marr)
            (sec2 cor : nat -> F) (rt rt' q q' s s' : Wc -> nat -> F) (orog hum humz : Wc -> F) r a l :
      let X := cols_of_modal R L J f p um vm zeta delta temp gxm gym sec2 cor in
      let X' := cols_of_modal R L J f p (fun n => rot_modal fast rc rs (um n)) (fun n => rot_modal fast rc rs (vm n))
                              (fun n => rot_modal fast rc rs (zeta n)) (fun n => rot_modal fast rc rs (delta n))
                              (fun n => rot_modal fast rc rs (temp n)) (rot_modal fast rc rs gxm) (rot_modal fast rc rs gym) sec2 cor in
      (forall n, inPc I J n -> rt' n r = rt (piN n) r) -> (forall n, inPc I J n -> q' n r = q (piN n) r) ->
      (forall n, inPc I J n -> forall g, (g < cK c)%nat -> s' n g = s (piN n) g) ->
      (r < cK c)%nat -> (a < R)%nat -> (l < L)%nat ->
      temp_tendency_explicit Wc Wc toM divc clp c X' r (a, l)
        = rot_modal fast rc rs (un (temp_tendency_explicit Wc Wc toM divc clp c X r)) a l /\
      temp_tendency_explicit_moist Wc Wc toM divc clp c m X' q' r (a, l)
        = rot_modal fast rc rs (un (temp_tendency_explicit_moist Wc Wc toM divc clp c m X q r)) a l /\
      tracer_tendency_explicit Wc Wc toM divc clp c X' s' r (a, l)
        = rot_modal fast rc rs (un (tracer_tendency_explicit Wc Wc toM divc clp c X s r)) a l /\
      toM (fun n => log_pressure_tendency c (X' n)) (a, l)
        = rot_modal fast rc rs (un (toM (fun n => log_pressure_tendency c (X n)))) a l /\
      div_tendency_explicit Wc Wc toM divc lap clp c grav X' rt' (Rm orog) (Rm hum) r (a, l)
        = rot_modal fast rc rs (un (div_tendency_explicit Wc Wc toM divc lap clp c grav X rt orog hum r)) a l /\
      vort_tendency_explicit Wc Wc toM curlc clp c X' rt' (Rm humz) r (a, l)
        = rot_modal fast rc rs (un (vort_tendency_explicit Wc Wc toM curlc clp c X rt humz r)) a l.
    Proof. intros X X'; intros; eapply primeq_rotated_state_tendency; eassumption. Qed.

    Theorem C10_primeq_humidity_rot (m : Moist) (X : Wc -> NCol) (q gqx gqy : Wc -> nat -> F) (lapn : Wc -> F) r a l :
      (a < R)%nat -> (l < L)%nat ->
      humidity_div_modal Wc Wc toM lap c m (rotX Wc piN X) (fun n => q (piN n)) (fun n => gqx (piN n))
                         (fun n => gqy (piN n)) (fun n => lapn (piN n)) r (a, l)
        = rot_modal fast rc rs (un (humidity_div_modal Wc Wc toM lap c m X q gqx gqy lapn r)) a l /\
      humidity_curl_modal Wc Wc toM c m (rotX Wc piN X) (fun n => gqx (piN n)) (fun n => gqy (piN n)) r (a, l)
        = rot_modal fast rc rs (un (humidity_curl_modal Wc Wc toM c m X gqx gqy r)) a l.
    Proof. intros; eapply primeq_humidity_rot_concrete; eassumption. Qed.
  End ConcreteRot.

  (** implicit terms and implicit inverse (default method): applied coefficient by coefficient to the vertical
      column (divergence, temperature, lnps) with a dependence on the total wavenumber only ([lam l] = laplacian
      eigenvalue; [inv] = any matrix inversion routine).  Vorticity and tracers have zero implicit terms and the
      identity as inverse. *)
  Theorem C10_implicit_terms_equivariant fast sp (lam : nat -> F) (rc rs : nat -> F) pz (dv tp : nat -> marr) (ps : marr) g i l :
    (g < cK c)%nat ->
    let Lop := fun l => implicit_terms sp c (lam l) in
    (let dv' := fun g => rot_modal fast rc rs (dv g) in let tp' := fun g => rot_modal fast rc rs (tp g) in
     let ps' := rot_modal fast rc rs ps in
     op_div Lop dv' tp' ps' g i l = rot_modal fast rc rs (op_div Lop dv tp ps g) i l /\
     op_temp Lop dv' tp' ps' g i l = rot_modal fast rc rs (op_temp Lop dv tp ps g) i l /\
     op_lnps Lop dv' tp' ps' i l = rot_modal fast rc rs (op_lnps Lop dv tp ps) i l) /\
    (let dv' := fun g => mir_modal fast pz (dv g) in let tp' := fun g => mir_modal fast pz (tp g) in
     let ps' := mir_modal fast pz ps in
     op_div Lop dv' tp' ps' g i l = mir_modal fast pz (op_div Lop dv tp ps g) i l /\
     op_temp Lop dv' tp' ps' g i l = mir_modal fast pz (op_temp Lop dv tp ps g) i l /\
     op_lnps Lop dv' tp' ps' i l = mir_modal fast pz (op_lnps Lop dv tp ps) i l).
  Proof. exact (implicit_terms_equivariant c fast sp lam rc rs pz dv tp ps g i l). Qed.

  Theorem C10_implicit_inverse_equivariant fast inv eta (lam : nat -> F) (rc rs : nat -> F) pz (dv tp : nat -> marr) (ps : marr) g i l :
    (g < cK c)%nat ->
    let Lop := fun l => inverse_split inv c eta (lam l) in
    (let dv' := fun g => rot_modal fast rc rs (dv g) in let tp' := fun g => rot_modal fast rc rs (tp g) in
     let ps' := rot_modal fast rc rs ps in
     op_div Lop dv' tp' ps' g i l = rot_modal fast rc rs (op_div Lop dv tp ps g) i l /\
     op_temp Lop dv' tp' ps' g i l = rot_modal fast rc rs (op_temp Lop dv tp ps g) i l /\
     op_lnps Lop dv' tp' ps' i l = rot_modal fast rc rs (op_lnps Lop dv tp ps) i l) /\
    (let dv' := fun g => mir_modal fast pz (dv g) in let tp' := fun g => mir_modal fast pz (tp g) in
     let ps' := mir_modal fast pz ps in
     op_div Lop dv' tp' ps' g i l = mir_modal fast pz (op_div Lop dv tp ps g) i l /\
     op_temp Lop dv' tp' ps' g i l = mir_modal fast pz (op_temp Lop dv tp ps g) i l /\
     op_lnps Lop dv' tp' ps' i l = mir_modal fast pz (op_lnps Lop dv tp ps) i l).
  Proof. exact (implicit_inverse_equivariant c fast inv eta lam rc rs pz dv tp ps g i l). Qed.
End C10_primeq.

(** Non-vacuity over Qc: (i) the table hypotheses hold for the quarter-turn rotation on a 4 x 2 grid
    with M = 2, L = 2 in the reference layout (unnormalised basis: columns 1, cos, sin; Legendre
    values 1, x, and a constant for m = 1 at nodes -1/2, 1/2); (ii) the step hypotheses hold for the odd
    cubic F(x) = x^3, G(x) = 2x, G_inv(x, eta) = eta x and T = negation on the one-dimensional space. *)
Definition ex_q (l : list Q) : nat -> Qc := fun i => Q2Qc (nth i l 0%Q).
Definition ex_f : nat -> nat -> Qc := fun i a => ex_q (nth i [[1; 1; 0]; [1; 0; 1]; [1; -1; 0]; [1; 0; -1]]%Q []) a.
Definition ex_p : nat -> nat -> nat -> Qc :=
  fun a j l => match a with
               | O => ex_q (nth j [[1; -1 # 2]; [1; 1 # 2]]%Q []) l
               | _ => ex_q [0; 1]%Q l
               end.
Definition ex_c : nat -> Qc := fun j => match j with 1%nat => Q2Qc 0 | _ => Q2Qc 1 end.
Definition ex_s : nat -> Qc := fun j => match j with 1%nat => Q2Qc 1 | _ => Q2Qc 0 end.

Example C10_example :
  layout_ok false 3 /\
  H_rot_table false 3 4 ex_f 1 ex_c ex_s /\ H_p_pairs false 3 2 2 ex_p /\ H_parity false 3 2 2 ex_p /\
  H_nodes_sym 2 (fun _ => Q2Qc 1) /\ H_rot_unit ex_c ex_s /\
  (* latitude tables of the primitive-equation theorems: sec2_lat even, Coriolis odd (nodes sin(lat) = -1/2, 1/2) *)
  (forall j, (j < 2)%nat -> (fun _ : nat => Q2Qc (4 # 3)) j = (fun _ : nat => Q2Qc (4 # 3)) (2 - 1 - j)%nat) /\
  (forall j, (j < 2)%nat -> ex_q [-1 # 2; 1 # 2]%Q j = - ex_q [-1 # 2; 1 # 2]%Q (2 - 1 - j)%nat) /\
  (* recurrence weights that depend on the wavenumber of the row only (rotation theorems) *)
  sym_rows false 3 (fun i l => ex_q [0; 1 # 3; 1 # 3]%Q i) /\
  sym_hyps (vo := FSp) (fun x : Qc => x * x * x) (fun x => (1 + 1) * x) (fun eta x => eta * x) (fun x => - x) eq.
Proof.
  split; [reflexivity|].
  split. { intros i a Hi Ha. destruct i as [|[|[|[|i]]]]; try lia; destruct a as [|[|[|a]]]; try lia;
           apply Qc_is_canon; vm_compute; reflexivity. }
  split. { intros a j l Ha Hj Hl. destruct a as [|[|[|a]]]; try lia; reflexivity. }
  split. { intros a j l Ha Hj Hl. destruct a as [|[|[|a]]]; try lia; destruct j as [|[|j]]; try lia;
           destruct l as [|[|l]]; try lia; apply Qc_is_canon; vm_compute; reflexivity. }
  split. { intros j Hj. reflexivity. }
  split. { split; [apply Qc_is_canon; vm_compute; reflexivity|].
           intros j. destruct j as [|[|j]]; apply Qc_is_canon; vm_compute; reflexivity. }
  split. { intros j Hj. reflexivity. }
  split. { intros j Hj. destruct j as [|[|j]]; try lia; apply Qc_is_canon; vm_compute; reflexivity. }
  split. { intros i l Hi E. destruct i as [|[|[|i]]]; try lia; reflexivity. }
  unfold sym_hyps. cbn [vz va vs FSp].
  repeat split; intros; subst; try reflexivity; try congruence; cbn; ring.
Qed.


(** ShallowWaterEquations.explicit_terms (Model/ShallowWater.v) *)
Section C10_shallow_water.
  Context {F : Type} {o : Ops F} {Fc : FieldC o}.

  (** the nodal algebra of one node: with sg = -1 (mirror: u even, v odd, vorticity odd, potential even, sec2 even,
      f odd) nodal_b is an (odd, even) pair, nodal_g an (even, odd) pair, nodal_e even; with sg = 1 nothing changes *)
  Theorem C10_sw_nodal_equivariant (sg : F) (x : SWCol) k :
    sg * sg = 1 ->
    (sw_b_u (swcol_act sg x) k = sg * sw_b_u x k /\ sw_b_v (swcol_act sg x) k = sw_b_v x k /\
     sw_g_u (swcol_act sg x) k = sw_g_u x k /\ sw_g_v (swcol_act sg x) k = sg * sw_g_v x k /\
     sw_e (swcol_act sg x) k = sw_e x k) /\
    (sw_b_u (swcol_mirror x) k = - sw_b_u x k /\ sw_b_v (swcol_mirror x) k = sw_b_v x k /\
     sw_g_u (swcol_mirror x) k = sw_g_u x k /\ sw_g_v (swcol_mirror x) k = - sw_g_v x k /\
     sw_e (swcol_mirror x) k = sw_e x k).
  Proof. intros Hs. split; [exact (sw_nodal_act sg x k Hs)|exact (sw_nodal_mirror x k)]. Qed.

  Section Mirror.
    Variables (fast : bool) (R L I J N : nat) (f : nat -> nat -> F) (p : nat -> nat -> nat -> F) (wq : nat -> F)
              (rad : F) (wa wb : @marr F) (dens : nat -> F).
    Hypothesis HR : layout_ok fast R.
    Hypothesis Hpar : H_parity fast R L J p.
    Hypothesis Hnod : H_nodes_sym J wq.
    Let toM := sw_toM R L I J f p wq.
    Let divc := sw_divc fast R L rad wa wb.
    Let curlc := sw_curlc fast R L rad wa wb.
    Let lap := sw_lap (F := F) L rad.
    Let clp := sw_clip (F := F) L.

    (** the assembled tendencies of ANY family of columns X' that agrees (layers < N, nodes in range) with the mirrored
        family of X - potentials and orography mirrored too: vorticity tendency pseudo-scalar, the others scalars *)
    Theorem C10_sw_tendency_mirror_equivariant (X X' : Wn -> SWCol) (pot pot' : nat -> Wn -> F) (orog : option (Wn -> F)) r a l :
      sw_cols_eqv Wn (inPc I J) N X' (sw_actX Wn (piNc J) (- (1)) X) ->
      (forall b w', (b < N)%nat -> inWc R L w' -> pot' b w' = Sec fast (pot b) w') ->
      (r < N)%nat -> (a < R)%nat -> (l < L)%nat ->
      sw_vort_explicit Wn Wn toM divc clp X' r (a, l)
        = mir_modal fast true (un (sw_vort_explicit Wn Wn toM divc clp X r)) a l /\
      sw_div_explicit Wn Wn toM curlc lap clp N dens X' pot' (option_map (Sec fast) orog) r (a, l)
        = mir_modal fast false (un (sw_div_explicit Wn Wn toM curlc lap clp N dens X pot orog r)) a l /\
      sw_pot_explicit Wn Wn toM divc clp X' r (a, l)
        = mir_modal fast false (un (sw_pot_explicit Wn Wn toM divc clp X r)) a l.
    Proof. intros; eapply sw_tendency_mirror_equivariant; eassumption. Qed.

    (** the whole method on MODAL states: explicit_terms(mirror state, mirror orography) = mirror explicit_terms *)
    Theorem C10_sw_explicit_terms_mirror_equivariant (omega : F) (sinlat : nat -> F) (orog : option marr)
            (vort dive pot : nat -> marr) r a l :
      (forall j, (j < J)%nat -> sinlat (J - 1 - j)%nat = - sinlat j) ->
      (r < N)%nat -> (a < R)%nat -> (l < L)%nat ->
      let E := sw_explicit_terms fast R L I J N f p wq rad wa wb dens omega sinlat in
      let T := E orog vort dive pot in
      let T' := E (option_map (mir_modal fast false) orog) (fun k => mir_modal fast true (vort k))
                  (fun k => mir_modal fast false (dive k)) (fun k => mir_modal fast false (pot k)) in
      fst (fst T') r (a, l) = mir_modal fast true (un (fst (fst T) r)) a l /\
      snd (fst T') r (a, l) = mir_modal fast false (un (snd (fst T) r)) a l /\
      snd T' r (a, l) = mir_modal fast false (un (snd T r)) a l.
    Proof. intros; eapply sw_explicit_terms_mirror_equivariant; eassumption. Qed.
  End Mirror.

  Section Rot.
    Variables (fast : bool) (R L I J N : nat) (f : nat -> nat -> F) (p : nat -> nat -> nat -> F) (wq : nat -> F)
              (rad : F) (wa wb : @marr F) (dens : nat -> F) (k : nat) (rc rs : nat -> F).
    Hypothesis HR : layout_ok fast R.
    Hypothesis Hrot : H_rot_table fast R I f k rc rs.
    Hypothesis Hpp : H_p_pairs fast R L J p.
    Hypothesis Hun : H_rot_unit rc rs.
    Hypothesis Hwa : sym_rows fast R wa.
    Hypothesis Hwb : sym_rows fast R wb.
    Let toM := sw_toM R L I J f p wq.
    Let divc := sw_divc fast R L rad wa wb.
    Let curlc := sw_curlc fast R L rad wa wb.
    Let lap := sw_lap (F := F) L rad.
    Let clp := sw_clip (F := F) L.

    (** rotation by k longitude grid steps: columns shifted by k nodes, potentials and orography rotated *)
    Theorem C10_sw_tendency_rot_equivariant (X X' : Wn -> SWCol) (pot pot' : nat -> Wn -> F) (orog : option (Wn -> F)) r a l :
      sw_cols_eqv Wn (inPc I J) N X' (fun q => X (piNr I k q)) ->
      (forall b w', (b < N)%nat -> inWc R L w' -> pot' b w' = Rmc fast rc rs (pot b) w') ->
      (r < N)%nat -> (a < R)%nat -> (l < L)%nat ->
      sw_vort_explicit Wn Wn toM divc clp X' r (a, l)
        = rot_modal fast rc rs (un (sw_vort_explicit Wn Wn toM divc clp X r)) a l /\
      sw_div_explicit Wn Wn toM curlc lap clp N dens X' pot' (option_map (Rmc fast rc rs) orog) r (a, l)
        = rot_modal fast rc rs (un (sw_div_explicit Wn Wn toM curlc lap clp N dens X pot orog r)) a l /\
      sw_pot_explicit Wn Wn toM divc clp X' r (a, l)
        = rot_modal fast rc rs (un (sw_pot_explicit Wn Wn toM divc clp X r)) a l.
    Proof. intros; eapply sw_tendency_rot_equivariant; eassumption. Qed.

    (** the whole method on MODAL states: explicit_terms(rotated state, rotated orography) = rotated explicit_terms *)
    Theorem C10_sw_explicit_terms_rot_equivariant (omega : F) (sinlat : nat -> F) (orog : option marr)
            (vort dive pot : nat -> marr) r a l :
      (r < N)%nat -> (a < R)%nat -> (l < L)%nat ->
      let E := sw_explicit_terms fast R L I J N f p wq rad wa wb dens omega sinlat in
      let T := E orog vort dive pot in
      let T' := E (option_map (rot_modal fast rc rs) orog) (fun n => rot_modal fast rc rs (vort n))
                  (fun n => rot_modal fast rc rs (dive n)) (fun n => rot_modal fast rc rs (pot n)) in
      fst (fst T') r (a, l) = rot_modal fast rc rs (un (fst (fst T) r)) a l /\
      snd (fst T') r (a, l) = rot_modal fast rc rs (un (snd (fst T) r)) a l /\
      snd T' r (a, l) = rot_modal fast rc rs (un (snd T r)) a l.
    Proof. intros; eapply sw_explicit_terms_rot_equivariant; eassumption. Qed.
  End Rot.
End C10_shallow_water.

(** Non-vacuity of the shallow-water statements over Qc: sin(latitude) nodes -1/2, 1/2 of C10_example are antisymmetric (the
    hypothesis [sinlat (J - 1 - j) = - sinlat j], the one these statements have beyond the table hypotheses, which are those of
    C10_example), the density ratios of (1, 5/4, 3/2) are the non-trivial matrix [[0,1,1],[4/5,0,1],[2/3,5/6,0]], and on a
    concrete two-layer column every nodal expression is non-zero and changes under the mirror exactly as stated. *)
Definition ex_swcol : @SWCol Qc :=
  mkSWCol (ex_q [1 # 2; 1 # 3]%Q) (ex_q [1 # 5; -1 # 7]%Q) (ex_q [2; 3]%Q) (ex_q [1; 1 # 4]%Q) (Q2Qc (4 # 3)) (Q2Qc (1 # 2)).
Example C10_sw_example :
  (forall j, (j < 2)%nat -> ex_q [-1 # 2; 1 # 2]%Q (2 - 1 - j)%nat = - ex_q [-1 # 2; 1 # 2]%Q j) /\
  sw_sec2 (ex_q [-1 # 2; 1 # 2]%Q) 0%nat = Q2Qc (4 # 3) /\
  map (fun a => map (fun b => this (density_ratio (ex_q [1; 5 # 4; 3 # 2]%Q) a b)) [0; 1; 2]%nat) [0; 1; 2]%nat
    = [[0; 1; 1]; [4 # 5; 0; 1]; [2 # 3; 5 # 6; 0]]%Q /\
  sw_b_u ex_swcol 1%nat = Q2Qc (14 # 9) /\ sw_b_u (swcol_mirror ex_swcol) 1%nat = Q2Qc (- 14 # 9) /\
  sw_b_v ex_swcol 1%nat = Q2Qc (- 2 # 3) /\ sw_b_v (swcol_mirror ex_swcol) 1%nat = Q2Qc (- 2 # 3) /\
  sw_g_v ex_swcol 1%nat <> 0 /\ sw_e ex_swcol 0%nat <> 0.
Proof.
  split. { intros j Hj. destruct j as [|[|j]]; try lia; apply Qc_is_canon; vm_compute; reflexivity. }
  repeat split; try (apply Qc_is_canon; vm_compute; reflexivity); try (vm_compute; reflexivity).
  - intro H. apply (f_equal (fun q : Qc => Qeq_bool q 0)) in H. vm_compute in H. discriminate H.
  - intro H. apply (f_equal (fun q : Qc => Qeq_bool q 0)) in H. vm_compute in H. discriminate H.
Qed.

(** the Legendre-table hypotheses DISCHARGED from the recurrence of associated_legendre.py
    (Thm/SymmetryLegendre.v over Model/Legendre.v, arithmetic regenerated from the source).
    The table is the one the code builds, basis.p[a] = evaluate(n_m = M, n_l = L, x)[|m(a)|] ([leg_basis_p], both layouts;
    [sq] stands for np.sqrt, any function).  The hypotheses mention only the INPUTS of the recurrence - the nodes
    x = sin(lat) antisymmetric and the table y = np.sqrt(1 - x*x) symmetric about the equator ([H_x_antisym], [H_y_sym]) -
    plus the remaining symmetric tables (quadrature weights, sec2_lat / Coriolis / sin(lat)); nothing about Legendre values. *)
Section C10_from_recurrence.
  Context {F : Type} {o : Ops F} {Fc : FieldC o}.
  Variable sq : F -> F.
  Variables (fast : bool) (R M L I J : nat) (f : nat -> nat -> F) (x y : nat -> F) (wq : nat -> F).
  Hypothesis HR : layout_ok fast R.
  Hypothesis HML : (M <= L)%nat.                 (* evaluate raises ValueError otherwise (C01_legendre_accepts) *)
  Hypothesis Hx : H_x_antisym J x.
  Hypothesis Hy : H_y_sym J y.
  Let p := leg_basis_p fast sq J x y M L.

  (** H_parity is a theorem about the recurrence on symmetric nodes; H_p_pairs needs no hypothesis on the nodes *)
  Theorem C10_H_parity_from_recurrence : H_parity fast R L J p.
  Proof. exact (H_parity_from_recurrence sq J x y fast R M L HML Hx Hy). Qed.

  Theorem C10_H_p_pairs_from_recurrence : H_p_pairs fast R L J p.
  Proof using HR. exact (H_p_pairs_from_recurrence sq J x y fast R M L). Qed.

  (** the value at the mirrored node, and the support (zero padding rows of the fast layout included) *)
  Theorem C10_legendre_table_flip a j l :
    (j < J)%nat ->
    p a (J - 1 - j)%nat l = sgn (l - sy_wav fast a) * p a j l /\
    ((l < sy_wav fast a)%nat \/ (L <= l)%nat \/ (M <= sy_wav fast a)%nat -> p a j l = 0).
  Proof.
    intros Hj. split; [exact (legendre_evaluate_flip sq J x y M L (sy_wav fast a) j l HML Hx Hy Hj)|].
    exact (leg_basis_p_support sq J x y fast M L a j l).
  Qed.

  Theorem C10_synth_mir_equivariant_from_recurrence ps (xm : marr) i j :
    (j < J)%nat ->
    synth R L J f p (mir_modal fast ps xm) i j = sgn_if ps * flip_lat J (synth R L J f p xm) i j.
  Proof. intros; eapply synth_mir_equivariant; try eassumption. exact C10_H_parity_from_recurrence. Qed.

  Theorem C10_analysis_mir_equivariant_from_recurrence ps (z : marr) a l :
    H_nodes_sym J wq -> (a < R)%nat -> (l < L)%nat ->
    analysis R I J f p wq (fun i j => sgn_if ps * flip_lat J z i j) a l = mir_modal fast ps (analysis R I J f p wq z) a l.
  Proof. intros; eapply analysis_mir_equivariant; try eassumption. exact C10_H_parity_from_recurrence. Qed.

  Theorem C10_synth_rot_equivariant_from_recurrence k c s (xm : marr) i j :
    H_rot_table fast R I f k c s -> s 0%nat = 0 -> (i < I)%nat -> (j < J)%nat ->
    synth R L J f p (rot_modal fast c s xm) i j = shift_lon I k (synth R L J f p xm) i j.
  Proof. intros; eapply synth_rot_equivariant; try eassumption. exact C10_H_p_pairs_from_recurrence. Qed.

  Theorem C10_analysis_rot_equivariant_from_recurrence k c s (z : marr) a l :
    H_rot_table fast R I f k c s -> H_rot_unit c s -> (a < R)%nat -> (l < L)%nat ->
    analysis R I J f p wq (shift_lon I k z) a l = rot_modal fast c s (analysis R I J f p wq z) a l.
  Proof. intros; eapply analysis_rot_equivariant; try eassumption. exact C10_H_p_pairs_from_recurrence. Qed.

  (** primitive equations: explicit tendencies of the mirrored family of columns / of the mirrored MODAL state *)
  Section PrimEq.
    Variable c : @PEcfg F.
    Variables (rad : F) (wa wb : @marr F) (grav : F).
    Hypothesis Hnod : H_nodes_sym J wq.
    Let toM := toMc R I J f p wq.
    Let divc := divcc fast R L rad wa wb.
    Let curlc := curlcc fast R L rad wa wb.
    Let lap := lapc L rad.
    Let clp := clipc L.
    Let piN := piNc J.

    Theorem C10_primeq_tendency_mirror_equivariant_from_recurrence (m : Moist) (X : Wc -> NCol) (rt q s : Wc -> nat -> F)
            (orog hum humz : Wc -> F) r a l :
      (r < cK c)%nat -> (a < R)%nat -> (l < L)%nat ->
      temp_tendency_explicit Wc Wc toM divc clp c (mirX Wc piN X) r (a, l)
        = mir_modal fast false (un (temp_tendency_explicit Wc Wc toM divc clp c X r)) a l /\
      temp_tendency_explicit_moist Wc Wc toM divc clp c m (mirX Wc piN X) (fun n => q (piN n)) r (a, l)
        = mir_modal fast false (un (temp_tendency_explicit_moist Wc Wc toM divc clp c m X q r)) a l /\
      tracer_tendency_explicit Wc Wc toM divc clp c (mirX Wc piN X) (fun n => s (piN n)) r (a, l)
        = mir_modal fast false (un (tracer_tendency_explicit Wc Wc toM divc clp c X s r)) a l /\
      toM (fun n => log_pressure_tendency c (mirX Wc piN X n)) (a, l)
        = mir_modal fast false (un (toM (fun n => log_pressure_tendency c (X n)))) a l /\
      div_tendency_explicit Wc Wc toM divc lap clp c grav (mirX Wc piN X) (fun n => rt (piN n)) (Sec fast orog) (Sec fast hum) r (a, l)
        = mir_modal fast false (un (div_tendency_explicit Wc Wc toM divc lap clp c grav X rt orog hum r)) a l /\
      vort_tendency_explicit Wc Wc toM curlc clp c (mirX Wc piN X) (fun n => rt (piN n)) (Soc fast humz) r (a, l)
        = mir_modal fast true (un (vort_tendency_explicit Wc Wc toM curlc clp c X rt humz r)) a l.
    Proof.
      pose proof C10_H_parity_from_recurrence as Hpar.
      intros; eapply primeq_tendency_mirror_equivariant; eassumption.
    Qed.

    Theorem C10_primeq_mirrored_state_tendency_from_recurrence (m : Moist) (um vm zeta delta temp : nat -> marr) (gxm gym : marr)
            (sec2 cor : nat -> F) (rt rt' q q' s s' : Wc -> nat -> F) (orog hum humz : Wc -> F) r a l :
      let X := cols_of_modal R L J f p um vm zeta delta temp gxm gym sec2 cor in
      let X' := cols_of_modal R L J f p (fun k => mir_modal fast false (um k)) (fun k => mir_modal fast true (vm k))
                              (fun k => mir_modal fast true (zeta k)) (fun k => mir_modal fast false (delta k))
                              (fun k => mir_modal fast false (temp k)) (mir_modal fast false gxm) (mir_modal fast true gym) sec2 cor in
      (forall j, (j < J)%nat -> sec2 j = sec2 (J - 1 - j)%nat) -> (forall j, (j < J)%nat -> cor j = - cor (J - 1 - j)%nat) ->
      (forall n, inPc I J n -> rt' n r = rt (piN n) r) -> (forall n, inPc I J n -> q' n r = q (piN n) r) ->
      (forall n, inPc I J n -> forall k, (k < cK c)%nat -> s' n k = s (piN n) k) ->
      (r < cK c)%nat -> (a < R)%nat -> (l < L)%nat ->
      temp_tendency_explicit Wc Wc toM divc clp c X' r (a, l)
        = mir_modal fast false (un (temp_tendency_explicit Wc Wc toM divc clp c X r)) a l /\
      temp_tendency_explicit_moist Wc Wc toM divc clp c m X' q' r (a, l)
        = mir_modal fast false (un (temp_tendency_explicit_moist Wc Wc toM divc clp c m X q r)) a l /\
      tracer_tendency_explicit Wc Wc toM divc clp c X' s' r (a, l)
        = mir_modal fast false (un (tracer_tendency_explicit Wc Wc toM divc clp c X s r)) a l /\
      toM (fun n => log_pressure_tendency c (X' n)) (a, l)
        = mir_modal fast false (un (toM (fun n => log_pressure_tendency c (X n)))) a l /\
      div_tendency_explicit Wc Wc toM divc lap clp c grav X' rt' (Sec fast orog) (Sec fast hum) r (a, l)
        = mir_modal fast false (un (div_tendency_explicit Wc Wc toM divc lap clp c grav X rt orog hum r)) a l /\
      vort_tendency_explicit Wc Wc toM curlc clp c X' rt' (Soc fast humz) r (a, l)
        = mir_modal fast true (un (vort_tendency_explicit Wc Wc toM curlc clp c X rt humz r)) a l.
    Proof.
      pose proof C10_H_parity_from_recurrence as Hpar.
      intros X X'; intros; eapply primeq_mirrored_state_tendency; eassumption.
    Qed.
  End PrimEq.

  (** shallow water: the whole method on MODAL states, mirror (H_parity discharged) and rotation (H_p_pairs discharged) *)
  Section ShallowWater.
    Variables (N : nat) (rad : F) (wa wb : @marr F) (dens : nat -> F).

    Theorem C10_sw_explicit_terms_mirror_equivariant_from_recurrence (omega : F) (sinlat : nat -> F) (orog : option marr)
            (vort dive pot : nat -> marr) r a l :
      H_nodes_sym J wq ->
      (forall j, (j < J)%nat -> sinlat (J - 1 - j)%nat = - sinlat j) ->
      (r < N)%nat -> (a < R)%nat -> (l < L)%nat ->
      let E := sw_explicit_terms fast R L I J N f p wq rad wa wb dens omega sinlat in
      let T := E orog vort dive pot in
      let T' := E (option_map (mir_modal fast false) orog) (fun k => mir_modal fast true (vort k))
                  (fun k => mir_modal fast false (dive k)) (fun k => mir_modal fast false (pot k)) in
      fst (fst T') r (a, l) = mir_modal fast true (un (fst (fst T) r)) a l /\
      snd (fst T') r (a, l) = mir_modal fast false (un (snd (fst T) r)) a l /\
      snd T' r (a, l) = mir_modal fast false (un (snd T r)) a l.
    Proof.
      pose proof C10_H_parity_from_recurrence as Hpar.
      intros; eapply sw_explicit_terms_mirror_equivariant; eassumption.
    Qed.

    Theorem C10_sw_explicit_terms_rot_equivariant_from_recurrence k (rc rs : nat -> F) (omega : F) (sinlat : nat -> F)
            (orog : option marr) (vort dive pot : nat -> marr) r a l :
      H_rot_table fast R I f k rc rs -> H_rot_unit rc rs -> sym_rows fast R wa -> sym_rows fast R wb ->
      (r < N)%nat -> (a < R)%nat -> (l < L)%nat ->
      let E := sw_explicit_terms fast R L I J N f p wq rad wa wb dens omega sinlat in
      let T := E orog vort dive pot in
      let T' := E (option_map (rot_modal fast rc rs) orog) (fun n => rot_modal fast rc rs (vort n))
                  (fun n => rot_modal fast rc rs (dive n)) (fun n => rot_modal fast rc rs (pot n)) in
      fst (fst T') r (a, l) = rot_modal fast rc rs (un (fst (fst T) r)) a l /\
      snd (fst T') r (a, l) = rot_modal fast rc rs (un (snd (fst T) r)) a l /\
      snd T' r (a, l) = rot_modal fast rc rs (un (snd T r)) a l.
    Proof.
      pose proof C10_H_p_pairs_from_recurrence as Hpp.
      intros; eapply sw_explicit_terms_rot_equivariant; eassumption.
    Qed.
  End ShallowWater.
End C10_from_recurrence.

(** Non-vacuity over Qc: J = 4 nodes x = (-3/5, -5/13, 5/13, 3/5) with y = sqrt(1 - x^2) = (4/5, 12/13, 12/13, 4/5) exactly,
    np.sqrt := identity (any function is allowed), M = 2, L = 3, reference layout with R = 3 rows: the node hypotheses hold,
    the recurrence (run by vm_compute) produces non-zero values of both parities, and the two discharged table facts hold
    on it as the theorems say. *)
Definition rx (i : nat) : Qc := ex_q [-3 # 5; -5 # 13; 5 # 13; 3 # 5]%Q i.
Definition ry (i : nat) : Qc := ex_q [4 # 5; 12 # 13; 12 # 13; 4 # 5]%Q i.
Definition rsq (t : Qc) : Qc := t.
Definition rp : nat -> nat -> nat -> Qc := leg_basis_p false rsq 4 rx ry 2 3.

Example C10_from_recurrence_example :
  layout_ok false 3 /\ H_x_antisym 4 rx /\ H_y_sym 4 ry /\
  (forall j, (j < 4)%nat -> ry j * ry j = leg_y2 (rx j)) /\
  H_parity false 3 3 4 rp /\ H_p_pairs false 3 3 4 rp /\
  rp 0%nat 0%nat 1%nat = Q2Qc (-9 # 10) /\ rp 0%nat 3%nat 1%nat = Q2Qc (9 # 10) /\
  rp 1%nat 1%nat 2%nat = Q2Qc (225 # 169) /\ rp 2%nat 2%nat 2%nat = Q2Qc (-225 # 169) /\ rp 1%nat 0%nat 0%nat = 0.
Proof.
  assert (Hx : H_x_antisym 4 rx).
  { intros j Hj. destruct j as [|[|[|[|j]]]]; try lia; apply Qc_is_canon; vm_compute; reflexivity. }
  assert (Hy : H_y_sym 4 ry).
  { intros j Hj. destruct j as [|[|[|[|j]]]]; try lia; apply Qc_is_canon; vm_compute; reflexivity. }
  split; [reflexivity|]. split; [exact Hx|]. split; [exact Hy|].
  split. { intros j Hj. destruct j as [|[|[|[|j]]]]; try lia; apply Qc_is_canon; vm_compute; reflexivity. }
  split. { apply (C10_H_parity_from_recurrence rsq false 3 2 3 4 rx ry); [lia|exact Hx|exact Hy]. }
  split. { apply (C10_H_p_pairs_from_recurrence rsq false 3 2 3 4 rx ry). reflexivity. }
  repeat split; apply Qc_is_canon; vm_compute; reflexivity.
Qed.

From Dino Require Import Model.Filters Model.PrimEq Model.Implicit Gen.PrimEqSrc Thm.PrimEqSrc.
(** Tie to the source by translation: the nodal column algebra of Model/PrimEq.v that this property reasons about
    is the code of dinosaur/primitive_equations.py (transcribed from the AST on every run by tools/translate/gen_primeq.py). *)
Theorem C10_model_is_source {F : Type} {o : Ops F} {Fc : FieldC o} (c : @PEcfg F) (m : @Moist F)
    (inc_va : bool) (x : @NCol F) (Tf g vg s q qc qi rt : nat -> F) (k : nat) :
  u_dot_grad x k = u_dot_grad_src x k /\
  t_omega_over_sigma_sp c Tf g vg k = t_omega_over_sigma_sp_src c Tf g vg k /\
  combined_u c inc_va x (rt_dry c x) k = combined_u_src c inc_va x k /\
  combined_v c inc_va x (rt_dry c x) k = combined_v_src c inc_va x k /\
  kinetic x k = kinetic_src x k /\
  temp_vertical_tendency c inc_va x k = temp_vertical_tendency_src c inc_va x k /\
  hsa_nodal x s k = hsa_nodal_src x s k /\
  hsa_mu x s k = hsa_u_src x s k * n_sec2 x /\
  hsa_mv x s k = hsa_v_src x s k * n_sec2 x /\
  temp_adiabatic c x k = temp_adiabatic_src c x k /\
  log_pressure_tendency c x = log_pressure_tendency_src c x /\
  moisture_contribution c m q k = moisture_contribution_src c m q k /\
  rt_moist c m x q k = rt_moist_src c x (moisture_contribution c m q) k /\
  rt_cloud c m x q qc qi k = rt_cloud_src c x (moisture_contribution c m q) qc qi k /\
  combined_u c inc_va x rt k = combined_u_moist_src c inc_va x q rt k /\
  combined_v c inc_va x rt k = combined_v_moist_src c inc_va x q rt k /\
  temp_adiabatic_moist c m x q k = temp_adiabatic_moist_src c m x q k.
Proof. exact (primeq_model_is_source c m inc_va x Tf g vg s q qc qi rt k). Qed.

Print Assumptions C10_rot_group.
Print Assumptions C10_rot_steps.
Print Assumptions C10_rot_inverse.
Print Assumptions C10_mir_involutive.
Print Assumptions C10_rot_mir_commute.
Print Assumptions C10_synth_rot_equivariant.
Print Assumptions C10_analysis_rot_equivariant.
Print Assumptions C10_synth_mir_equivariant.
Print Assumptions C10_analysis_mir_equivariant.
Print Assumptions C10_nodal_pointwise_equivariant.
Print Assumptions C10_column_ops_equivariant.
Print Assumptions C10_dlon_equivariant.
Print Assumptions C10_l_operators_equivariant.
Print Assumptions C10_lat_derivatives_rot_equivariant.
Print Assumptions C10_lat_derivatives_mirror_sign.
Print Assumptions C10_vector_calculus_mirror.
Print Assumptions C10_vector_calculus_rot.
Print Assumptions C10_coriolis_symmetry.
Print Assumptions C10_step_equivariant.
Print Assumptions C10_trajectory_equivariant.
Print Assumptions C10_leapfrog_trajectory_equivariant.
Print Assumptions C10_integrators_equivariant.
Print Assumptions C10_primeq_nodal_shift_equivariant.
Print Assumptions C10_primeq_nodal_mirror_equivariant.
Print Assumptions C10_get_cos_lat_vector_mirror.
Print Assumptions C10_primeq_columns_of_mirrored_state.
Print Assumptions C10_primeq_tendency_mirror_equivariant.
Print Assumptions C10_primeq_mirrored_state_tendency.
Print Assumptions C10_primeq_humidity_mirror.
Print Assumptions C10_get_cos_lat_vector_rot.
Print Assumptions C10_primeq_columns_of_rotated_state.
Print Assumptions C10_primeq_tendency_rot_equivariant.
Print Assumptions C10_primeq_rotated_state_tendency.
Print Assumptions C10_primeq_humidity_rot.
Print Assumptions C10_implicit_terms_equivariant.
Print Assumptions C10_implicit_inverse_equivariant.
Print Assumptions C10_example.
Print Assumptions C10_sw_nodal_equivariant.
Print Assumptions C10_sw_tendency_mirror_equivariant.
Print Assumptions C10_sw_explicit_terms_mirror_equivariant.
Print Assumptions C10_sw_tendency_rot_equivariant.
Print Assumptions C10_sw_explicit_terms_rot_equivariant.
Print Assumptions C10_sw_example.
Print Assumptions C10_H_parity_from_recurrence.
Print Assumptions C10_H_p_pairs_from_recurrence.
Print Assumptions C10_legendre_table_flip.
Print Assumptions C10_synth_mir_equivariant_from_recurrence.
Print Assumptions C10_analysis_mir_equivariant_from_recurrence.
Print Assumptions C10_synth_rot_equivariant_from_recurrence.
Print Assumptions C10_analysis_rot_equivariant_from_recurrence.
Print Assumptions C10_primeq_tendency_mirror_equivariant_from_recurrence.
Print Assumptions C10_primeq_mirrored_state_tendency_from_recurrence.
Print Assumptions C10_sw_explicit_terms_mirror_equivariant_from_recurrence.
Print Assumptions C10_sw_explicit_terms_rot_equivariant_from_recurrence.
Print Assumptions C10_from_recurrence_example.
Print Assumptions C10_model_is_source.
