(** Property C16 - conservative regridding preserves constants, bounds and
    integrals.  The statements; the arguments are in Thm/Regrid.v.  Every theorem of
    the section is for an arbitrary ordered field [F] (hence the reals), arbitrary
    numbers of source/target cells and arbitrary sorted boundary lists.
    Weight matrices are indexed [target source]. *)
From Dino Require Import Base.Ops Base.Sums Base.Inst Base.Ord Model.Regrid Thm.Regrid.
From Dino Require Import Model.Filters Thm.Filters Gen.RegridSrc Thm.RegridSrc.
From Coq Require Import Reals Qcanon Lra.
Local Open Scope F_scope.

Section C16.
  Context {F : Type} {o : Ops F} {Oc : OrdFieldC o}.

  (** the overlaps of a cell [lo,hi] with the cells of a sorted boundary list add
      up to its overlap with the whole range; inside the range: to its length.
      (Used in both directions: over sources for a target cell, over targets
      for a source cell, since [ov] is symmetric.) *)
  Theorem C16_partition_overlap (s : nat -> F) m lo hi :
    (forall j, (j < m)%nat -> fle (s j) (s (S j))) -> fle lo hi ->
    sumn m (fun j => ov lo hi (s j) (s (S j))) = ov lo hi (s 0%nat) (s m) /\
    sumn m (fun j => ov (s j) (s (S j)) lo hi) = ov lo hi (s 0%nat) (s m) /\
    (fle (s 0%nat) lo -> fle hi (s m) -> sumn m (fun j => ov lo hi (s j) (s (S j))) = hi - lo).
  Proof.
    intros Hs Hl. split; [now apply partition_overlap|split; [now apply partition_overlap_sym|]].
    intros H0 H1. now apply partition_overlap_inside.
  Qed.

  (** any non-negative overlap matrix, row [i] with non-zero total *)
  Theorem C16_weights_nonneg m (w : nat -> nat -> F) i :
    (forall j, (j < m)%nat -> fle 0 (w i j)) -> row_total m w i <> 0 ->
    forall j, (j < m)%nat -> fle 0 (normalize_rows m w i j).
  Proof. exact (weights_nonneg m w i). Qed.

  Theorem C16_rows_sum_to_one m (w : nat -> nat -> F) i :
    row_total m w i <> 0 -> sumn m (normalize_rows m w i) = 1.
  Proof. exact (rows_sum_to_one m w i). Qed.

  Theorem C16_constants_reproduced m (w : nat -> nat -> F) i c :
    row_total m w i <> 0 -> apply_weights m (normalize_rows m w) (fun _ => c) i = c.
  Proof. intros H. now apply constants_reproduced. Qed.

  (** a convex combination lies between any bounds of the inputs, in particular
      between their minimum and maximum (for every m >= 1) *)
  Theorem C16_range_preserved m (w : nat -> nat -> F) i (x : nat -> F) :
    (forall j, (j < m)%nat -> fle 0 (w i j)) -> row_total m w i <> 0 ->
    (forall lo hi, (forall j, (j < m)%nat -> fle lo (x j) /\ fle (x j) hi) ->
       fle lo (apply_weights m (normalize_rows m w) x i) /\ fle (apply_weights m (normalize_rows m w) x i) hi) /\
    ((0 < m)%nat ->
       fle (fminn (m - 1) x) (apply_weights m (normalize_rows m w) x i) /\
       fle (apply_weights m (normalize_rows m w) x i) (fmaxn (m - 1) x)).
  Proof.
    intros Hn Hz. split.
    - intros lo hi. now apply range_preserved.
    - intros Hm. apply range_preserved; [exact Hn|exact Hz|].
      intros j Hj. split; [apply fminn_le|apply fmaxn_ge]; lia.
  Qed.

  (** vertical: a row can be normalised exactly when the target layer meets the
      source range; then its weights are >= 0 and sum to one *)
  Theorem C16_vertical_rows n m (tb sb : nat -> F) i :
    (forall i, (i < n)%nat -> fle (tb i) (tb (S i))) ->
    (forall j, (j < m)%nat -> fle (sb j) (sb (S j))) -> (i < n)%nat ->
    (row_total m (interval_overlap sb tb) i <> 0 <->
       flt (fmax (tb i) (sb 0%nat)) (fmin (tb (S i)) (sb m))) /\
    (flt (fmax (tb i) (sb 0%nat)) (fmin (tb (S i)) (sb m)) ->
       (forall j, (j < m)%nat -> fle 0 (vert_weights m sb tb i j)) /\ sumn m (vert_weights m sb tb i) = 1).
  Proof.
    intros Ht Hs Hi. split; [now apply (vertical_row_nonzero_iff n)|now apply (vertical_rows n)].
  Qed.

  (** thickness-weighted integral over the covered range; with equal ranges and
      strictly increasing target bounds: plain layer thicknesses *)
  Theorem C16_vertical_integral_conserved n m (tb sb x : nat -> F) :
    (forall i, (i < n)%nat -> fle (tb i) (tb (S i))) ->
    (forall j, (j < m)%nat -> fle (sb j) (sb (S j))) ->
    ((forall i, (i < n)%nat -> flt (fmax (tb i) (sb 0%nat)) (fmin (tb (S i)) (sb m))) ->
       sumn n (fun i => ov (tb i) (tb (S i)) (sb 0%nat) (sb m) * apply_weights m (vert_weights m sb tb) x i)
       = sumn m (fun j => ov (sb j) (sb (S j)) (tb 0%nat) (tb n) * x j)) /\
    ((forall i, (i < n)%nat -> flt (tb i) (tb (S i))) -> tb 0%nat = sb 0%nat -> tb n = sb m ->
       sumn n (fun i => (tb (S i) - tb i) * apply_weights m (vert_weights m sb tb) x i)
       = sumn m (fun j => (sb (S j) - sb j) * x j)).
  Proof.
    intros Ht Hs. split.
    - now apply vertical_integral_conserved.
    - now apply vertical_integral_conserved_same_range.
  Qed.

  (** regrid_hybrid_to_sigma: source bounds a/sp + b (H_hybrid_incr: sorted at this sp) *)
  Theorem C16_hybrid_integral_conserved n m (a b : nat -> F) (sp : F) (tb x : nat -> F) :
    let hb := hybrid_bounds a b sp in
    (forall i, (i < n)%nat -> fle (tb i) (tb (S i))) ->
    (forall j, (j < m)%nat -> fle (hb j) (hb (S j))) ->
    (forall i, (i < n)%nat -> flt (fmax (tb i) (hb 0%nat)) (fmin (tb (S i)) (hb m))) ->
    sumn n (fun i => ov (tb i) (tb (S i)) (hb 0%nat) (hb m) * regrid_hybrid_to_sigma m a b sp tb x i)
    = sumn m (fun j => ov (hb j) (hb (S j)) (tb 0%nat) (tb n) * x j).
  Proof. intros hb Ht Hs Hx. exact (vertical_integral_conserved n m tb hb Ht Hs x Hx). Qed.

  (** latitude: with a monotone sin table the coded overlap is the overlap of the sin-intervals *)
  Theorem C16_latitude_overlap_is_sin_overlap n m (tb sb st ss : nat -> F) i j :
    sin_mono n m tb sb st ss -> (i < n)%nat -> (j < m)%nat ->
    lat_overlap tb sb st ss i j = ov (st i) (st (S i)) (ss j) (ss (S j)).
  Proof. exact (lat_overlap_is_ov n m tb sb st ss i j). Qed.

  Theorem C16_latitude_rows n m (tb sb st ss : nat -> F) i :
    sin_mono n m tb sb st ss ->
    (forall i, (i < n)%nat -> flt (st i) (st (S i))) ->
    (forall j, (j < m)%nat -> fle (ss j) (ss (S j))) ->
    st 0%nat = ss 0%nat -> st n = ss m -> (i < n)%nat ->
    row_total m (lat_overlap tb sb st ss) i = st (S i) - st i /\
    (forall j, (j < m)%nat -> fle 0 (normalize_rows m (lat_overlap tb sb st ss) i j)) /\
    sumn m (normalize_rows m (lat_overlap tb sb st ss) i) = 1.
  Proof.
    intros H1 H2 H3 H4 H5 Hi.
    split; [exact (proj1 (lat_marginals n m tb sb st ss H1 H2 H3 H4 H5) i Hi)|now apply (latitude_rows n m)].
  Qed.

  Theorem C16_latitude_integral_conserved hpi n m (tx sx st ss x : nat -> F) :
    sin_mono n m (lat_bounds hpi n tx) (lat_bounds hpi m sx) st ss ->
    (forall i, (i < n)%nat -> flt (st i) (st (S i))) ->
    (forall j, (j < m)%nat -> fle (ss j) (ss (S j))) ->
    st 0%nat = ss 0%nat -> st n = ss m ->
    sumn n (fun i => (st (S i) - st i) * apply_weights m (lat_weights hpi n m tx sx st ss) x i)
    = sumn m (fun j => (ss (S j) - ss j) * x j).
  Proof.
    intros H1 H2 H3 H4 H5.
    exact (latitude_integral_conserved n m _ _ st ss H1 H2 H3 H4 H5 x).
  Qed.

  (** longitude in an arbitrary ordered field: non-negativity, unit row sums,
      constants and range for the periodic overlap exactly as coded, for every row
      with non-zero total (that the total is the cell width, hence non-zero, is
      C16_longitude_rows below, over the reals). *)
  Theorem C16_longitude_rows_given_total period n m (tp sp : nat -> F) i :
    row_total m (lon_overlap period n m tp sp) i <> 0 ->
    (forall j, (j < m)%nat -> fle 0 (lon_weights period n m tp sp i j)) /\
    sumn m (lon_weights period n m tp sp i) = 1 /\
    (forall c, apply_weights m (lon_weights period n m tp sp) (fun _ => c) i = c) /\
    (forall x lo hi, (forall j, (j < m)%nat -> fle lo (x j) /\ fle (x j) hi) ->
        fle lo (apply_weights m (lon_weights period n m tp sp) x i) /\
        fle (apply_weights m (lon_weights period n m tp sp) x i) hi).
  Proof. exact (normalized_row m _ i (fun j _ => lon_overlap_nonneg period n m tp sp i j)). Qed.

  (** tensor-product (area) integral in an arbitrary ordered field, given the
      periodic partition identity [lon_partition] (proved over the reals below:
      C16_longitude_partition, C16_horizontal_integral_conserved) *)
  Theorem C16_horizontal_integral_conserved_given_partition
          period na nb (tp sp : nat -> F) nc nd (tb sb st ss : nat -> F) (f : nat -> nat -> F) :
    lon_partition period na nb tp sp ->
    (forall a, (a < na)%nat -> cell_width na period tp a <> 0) ->
    sin_mono nc nd tb sb st ss ->
    (forall c, (c < nc)%nat -> flt (st c) (st (S c))) ->
    (forall d, (d < nd)%nat -> fle (ss d) (ss (S d))) ->
    st 0%nat = ss 0%nat -> st nc = ss nd ->
    sumn na (fun a => sumn nc (fun c => cell_width na period tp a * (st (S c) - st c) *
        mean2 nb nd (lon_weights period na nb tp sp) (normalize_rows nd (lat_overlap tb sb st ss)) f a c))
    = sumn nb (fun b => sumn nd (fun d => cell_width nb period sp b * (ss (S d) - ss d) * f b d)).
  Proof. exact (horizontal_integral_conserved_partial period na nb tp sp nc nd tb sb st ss f). Qed.

  (** NaN semantics of ConservativeRegridder.__call__ for output cell (a,c);
      [wlon a b * wlat c d] is the weight of source cell (b,d); [None] = NaN *)
  Section Nan.
    Variables (nb nd : nat) (wlon wlat : nat -> nat -> F) (a c : nat).
    Hypothesis lon_nonneg : forall b, (b < nb)%nat -> fle 0 (wlon a b).
    Hypothesis lat_nonneg : forall d, (d < nd)%nat -> fle 0 (wlat c d).
    Hypothesis lon_sum : sumn nb (wlon a) = 1.
    Hypothesis lat_sum : sumn nd (wlat c) = 1.
    Variable field : nat -> nat -> option F.
    Variable tol : F.          (* atol + rtol of isclose(frac, 1, rtol=1e-3) *)

    (** skipna=False: NaN iff the NaN cells carry more weight than the isclose
        slack; hence not NaN when no overlapping cell is NaN (then the plain
        weighted mean), NaN when an overlapping NaN cell is heavier than the slack *)
    Theorem C16_nan_semantics_strict :
      (regrid_call false tol nb nd wlon wlat field a c = None <->
         flt tol (mean2 nb nd wlon wlat (fun b d => 1 - notnull (field b d)) a c)) /\
      (fle 0 tol ->
       (forall b d, (b < nb)%nat -> (d < nd)%nat -> flt 0 (wlon a b * wlat c d) -> field b d <> None) ->
       regrid_call false tol nb nd wlon wlat field a c
       = Some (mean2 nb nd wlon wlat (fun b d => val0 (field b d)) a c)) /\
      (forall b d, (b < nb)%nat -> (d < nd)%nat -> field b d = None -> flt tol (wlon a b * wlat c d) ->
       regrid_call false tol nb nd wlon wlat field a c = None).
    Proof.
      split; [|split].
      - exact (nan_strict_iff nb nd wlon wlat a c lon_nonneg lat_nonneg lon_sum lat_sum field tol).
      - exact (nan_strict_clean nb nd wlon wlat a c lon_nonneg lat_nonneg lon_sum lat_sum field tol).
      - exact (nan_strict_propagates nb nd wlon wlat a c lon_nonneg lat_nonneg lon_sum lat_sum field tol).
    Qed.

    (** skipna=True: NaN iff every overlapping source cell is NaN; otherwise the
        weight-renormalised mean of the non-NaN cells, within their range *)
    Theorem C16_nan_semantics_skipna :
      (regrid_call true tol nb nd wlon wlat field a c = None <->
         (forall b d, (b < nb)%nat -> (d < nd)%nat -> flt 0 (wlon a b * wlat c d) -> field b d = None)) /\
      (forall v lo hi, regrid_call true tol nb nd wlon wlat field a c = Some v ->
         (forall b d x, (b < nb)%nat -> (d < nd)%nat -> flt 0 (wlon a b * wlat c d) -> field b d = Some x ->
                        fle lo x /\ fle x hi) ->
         v = mean2 nb nd wlon wlat (fun b d => val0 (field b d)) a c
             / mean2 nb nd wlon wlat (fun b d => notnull (field b d)) a c /\
         fle lo v /\ fle v hi).
    Proof.
      split.
      - exact (nan_skipna_iff nb nd wlon wlat a c lon_nonneg lat_nonneg field tol).
      - intros v lo hi R H.
        destruct (nan_skipna_value nb nd wlon wlat a c lon_nonneg lat_nonneg field tol v lo hi R H)
          as (_ & E & L & U).
        split; [exact E|split; assumption].
    Qed.
  End Nan.
End C16.

(** Over the reals with the real [sin]: for all strictly increasing latitude
    centres within [-pi/2, pi/2] the area-weighted integral is conserved. *)
Theorem C16_latitude_integral_conserved_R n m (tx sx x : nat -> R) :
  (0 < n)%nat -> (0 < m)%nat ->
  (forall i, (S i < n)%nat -> (tx i < tx (S i))%R) -> (- (PI / 2) <= tx 0%nat)%R -> (tx (n - 1)%nat <= PI / 2)%R ->
  (forall j, (S j < m)%nat -> (sx j < sx (S j))%R) -> (- (PI / 2) <= sx 0%nat)%R -> (sx (m - 1)%nat <= PI / 2)%R ->
  let tb := @lat_bounds R ROps (PI / 2)%R n tx in
  let sb := @lat_bounds R ROps (PI / 2)%R m sx in
  let st := fun k => sin (tb k) in
  let ss := fun k => sin (sb k) in
  @sumn R ROps n (fun i => (st (S i) - st i) *
                           @apply_weights R ROps m (@lat_weights R ROps (PI / 2)%R n m tx sx st ss) x i)
  = @sumn R ROps m (fun j => (ss (S j) - ss j) * x j).
Proof.
  intros Hn Hm Hti Ht0 Ht1 Hsi Hs0 Hs1 tb sb st ss.
  destruct (lat_tables_R n m tx sx Hn Hm Hti Ht0 Ht1 Hsi Hs0 Hs1) as (M & I1 & I2 & E0 & E1).
  exact (latitude_integral_conserved (Oc := ROrd) n m tb sb st ss M I1 I2 E0 E1 x).
Qed.

(** Longitude over the reals: the second interval is moved as a whole next to
    x0 and the overlaps with its images at -period, 0, +period are summed. *)
Theorem C16_periodic_overlap_images period (x0 x1 y0 y1 : R) :
  let s := (@align_phase R ROps y0 x0 period - y0)%R in
  @per_overlap R ROps period x0 x1 y0 y1
  = (@ov R ROps x0 x1 (y0 + s + - period) (y1 + s + - period) + @ov R ROps x0 x1 (y0 + s + 0) (y1 + s + 0)
     + @ov R ROps x0 x1 (y0 + s + period) (y1 + s + period))%R.
Proof. exact (@per_overlap_images R ROps ROrd period x0 x1 y0 y1). Qed.

Theorem C16_periodic_overlap_full_circle_R (P x0 x1 u : R) :
  (0 < P)%R -> (x0 <= x1)%R -> (x1 - x0 <= P)%R -> (- (3 * P / 2) < u - x0 < 3 * P / 2)%R ->
  @per_overlap R ROps P x0 x1 u (u + P)%R = (x1 - x0)%R /\ @per_overlap R ROps P x0 x1 u u = 0%R.
Proof. intros HP Hx Hw Hr. split; [now apply pov_full_R|apply (per_overlap_point (Oc := ROrd))]. Qed.

(** The periodic partition identity, over the reals, for ALL numbers of cells.
    [cyclic_points P n p g]: the points [p] (already reduced into [0,P)) advance
    cyclically by steps [g j] in (0, P/2) and go around exactly once.  This is the
    real precondition of _periodic_lower/upper_bounds (a neighbour exactly P/2
    away, e.g. a 2-node grid, is not aligned correctly).  Then the cells tile the
    circle and the overlaps of every target cell with the source cells add up to
    its width, and vice versa. *)
Theorem C16_longitude_partition P n m (tp gt sp gs : nat -> R) :
  (0 < P)%R -> cyclic_points P n tp gt -> cyclic_points P m sp gs ->
  @lon_partition R ROps P n m tp sp.
Proof. exact (lon_partition_R P n m tp gt sp gs). Qed.

(** strictly increasing longitudes whose gaps (including the closing gap
    x_0 + P - x_{n-1}) lie in (0, P/2), reduced mod P with quotients k_j
    (0 <= x_j - k_j P < P), are cyclic points *)
Theorem C16_longitude_points_cyclic P n (x : nat -> R) (k : nat -> Z) :
  (0 < P)%R -> (0 < n)%nat ->
  (forall j, (j < n)%nat -> (0 < gaps P n x j < P / 2)%R) ->
  (forall j, (j < n)%nat -> (0 <= x j - IZR (k j) * P < P)%R) ->
  cyclic_points P n (fun j => @pmod R ROps P (k j) (x j)) (gaps P n x).
Proof. exact (cyclic_points_of_increasing P n x k). Qed.

(** conservative_longitude_weights: every row total is the (positive) target
    cell width, so every row is normalisable; weights >= 0, rows sum to one,
    constants are reproduced, outputs stay within the range of the inputs *)
Theorem C16_longitude_rows P n m (tp gt sp gs : nat -> R) i :
  (0 < P)%R -> cyclic_points P n tp gt -> cyclic_points P m sp gs -> (i < n)%nat ->
  @row_total R ROps m (@lon_overlap R ROps P n m tp sp) i = @cell_width R ROps n P tp i /\
  (0 < @cell_width R ROps n P tp i)%R /\
  (forall j, (j < m)%nat -> (0 <= @lon_weights R ROps P n m tp sp i j)%R) /\
  @sumn R ROps m (@lon_weights R ROps P n m tp sp i) = 1%R /\
  (forall c, @apply_weights R ROps m (@lon_weights R ROps P n m tp sp) (fun _ => c) i = c) /\
  (forall x lo hi, (forall j, (j < m)%nat -> (lo <= x j <= hi)%R) ->
      (lo <= @apply_weights R ROps m (@lon_weights R ROps P n m tp sp) x i <= hi)%R).
Proof. exact (longitude_rows_R P n m tp gt sp gs i). Qed.

(** ConservativeRegridder._mean conserves the area-weighted integral: real sin,
    strictly increasing latitude centres in [-pi/2, pi/2], strictly increasing
    longitudes with gaps < P/2 reduced mod P; no table or partition hypothesis *)
Theorem C16_horizontal_integral_conserved
        P na nb (tlon slon : nat -> R) (kt ks : nat -> Z) nc nd (tlat slat : nat -> R) (f : nat -> nat -> R) :
  (0 < P)%R -> (0 < na)%nat -> (0 < nb)%nat -> (0 < nc)%nat -> (0 < nd)%nat ->
  (forall j, (j < na)%nat -> (0 < gaps P na tlon j < P / 2)%R) ->
  (forall j, (j < na)%nat -> (0 <= tlon j - IZR (kt j) * P < P)%R) ->
  (forall j, (j < nb)%nat -> (0 < gaps P nb slon j < P / 2)%R) ->
  (forall j, (j < nb)%nat -> (0 <= slon j - IZR (ks j) * P < P)%R) ->
  (forall i, (S i < nc)%nat -> (tlat i < tlat (S i))%R) -> (- (PI / 2) <= tlat 0%nat)%R -> (tlat (nc - 1)%nat <= PI / 2)%R ->
  (forall j, (S j < nd)%nat -> (slat j < slat (S j))%R) -> (- (PI / 2) <= slat 0%nat)%R -> (slat (nd - 1)%nat <= PI / 2)%R ->
  let tp := fun j => @pmod R ROps P (kt j) (tlon j) in
  let sp := fun j => @pmod R ROps P (ks j) (slon j) in
  let st := fun k => sin (@lat_bounds R ROps (PI / 2)%R nc tlat k) in
  let ss := fun k => sin (@lat_bounds R ROps (PI / 2)%R nd slat k) in
  @sumn R ROps na (fun a => @sumn R ROps nc (fun c =>
      (@cell_width R ROps na P tp a * (st (S c) - st c) *
       @mean2 R ROps nb nd (@lon_weights R ROps P na nb tp sp)
              (@lat_weights R ROps (PI / 2)%R nc nd tlat slat st ss) f a c)%R))
  = @sumn R ROps nb (fun b => @sumn R ROps nd (fun d =>
      (@cell_width R ROps nb P sp b * (ss (S d) - ss d) * f b d)%R)).
Proof.
  intros HP Hna Hnb Hnc Hnd Gt Kt Gs Ks T1 T2 T3 S1 S2 S3 tp sp st ss.
  destruct (lat_tables_R nc nd tlat slat Hnc Hnd T1 T2 T3 S1 S2 S3) as (M & I1 & I2 & E0 & E1).
  apply (horizontal_integral_conserved_R P na nb tp (gaps P na tlon) sp (gaps P nb slon) nc nd _ _ st ss f);
    auto; now apply cyclic_points_of_increasing.
Qed.

(** non-vacuity of [cyclic_points] over R: three points on a circle of length 12 *)
Example C16_cyclic_points_satisfiable :
  cyclic_points 12%R 3 (fun j => nth j [1; 5; 9]%R 0%R) (fun _ => 4%R) /\
  cyclic_points 12%R 3 (fun j => nth j [5; 9; 1]%R 0%R) (fun _ => 4%R).
Proof.
  split; (split; [lia|split; [|split; [|split]]]).
  all: try (intros j Hj; destruct j as [|[|[|j]]]; try lia; unfold nxt; cbn; lra).
  all: cbn; lra.
Qed.

(** Three source and three target longitudes, cells period/3 wide, so that two
    widths add up to more than period/2: were the end points of the second
    interval aligned independently, the overlaps of source cell 0 would add up
    to 3 instead of its width 4; moved as a whole, the partition identity holds
    and the integral is conserved.  Replayed on the implementation by the
    plugin (runner 'coarse_lon'). *)
Definition q (z : Z) : Qc := Q2Qc (inject_Z z).
Theorem C16_longitude_coarse_conserves :
  let tp := fun i => q (nth i [1; 5; 9]%Z 0%Z) in
  let sp := fun j => q (nth j [0; 4; 8]%Z 0%Z) in
  lon_partition (q 12) 3 3 tp sp /\
  (forall i, (i < 3)%nat -> row_total 3 (lon_overlap (q 12) 3 3 tp sp) i <> 0).
Proof.
  cbv zeta. split; [split|].
  - intros i Hi. destruct i as [|[|[|i]]]; try lia; apply Qc_is_canon; vm_compute; reflexivity.
  - intros j Hj. destruct j as [|[|[|j]]]; try lia; apply Qc_is_canon; vm_compute; reflexivity.
  - intros i Hi. destruct i as [|[|[|i]]]; try lia; intro H; vm_compute in H; discriminate H.
Qed.

(** an implication between two comparisons, as a boolean to evaluate *)
Lemma fle_implb {F} {o : Ops F} (a b c d : F) : implb (fleb a b) (fleb c d) = true -> fle a b -> fle c d.
Proof. unfold fle. intros H E. now rewrite E in H. Qed.

(** Non-vacuity: concrete instances over Qc satisfy the hypotheses. *)
Example C16_hyps_satisfiable :
  (* vertical: 2 target layers over 3 source layers, every layer meets the range *)
  (let tb := fun k => Q2Qc (nth k [0; 1#2; 1]%Q 0%Q) in
   let sb := fun k => Q2Qc (nth k [0; 1#4; 3#4; 1]%Q 0%Q) in
   (forall i, (i < 2)%nat -> fle (tb i) (tb (S i))) /\ (forall j, (j < 3)%nat -> fle (sb j) (sb (S j))) /\
   (forall i, (i < 2)%nat -> flt (fmax (tb i) (sb 0%nat)) (fmin (tb (S i)) (sb 3%nat)))) /\
  (* latitude: centres [-1,1] and [-3/2,0,3/2], "pi/2" = 2, monotone table x -> x^3/8 *)
  (let tx := fun k => Q2Qc (nth k [-1; 1]%Q 0%Q) in
   let sx := fun k => Q2Qc (nth k [-3#2; 0; 3#2]%Q 0%Q) in
   let st := fun k => Q2Qc (nth k [-1; 0; 1]%Q 0%Q) in
   let ss := fun k => Q2Qc (nth k [-1; -27#512; 27#512; 1]%Q 0%Q) in
   sin_mono 2 3 (lat_bounds (q 2) 2 tx) (lat_bounds (q 2) 3 sx) st ss /\
   (forall i, (i < 2)%nat -> flt (st i) (st (S i))) /\ (forall j, (j < 3)%nat -> fle (ss j) (ss (S j))) /\
   st 0%nat = ss 0%nat /\ st 2%nat = ss 3%nat) /\
  (* longitude: 4 target and 6 source cells on a circle of length 12: the
     partition identity holds and no row total vanishes *)
  (let tp := fun i => q (nth i [1; 4; 7; 10]%Z 0%Z) in
   let sp := fun j => q (nth j [0; 2; 4; 6; 8; 10]%Z 0%Z) in
   lon_partition (q 12) 4 6 tp sp /\
   (forall i, (i < 4)%nat -> row_total 6 (lon_overlap (q 12) 4 6 tp sp) i <> 0) /\
   (forall i, (i < 4)%nat -> cell_width 4 (q 12) tp i <> 0)) /\
  (* NaN bookkeeping: weights 1/2,1/2 in both directions *)
  (let w := fun (_ _ : nat) => Q2Qc (1#2) in
   (forall b, (b < 2)%nat -> fle 0 (w 0%nat b)) /\ sumn 2 (w 0%nat) = 1).
Proof.
  cbv zeta. split; [|split; [|split]].
  - split; [|split]; intros i Hi; destruct i as [|[|[|i]]]; try lia; vm_compute; reflexivity.
  - split; [|split; [|split; [|split]]].
    + unfold sin_mono. split; [|split; [|split]]; intros i j Hi Hj;
        destruct i as [|[|[|[|i]]]]; try lia; destruct j as [|[|[|[|j]]]]; try lia;
        apply fle_implb; vm_compute; reflexivity.
    + intros i Hi. destruct i as [|[|i]]; try lia; vm_compute; reflexivity.
    + intros j Hj. destruct j as [|[|[|j]]]; try lia; vm_compute; reflexivity.
    + apply Qc_is_canon; vm_compute; reflexivity.
    + apply Qc_is_canon; vm_compute; reflexivity.
  - split; [split|split].
    + intros i Hi. destruct i as [|[|[|[|i]]]]; try lia; apply Qc_is_canon; vm_compute; reflexivity.
    + intros j Hj. destruct j as [|[|[|[|[|[|j]]]]]]; try lia; apply Qc_is_canon; vm_compute; reflexivity.
    + intros i Hi. destruct i as [|[|[|[|i]]]]; try lia; intro H; vm_compute in H; discriminate H.
    + intros i Hi. destruct i as [|[|[|[|i]]]]; try lia; intro H; vm_compute in H; discriminate H.
  - split.
    + intros b Hb. vm_compute. reflexivity.
    + apply Qc_is_canon; vm_compute; reflexivity.
Qed.

(** ** Tie to the source by translation (regenerated on every run).
    The scalar kernels the theorems above are about ARE the code of
    dinosaur/horizontal_interpolation.py / vertical_interpolation.py: [*_src]
    are transcribed from the AST by tools/translate/gen_regrid.py
    (_align_phase_with, _periodic_upper/lower_bounds, _periodic_overlap with its
    three periodic images in source order, _interval_overlap, the returned
    expression of _latitude_overlap). *)
Theorem C16_model_is_source {F : Type} {o : Ops F} {Fc : FieldC o}
    (x target period x0 x1 y0 y1 : F) (n : nat) (xs sb tb st ss : nat -> F) (i j : nat) :
  align_phase x target period = align_phase_src x target period /\
  per_upper n period xs i = per_upper_src (xs i) (roll_m1 n xs i) period /\
  per_lower n period xs i = per_lower_src (xs i) (roll_p1 n xs i) period /\
  per_overlap period x0 x1 y0 y1 = per_overlap_src period x0 x1 y0 y1 /\
  interval_overlap sb tb i j = interval_overlap_src (tb i) (tb (S i)) (sb j) (sb (S j)) /\
  lat_overlap tb sb st ss i j =
    lat_overlap_src (if fleb (tb i) (sb j) then sb j else tb i)
                    (if fleb (tb (S i)) (sb (S j)) then tb (S i) else sb (S j))
                    (if fleb (tb i) (sb j) then ss j else st i)
                    (if fleb (tb (S i)) (sb (S j)) then st (S i) else ss (S j)).
Proof.
  split; [apply align_phase_matches_source|].
  split; [apply (per_bounds_match_source n period xs i)|].
  split; [apply (per_bounds_match_source n period xs i)|].
  split; [apply per_overlap_matches_source|].
  split; [apply interval_overlap_matches_source|].
  apply lat_overlap_matches_source.
Qed.

Theorem C16_gen_regrid_complete : gen_regrid_ok = true.
Proof. exact gen_regrid_complete. Qed.

Print Assumptions C16_partition_overlap.
Print Assumptions C16_weights_nonneg.
Print Assumptions C16_rows_sum_to_one.
Print Assumptions C16_constants_reproduced.
Print Assumptions C16_range_preserved.
Print Assumptions C16_vertical_rows.
Print Assumptions C16_vertical_integral_conserved.
Print Assumptions C16_hybrid_integral_conserved.
Print Assumptions C16_latitude_overlap_is_sin_overlap.
Print Assumptions C16_latitude_rows.
Print Assumptions C16_latitude_integral_conserved.
Print Assumptions C16_latitude_integral_conserved_R.
Print Assumptions C16_longitude_rows_given_total.
Print Assumptions C16_horizontal_integral_conserved_given_partition.
Print Assumptions C16_nan_semantics_strict.
Print Assumptions C16_nan_semantics_skipna.
Print Assumptions C16_periodic_overlap_images.
Print Assumptions C16_periodic_overlap_full_circle_R.
Print Assumptions C16_longitude_partition.
Print Assumptions C16_longitude_points_cyclic.
Print Assumptions C16_longitude_rows.
Print Assumptions C16_horizontal_integral_conserved.
Print Assumptions C16_cyclic_points_satisfiable.
Print Assumptions C16_longitude_coarse_conserves.
Print Assumptions C16_hyps_satisfiable.
Print Assumptions C16_model_is_source.
Print Assumptions C16_gen_regrid_complete.
