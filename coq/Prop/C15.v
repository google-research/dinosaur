(** Property C15 - spectral filters are mean-preserving, non-amplifying and
    step-size consistent.  Proofs are in Thm/Filters.v; the instances at Coq's [R]
    are derived here.

    The filters multiply by [exp(e)], where the exponent [e] is a rational
    function of the total wavenumber.  Clauses are stated (a) on the exponents,
    for every ordered field, every L, every wavenumber table [lw] (padded or
    not), and (b) for every function [fexp] with the four properties of the
    exponential, instantiated (c) at Coq's [R] with [exp].
    Float caveat: in float64 [exp e] underflows to 0.0 for e < -745; the
    plugin's oracle demands a strictly positive factor only when e > -700. *)
From Dino Require Import Base.Ops Base.Sums Base.Inst Base.Ord Model.Filters Thm.Filters Gen.FiltersSrc Thm.FiltersSrc.
From Coq Require Import Reals Qcanon Lra.
Local Open Scope F_scope.

Section C15.
  Context {F : Type} {o : Ops F} {Oc : OrdFieldC o}.

  (** exponents are <= 0 (factor <= 1): exponential filter, horizontal
      diffusion filter and the two step filters (strength dt/tau resp.
      dt/(tau*max|eig|^order)) *)
  Theorem C15_scaling_in_unit_interval (a c scale r dt tau : F) p order L (lw : nat -> nat) l :
    (0 < L)%nat -> (0 < maxn L lw)%nat -> (1 <= p)%nat -> (1 <= order)%nat ->
    fle 0 a -> fle 0 c -> flt c 1 -> fle 0 scale -> r <> 0 -> flt 0 dt -> flt 0 tau ->
    fle (exp_exponent a c p (maxn L lw) l) 0 /\
    fle (hd_exponent scale r order l) 0 /\
    fle (exp_exponent (dt / tau) c p (maxn L lw) l) 0 /\
    fle (hd_exponent (hd_step_scale_s L lw dt tau r order) r order l) 0.
  Proof.
    intros HL Hm Hp Ho Ha Hc0 Hc1 Hs Hr Hdt Htau. repeat split.
    - now apply exp_exponent_nonpos.
    - now apply hd_exponent_nonpos.
    - apply exp_exponent_nonpos. apply fdiv_pos; [now apply flt_le|assumption].
    - apply hd_exponent_nonpos; [|assumption]. apply hd_step_scale_nonneg; auto using flt_le.
  Qed.

  (** the global mean (l = 0, also every padded column) has exponent 0 *)
  Theorem C15_mean_untouched (a c scale r : F) p order lmax :
    fle 0 c -> (1 <= order)%nat ->
    exp_exponent a c p lmax 0 = 0 /\ hd_exponent scale r order 0 = 0.
  Proof. intros Hc Ho. split; [now apply exp_exponent_mean|now apply hd_exponent_mean]. Qed.

  Theorem C15_non_increasing (a c scale r : F) p order lmax l l' :
    (l <= l')%nat -> (0 < lmax)%nat -> fle 0 a -> fle 0 c -> flt c 1 -> fle 0 scale -> r <> 0 ->
    fle (exp_exponent a c p lmax l') (exp_exponent a c p lmax l) /\
    fle (hd_exponent scale r order l') (hd_exponent scale r order l).
  Proof.
    intros Hl Hm Ha Hc0 Hc1 Hs Hr. split; [now apply exp_exponent_mono|now apply hd_exponent_mono].
  Qed.

  (** exponent(dt) = 2 exponent(dt/2) for both step filters *)
  Theorem C15_semigroup (dt tau c r : F) p order L (lw : nat -> nat) l :
    (0 < L)%nat -> (0 < maxn L lw)%nat -> r <> 0 -> tau <> 0 ->
    exp_exponent (dt / tau) c p (maxn L lw) l
    = ftwo * exp_exponent ((dt / ftwo) / tau) c p (maxn L lw) l /\
    hd_exponent (hd_step_scale_s L lw dt tau r order) r order l
    = ftwo * hd_exponent (hd_step_scale_s L lw (dt / ftwo) tau r order) r order l.
  Proof.
    intros HL Hm Hr Ht. split; [now apply exp_step_semigroup|now apply hd_step_semigroup].
  Qed.

  (** the normalisation of the diffusion step filter: the largest total
      wavenumber present decays exactly like exp(-dt/tau) *)
  Theorem C15_hd_step_top_mode (dt tau r : F) order L (lw : nat -> nat) :
    (0 < L)%nat -> (0 < maxn L lw)%nat -> r <> 0 -> tau <> 0 ->
    hd_exponent (hd_step_scale_s L lw dt tau r order) r order (maxn L lw) = - (dt / tau).
  Proof. exact (hd_step_top_mode L lw dt tau r order). Qed.

  (** coefficient (.., m, j) of a spectral leaf (.., L) is multiplied by
      fexp(e(l_j)): the factor depends on the total wavenumber only *)
  Theorem C15_depends_on_l_only (fexp : F -> F) L (lw : nat -> nat) (a c s r : F) p order (x : arr) pre :
    fst x = pre ++ [L] ->
    (exists y, exponential_filter fexp L lw (scalar_arr a) c p [x] = Some [y] /\ fst y = fst x /\
       forall ipre j, (j < L)%nat ->
         snd y (ipre ++ [j]) = fexp (exp_exponent a c p (maxn L lw) (lw j)) * snd x (ipre ++ [j])) /\
    (exists y, horizontal_diffusion_filter fexp L lw (scalar_arr s) r order [x] = Some [y] /\ fst y = fst x /\
       forall ipre j, (j < L)%nat ->
         snd y (ipre ++ [j]) = fexp (hd_exponent s r order (lw j)) * snd x (ipre ++ [j])).
  Proof.
    intros Hx. split.
    - exact (wn_filter_leaf fexp L lw a (exp_of c p (maxn L lw)) x pre Hx).
    - exact (wn_filter_leaf fexp L lw s (hd_of r order) x pre Hx).
  Qed.

  (** which leaves are rescaled - both directions, any scaling shape: exactly
      those whose trailing dimensions are matched by the scaling's dimensions
      (equal, or 1 in the scaling); every other leaf - including shapes that
      cannot be broadcast at all - is returned as is *)
  Theorem C15_nonspectral_leaves_untouched (sc x : @arr F) :
    ((exists pre suf, fst x = pre ++ suf /\
                      Forall2 (fun dt ds => ds = dt \/ ds = 1%nat) suf (fst sc)) /\
     rescale sc x = (fst x, fun idx => snd sc (bidx (fst sc) idx) * snd x idx))
    \/
    (~ (exists pre suf, fst x = pre ++ suf /\
                        Forall2 (fun dt ds => ds = dt \/ ds = 1%nat) suf (fst sc)) /\
     rescale sc x = x).
  Proof.
    destruct (rescale_spec sc x) as [[H1 H2]|[H1 H2]]; [left|right]; split; auto.
    - now apply preserves_shape_spec.
    - intro H. apply preserves_shape_spec in H. congruence.
  Qed.

  (** scalar strengths (scaling of shape (L,)), L > 1: scalars, 1-element
      clocks and leaves whose last axis is not L come back unchanged *)
  Theorem C15_clocks_untouched (fexp : F -> F) L (lw : nat -> nat) (a c s r : F) p order (x : arr) :
    (1 < L)%nat ->
    (fst x = [] \/ fst x = [1%nat] \/ exists pre d, fst x = pre ++ [d] /\ d <> L) ->
    exponential_filter fexp L lw (scalar_arr a) c p [x] = Some [x] /\
    horizontal_diffusion_filter fexp L lw (scalar_arr s) r order [x] = Some [x].
  Proof.
    intros HL Hx. assert (L <> 1%nat) by lia. split.
    - now apply (wn_filter_nonspectral fexp L lw a (exp_of c p (maxn L lw))).
    - now apply (wn_filter_nonspectral fexp L lw s (hd_of r order)).
  Qed.

  Theorem C15_rescale_slicewise (T : nat) (ss ls : list nat) (s x : list nat -> F) i idx :
    length ss = length ls -> length idx = length ls -> (i < T)%nat ->
    snd (rescale (T :: ss, s) (T :: ls, x)) (i :: idx)
    = snd (rescale (slice i (T :: ss, s)) (slice i (T :: ls, x))) idx.
  Proof. exact (rescale_slice T ss ls s x i idx). Qed.

  (** strengths of shape (T,1,1,1) on leaves (T,K,M,L): slice i is filtered
      with the scalar strength number i *)
  Theorem C15_array_strength_slicewise (fexp : F -> F) T K M L (lw : nat -> nat) (av : list nat -> F)
          (c r : F) p order (x : list nat -> F) i k m j eA eS hA hS :
    (i < T)%nat -> (j < L)%nat ->
    exp_filter_exponent L lw ([T; 1; 1; 1]%nat, av) c p = Some eA ->
    exp_filter_exponent L lw (scalar_arr (av [i; 0; 0; 0]%nat)) c p = Some eS ->
    hd_filter_exponent L lw ([T; 1; 1; 1]%nat, av) r order = Some hA ->
    hd_filter_exponent L lw (scalar_arr (av [i; 0; 0; 0]%nat)) r order = Some hS ->
    (fst eA = [T; 1; 1; L]%nat /\
     snd (rescale (map_arr fexp eA) ([T; K; M; L], x)) [i; k; m; j]
     = snd (rescale (map_arr fexp eS) (slice i ([T; K; M; L], x))) [k; m; j]) /\
    (fst hA = [T; 1; 1; L]%nat /\
     snd (rescale (map_arr fexp hA) ([T; K; M; L], x)) [i; k; m; j]
     = snd (rescale (map_arr fexp hS) (slice i ([T; K; M; L], x))) [k; m; j]).
  Proof.
    intros Hi Hj E1 E2 E3 E4. split.
    - now apply (wn_filter_slicewise fexp T K M L lw av (exp_of c p (maxn L lw))).
    - now apply (wn_filter_slicewise fexp T K M L lw av (hd_of r order)).
  Qed.

  (** for every function with the properties of exp: factors in (0,1], two
      half steps = one full step on every leaf *)
  Section WithExp.
    Variable fexp : F -> F.
    Hypothesis H_exp_0 : fexp 0 = 1.
    Hypothesis H_exp_add : forall x y, fexp (x + y) = fexp x * fexp y.
    Hypothesis H_exp_pos : forall x, flt 0 (fexp x).
    Hypothesis H_exp_mono : forall x y, fle x y -> fle (fexp x) (fexp y).

    Theorem C15_factor_in_unit_interval (e : F) : fle e 0 -> flt 0 (fexp e) /\ fle (fexp e) 1.
    Proof. exact (scaling_unit fexp H_exp_0 H_exp_pos H_exp_mono e). Qed.

    Theorem C15_half_steps_compose L (lw : nat -> nat) (dt tau c r : F) p order (x : arr) idx eh ef hh hf :
      (0 < L)%nat -> (0 < maxn L lw)%nat -> r <> 0 -> tau <> 0 ->
      exp_filter_exponent L lw (exp_step_att (dt / ftwo) (scalar_arr tau)) c p = Some eh ->
      exp_filter_exponent L lw (exp_step_att dt (scalar_arr tau)) c p = Some ef ->
      hd_filter_exponent L lw (hd_step_scale L lw (dt / ftwo) (scalar_arr tau) r order) r order = Some hh ->
      hd_filter_exponent L lw (hd_step_scale L lw dt (scalar_arr tau) r order) r order = Some hf ->
      (fst (rescale (map_arr fexp eh) (rescale (map_arr fexp eh) x)) = fst (rescale (map_arr fexp ef) x) /\
       snd (rescale (map_arr fexp eh) (rescale (map_arr fexp eh) x)) idx = snd (rescale (map_arr fexp ef) x) idx) /\
      (fst (rescale (map_arr fexp hh) (rescale (map_arr fexp hh) x)) = fst (rescale (map_arr fexp hf) x) /\
       snd (rescale (map_arr fexp hh) (rescale (map_arr fexp hh) x)) idx = snd (rescale (map_arr fexp hf) x) idx).
    Proof.
      intros HL Hm Hr Ht E1 E2 E3 E4. split.
      - apply (wn_filter_twice fexp H_exp_add L lw (dt / tau) (dt / ftwo / tau) (exp_of c p (maxn L lw)));
          [|exact E1|exact E2].
        intros l. now apply exp_step_semigroup.
      - apply (wn_filter_twice fexp H_exp_add L lw (hd_step_scale_s L lw dt tau r order)
                 (hd_step_scale_s L lw (dt / ftwo) tau r order) (hd_of r order)); [|exact E3|exact E4].
        intros l. now apply hd_step_semigroup.
    Qed.
  End WithExp.

  (** Robert-Asselin: (filtered current, future); the newest level is
      returned as is, shapes are kept, and where previous + future = 2 current
      (linear in time) the current value is kept *)
  Theorem C15_robert_asselin (r : F) (prev cur u0 fut res1 res2 : tree) (d : arr) :
    robert_asselin_leapfrog_filter r (prev, cur) (u0, fut) = Some (res1, res2) ->
    res2 = fut /\ length res1 = length cur /\
    forall n, (n < length cur)%nat ->
      fst (nth n res1 d) = fst (nth n cur d) /\
      forall idx,
        snd (nth n res1 d) idx
        = (1 - ftwo * r) * snd (nth n cur d) idx + r * (snd (nth n prev d) idx + snd (nth n fut d) idx) /\
        (snd (nth n prev d) idx + snd (nth n fut d) idx = ftwo * snd (nth n cur d) idx ->
         snd (nth n res1 d) idx = snd (nth n cur d) idx).
  Proof. exact (robert_asselin_spec r prev cur u0 fut res1 res2 d). Qed.

  Theorem C15_robert_asselin_defined (r : F) (prev cur u0 fut : @tree F) :
    length prev = length cur -> length fut = length cur ->
    exists res, robert_asselin_leapfrog_filter r (prev, cur) (u0, fut) = Some (res, fut).
  Proof. exact (robert_asselin_defined r prev cur u0 fut). Qed.

  (** adapters: the Runge-Kutta adapter filters u_next and ignores u; the
      leapfrog adapter filters only the newest of the two time levels *)
  Theorem C15_step_filter_adapters (f : @tree F -> option (@tree F)) (u u_next : tree) (v v_next : tree * tree) :
    runge_kutta_step_filter f u u_next = f u_next /\
    leapfrog_step_filter f v v_next
    = match f (snd v_next) with Some y => Some (fst v_next, y) | None => None end.
  Proof. split; reflexivity. Qed.
End C15.

Local Open Scope R_scope.

Lemma exp_le_mono (x y : R) : x <= y -> exp x <= exp y.
Proof. intros [H|H]; [left; now apply exp_increasing|right; now rewrite H]. Qed.

Theorem C15_scaling_in_unit_interval_R (a c scale r dt tau : R) p order L (lw : nat -> nat) l :
  (0 < L)%nat -> (0 < maxn L lw)%nat -> (1 <= p)%nat -> (1 <= order)%nat ->
  0 <= a -> 0 <= c < 1 -> 0 <= scale -> r <> 0 -> 0 < dt -> 0 < tau ->
  0 < exp (exp_exponent a c p (maxn L lw) l) <= 1 /\
  0 < exp (hd_exponent scale r order l) <= 1 /\
  0 < exp (exp_exponent (dt / tau) c p (maxn L lw) l) <= 1 /\
  0 < exp (hd_exponent (hd_step_scale_s L lw dt tau r order) r order l) <= 1.
Proof.
  intros HL Hm Hp Ho Ha [Hc0 Hc1] Hs Hr Hdt Htau.
  destruct (@C15_scaling_in_unit_interval R ROps ROrd a c scale r dt tau p order L lw l) as (H1 & H2 & H3 & H4);
    try assumption; try (apply fle_R; assumption); try (apply flt_R; assumption).
  apply fle_R in H1, H2, H3, H4.
  assert (A : forall e : R, e <= 0 -> 0 < exp e <= 1).
  { intros e He. split; [apply exp_pos|]. rewrite <- exp_0. now apply exp_le_mono. }
  repeat split; apply A; assumption.
Qed.

Theorem C15_mean_untouched_R (a c scale r : R) p order lmax :
  0 <= c -> (1 <= order)%nat ->
  exp (exp_exponent a c p lmax 0) = 1 /\ exp (hd_exponent scale r order 0) = 1.
Proof.
  intros Hc Ho.
  destruct (@C15_mean_untouched R ROps ROrd a c scale r p order lmax) as [H1 H2];
    [apply fle_R; assumption|assumption|].
  rewrite H1, H2. split; apply exp_0.
Qed.

Theorem C15_non_increasing_R (a c scale r : R) p order lmax l l' :
  (l <= l')%nat -> (0 < lmax)%nat -> 0 <= a -> 0 <= c < 1 -> 0 <= scale -> r <> 0 ->
  exp (exp_exponent a c p lmax l') <= exp (exp_exponent a c p lmax l) /\
  exp (hd_exponent scale r order l') <= exp (hd_exponent scale r order l).
Proof.
  intros Hl Hm Ha [Hc0 Hc1] Hs Hr.
  destruct (@C15_non_increasing R ROps ROrd a c scale r p order lmax l l') as [H1 H2];
    try assumption; try (apply fle_R; assumption); try (apply flt_R; assumption).
  apply fle_R in H1, H2. split; now apply exp_le_mono.
Qed.

(** two applications with half the step = one with the full step *)
Theorem C15_semigroup_R (dt tau c r : R) p order L (lw : nat -> nat) l :
  (0 < L)%nat -> (0 < maxn L lw)%nat -> r <> 0 -> tau <> 0 ->
  exp (exp_exponent ((dt / 2) / tau) c p (maxn L lw) l) * exp (exp_exponent ((dt / 2) / tau) c p (maxn L lw) l)
  = exp (exp_exponent (dt / tau) c p (maxn L lw) l) /\
  exp (hd_exponent (hd_step_scale_s L lw (dt / 2) tau r order) r order l)
  * exp (hd_exponent (hd_step_scale_s L lw (dt / 2) tau r order) r order l)
  = exp (hd_exponent (hd_step_scale_s L lw dt tau r order) r order l).
Proof.
  intros HL Hm Hr Ht.
  destruct (@C15_semigroup R ROps ROrd dt tau c r p order L lw l HL Hm Hr Ht) as [H1 H2].
  change (@ftwo R ROps) with (1 + 1) in H1, H2. change (@fdiv R ROps) with Rdiv in H1, H2.
  change (@fmul R ROps) with Rmult in H1, H2. replace (1 + 1) with 2 in H1, H2 by lra.
  rewrite H1, H2, <- !exp_plus. split; f_equal; lra.
Qed.

(** the real exponential satisfies the four hypotheses of [WithExp] *)
Theorem C15_exp_hypotheses_R :
  exp 0 = 1 /\ (forall x y, exp (x + y) = exp x * exp y) /\
  (forall x, @flt R ROps 0 (exp x)) /\ (forall x y, @fle R ROps x y -> @fle R ROps (exp x) (exp y)).
Proof.
  split; [apply exp_0|]. split; [apply exp_plus|]. split.
  - intros x. apply flt_R. apply exp_pos.
  - intros x y H. apply fle_R. apply fle_R in H. now apply exp_le_mono.
Qed.

Local Close Scope R_scope.

(** Non-vacuity over Qc: the hypotheses hold on a concrete instance (L = 5 with
    one padded column, attenuation 16, order 2, cutoff 1/4, radius 2) and the
    model computes the expected numbers. *)
Example C15_hyps_satisfiable :
  let lw := fun j : nat => nth j [0; 1; 2; 3; 0]%nat 0%nat in
  let q := fun z : Z => Q2Qc (inject_Z z) in
  maxn 5 lw = 3%nat /\
  @fle Qc QcOps 0 (q 16%Z) /\ @fle Qc QcOps 0 (Q2Qc (1#4)) /\ @flt Qc QcOps (Q2Qc (1#4)) 1 /\ q 2%Z <> 0 /\
  @exp_exponent Qc QcOps (q 16%Z) (Q2Qc (1#4)) 1 3 3 = Q2Qc (-16) /\
  @exp_exponent Qc QcOps (q 16%Z) (Q2Qc (1#4)) 1 3 0 = 0 /\
  @hd_exponent Qc QcOps (q 1%Z) (q 2%Z) 2 3 = Q2Qc (-9) /\
  @max_abs_eig Qc QcOps 5 lw (q 2%Z) = Q2Qc 3 /\
  preserves_shape [2; 7; 5]%nat [5]%nat = true /\ preserves_shape [3]%nat [5]%nat = false /\
  preserves_shape [1]%nat [5]%nat = false /\ preserves_shape []%nat [5]%nat = false /\
  preserves_shape [2; 3; 7; 5]%nat [2; 1; 1; 5]%nat = true /\
  broadcast_shapes [3]%nat [5]%nat = None /\ broadcast_shapes [2; 1; 1; 1]%nat [5]%nat = Some [2; 1; 1; 5]%nat.
Proof.
  cbv zeta. repeat split; try (vm_compute; reflexivity); try (apply Qc_is_canon; vm_compute; reflexivity).
  intro H. discriminate H.
Qed.

(** Tie to the source by translation (regenerated on every run).
    The exponent / strength formulas the theorems above are about ARE the
    expressions of dinosaur/filtering.py and dinosaur/time_integration.py:
    [*_src] are transcribed from the AST by tools/translate/gen_filters.py. *)
Theorem C15_model_is_source {F : Type} {o : Ops F} {Fc : FieldC o}
    (a c scale r dt rr p0 c0 f0 : F) (tau : arr) (p order lmax l L : nat) (lw : nat -> nat) idx :
  exp_exponent a c p lmax l = exp_exponent_src a c p (fnat l) (fnat lmax) /\
  hd_exponent scale r order l = hd_exponent_src scale (lap_eig r l) order /\
  snd (exp_step_att dt tau) idx = exp_step_att_src dt (snd tau idx) /\
  snd (exp_step_att dt tau) idx = exp_leapfrog_att_src dt (snd tau idx) /\
  snd (hd_step_scale L lw dt tau r order) idx = hd_step_scale_src dt (snd tau idx) (max_abs_eig L lw r) order /\
  ra_value rr p0 c0 f0 = ra_value_src rr p0 c0 f0.
Proof.
  split; [apply exp_exponent_matches_source|].
  split; [apply hd_exponent_matches_source|].
  split; [apply (exp_step_att_matches_source dt tau idx)|].
  split; [apply (exp_step_att_matches_source dt tau idx)|].
  split; [apply hd_step_scale_matches_source|].
  apply ra_value_matches_source.
Qed.

Theorem C15_source_defaults_and_adapters :
  gen_filters_ok = true /\
  exp_step_adapter_is_runge_kutta = true /\ exp_leapfrog_adapter_is_leapfrog = true /\
  (default_exp_attenuation == 16)%Q /\ (default_exp_order == 18)%Q /\ (default_exp_cutoff == 0)%Q /\
  (default_hd_order == 1)%Q /\ (default_hd_step_order == 1)%Q /\
  (default_step_tau == 10938 # 1000000)%Q /\ (default_lf_tau == default_step_tau)%Q /\
  (default_step_order == 18)%Q /\ (default_lf_order == 18)%Q /\
  (default_step_cutoff == 0)%Q /\ (default_lf_cutoff == 0)%Q.
Proof.
  split; [exact gen_filters_complete|]. split; [apply filter_adapters_as_modelled|].
  split; [apply filter_adapters_as_modelled|]. exact filter_defaults_documented.
Qed.

Print Assumptions C15_scaling_in_unit_interval.
Print Assumptions C15_mean_untouched.
Print Assumptions C15_non_increasing.
Print Assumptions C15_semigroup.
Print Assumptions C15_hd_step_top_mode.
Print Assumptions C15_depends_on_l_only.
Print Assumptions C15_nonspectral_leaves_untouched.
Print Assumptions C15_clocks_untouched.
Print Assumptions C15_rescale_slicewise.
Print Assumptions C15_array_strength_slicewise.
Print Assumptions C15_factor_in_unit_interval.
Print Assumptions C15_half_steps_compose.
Print Assumptions C15_robert_asselin.
Print Assumptions C15_robert_asselin_defined.
Print Assumptions C15_step_filter_adapters.
Print Assumptions C15_scaling_in_unit_interval_R.
Print Assumptions C15_mean_untouched_R.
Print Assumptions C15_non_increasing_R.
Print Assumptions C15_semigroup_R.
Print Assumptions C15_exp_hypotheses_R.
Print Assumptions C15_hyps_satisfiable.
Print Assumptions C15_model_is_source.
Print Assumptions C15_source_defaults_and_adapters.
