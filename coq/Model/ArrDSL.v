(** A tiny DSL for 1-D array programs along one axis (the vertical axis of
    dinosaur/sigma_coordinates.py).  Definitions only.  An array is a pair
    [(length, index function)].  The generated file Gen/SigmaSrc.v
    (tools/translate/gen_sigma.py) is written in these combinators; the generic
    lemmas about them are in Thm/SigmaSrc.v. *)
From Dino Require Import Base.Ops Base.Sums Base.Ord Model.Sigma.
Local Open Scope F_scope.

(** python slice / index bound: [None], a non-negative literal, a negative literal [-i] *)
Inductive bnd : Type := BNone | BPos (i : nat) | BNeg (i : nat).

Definition norm_bound (n d : nat) (b : bnd) : nat :=
  match b with BNone => d | BPos i => Nat.min n i | BNeg i => (n - i)%nat end.

Fixpoint all_upto (n : nat) (p : nat -> bool) : bool :=
  match n with O => true | S k => all_upto k p && p k end.

Definition arr (F : Type) : Type := (nat * (nat -> F))%type.
Definition barr : Type := (nat * (nat -> bool))%type.

Section ArrDSL.
  Context {F : Type} {o : Ops F}.
  Local Notation arr := (arr F).

  (** small non-negative integer literals of the source: 0 + 1 + ... + 1 *)
  Fixpoint a_nat (n : nat) : F := match n with O => 0 | S k => a_nat k + 1 end.

  (** [x[lo:hi]], [lax.slice_in_dim(x, lo, hi)]: bounds clamped to [0, len], empty when hi <= lo *)
  Definition a_slice (lo hi : bnd) (a : arr) : arr :=
    let l := norm_bound (fst a) 0 lo in
    let h := norm_bound (fst a) (fst a) hi in
    ((h - l)%nat, fun k => snd a (l + k)%nat).
  (** [x[i]] *)
  Definition a_get (a : arr) (i : bnd) : F := snd a (norm_bound (fst a) 0 i).

  Definition a_const (n : nat) (v : F) : arr := (n, fun _ => v).
  Definition a_concat (a c : arr) : arr :=
    ((fst a + fst c)%nat, fun k => if Nat.ltb k (fst a) then snd a k else snd c (k - fst a)%nat).
  Definition a_concatl (l : list arr) : arr := fold_right a_concat (a_const 0 0) l.
  Definition a_pad_front (v : F) (a : arr) : arr := a_concat (a_const 1 v) a.
  (** np.diff *)
  Definition a_diff (a : arr) : arr := ((fst a - 1)%nat, fun k => snd a (S k) - snd a k).
  Definition a_map (f : F -> F) (a : arr) : arr := (fst a, fun k => f (snd a k)).
  (** elementwise binary operation of two arrays of equal length (python raises on unequal lengths;
      here the length of the left operand is used) *)
  Definition a_map2 (f : F -> F -> F) (a c : arr) : arr := (fst a, fun k => f (snd a k) (snd c k)).
  Definition a_scale (c : F) (a : arr) : arr := a_map (fmul c) a.
  (** jax_numpy_utils.cumsum / reverse_cumsum; the method is the opaque parameter [dot] *)
  Definition a_cumsum (dot : bool) (a : arr) : arr := (fst a, cumsum_m dot (fst a) (snd a)).
  Definition a_revcumsum (dot : bool) (a : arr) : arr := (fst a, revcumsum_m dot (fst a) (snd a)).
  Definition a_sum (a : arr) : F := sumn (fst a) (snd a).
  (** elementwise test, python [all] *)
  Definition a_mapb (f : F -> bool) (a : arr) : barr := (fst a, fun k => f (snd a k)).
  Definition a_all (a : barr) : bool := all_upto (fst a) (snd a).
  (** explicit (top, bottom) boundary values or the default *)
  Definition bv_or (p : option (F * F)) (d : F * F) : F * F := match p with None => d | Some q => q end.
End ArrDSL.

(** *** additions for dinosaur/vertical_interpolation.py (property C17); C13 uses none of these *)
Fixpoint count_upto (n : nat) (p : nat -> bool) : nat :=
  match n with O => O | S k => (count_upto k p + (if p k then 1 else 0))%nat end.
(** integer arrays (jnp.arange) *)
Definition narr : Type := (nat * (nat -> nat))%type.
Definition a_arange (n : nat) : narr := (n, fun k => k).
Definition a_mapn (f : nat -> bool) (a : narr) : barr := (fst a, fun k => f (snd a k)).
(** jnp.clip(u, lo, hi) = minimum(maximum(u, lo), hi) *)
Definition a_clipn (u lo hi : nat) : nat := Nat.min (Nat.max u lo) hi.

Section ArrDSL2.
  Context {F : Type} {o : Ops F}.
  Local Notation arr := (arr F).

  (** length-checked elementwise operations: python raises on unequal lengths; here the result
      is EMPTY, so the length equalities proved about a transcription detect the mismatch *)
  Definition chk_len (n m : nat) : nat := if Nat.eqb n m then n else 0%nat.
  Definition a_map2_chk (f : F -> F -> F) (a c : arr) : arr :=
    (chk_len (fst a) (fst c), fun k => f (snd a k) (snd c k)).
  Definition a_map2b_chk (f : F -> bool -> F) (a : arr) (c : barr) : arr :=
    (chk_len (fst a) (fst c), fun k => f (snd a k) (snd c k)).
  (** boolean array used as numbers *)
  Definition a_ofb (c : barr) : arr := (fst c, fun k => ind (snd c k)).
  (** jnp.where(scalar condition, a, c) *)
  Definition a_if_chk (t : bool) (a c : arr) : arr :=
    (chk_len (fst a) (fst c), fun k => if t then snd a k else snd c k).
  (** jnp.dot of two 1-D arrays *)
  Definition a_dot_chk (a c : arr) : F := a_sum (a_map2_chk fmul a c).
  (** jnp.pad(a, [(l, r)]) with zeros *)
  Definition a_pad (l r : nat) (a : arr) : arr := a_concatl [a_const l 0; a; a_const r 0].
  (** jnp.searchsorted(a, x, side=..., method='compare_all'): number of entries before the insertion point *)
  Definition a_count (p : F -> bool) (a : arr) : nat := count_upto (fst a) (fun k => p (snd a k)).
End ArrDSL2.
