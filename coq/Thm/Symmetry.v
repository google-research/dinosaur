(** Theorems for property C10: equivariance of the building blocks of the
    dynamical core under rotations about the polar axis (by an angle with
    abstract per-wavenumber tables c, s) and under the reflection about the
    equator.  Every field, every size, both modal layouts. *)
From Dino Require Import Base.Ops Base.Field Base.Sums Gen.DerivExprs Model.SHT Model.Deriv Model.Invariants Model.Sigma Model.Implicit
     Model.PrimEq Model.Symmetry Thm.SHT Thm.Deriv Thm.PrimEq Thm.Implicit Thm.Invariants.
Local Open Scope F_scope.

(** the row bookkeeping of Model/Symmetry.v is the one Thm/Deriv.v uses for d_dlon *)
Lemma sy_wav_jmul fast i : sy_wav fast i = jmul fast i. Proof. reflexivity. Qed.
Lemma sy_cos_dcond fast i : sy_cos fast i = dcond fast i. Proof. reflexivity. Qed.
Lemma sy_partner_partner fast i : sy_partner fast i = partner fast i. Proof. reflexivity. Qed.

(** the two rows of a wavenumber m > 0 are each other's partner, one of them the cosine row (Thm/Deriv.v [paired_layout]);
    that the partner of a row is a row is Thm/Deriv.v [partner_lt] *)
Lemma partner_wav fast i : sy_wav fast (sy_partner fast i) = sy_wav fast i.
Proof. exact (proj1 (paired_layout fast i)). Qed.

Lemma partner_cos fast i : sy_wav fast i <> 0%nat -> sy_cos fast (sy_partner fast i) = negb (sy_cos fast i).
Proof. intros E. exact (proj1 (proj2 (paired_layout fast i) E)). Qed.

Lemma partner_invol fast i : sy_partner fast (sy_partner fast i) = i.
Proof.
  destruct (Nat.eq_dec (sy_wav fast i) 0) as [E|E]; [|exact (proj2 (proj2 (paired_layout fast i) E))].
  (* wavenumber 0: row 0 of the reference layout, rows 0 and 1 of the fast one *)
  destruct fast; unfold sy_wav, dfast_j, dref_j in E.
  - assert (H : (i = 0 \/ i = 1)%nat) by lia. destruct H as [-> | ->]; reflexivity.
  - assert (i = 0)%nat as -> by lia. reflexivity.
Qed.

Section OverField.
  Context {F : Type} {o : Ops F} {Fc : FieldC o}.
  Add Field FFsy : (field_c : FieldTh o).

  Lemma sgn_pow_S n : sgn_pow (S n) = - sgn_pow n.
  Proof.
    unfold sgn_pow. rewrite Nat.even_succ, <- Nat.negb_even. destruct (Nat.even n); cbn [negb]; ring.
  Qed.
  Lemma sgn_pow_sq n : sgn_pow n * sgn_pow n = 1.
  Proof. unfold sgn_pow. destruct (Nat.even n); ring. Qed.
  Lemma sgn_pow_pred n : (1 <= n)%nat -> sgn_pow (n - 1) = - sgn_pow n.
  Proof. intros H. replace n with (S (n - 1)) at 2 by lia. rewrite sgn_pow_S. ring. Qed.
  Lemma sgn_if_sq b : sgn_if b * sgn_if b = 1.
  Proof. destruct b; cbn; ring. Qed.
  Lemma sgn_if_negb b : sgn_if (negb b) = - sgn_if b.
  Proof. destruct b; cbn; ring. Qed.

  Lemma rot_s_wav0 fast (s : nat -> F) i : s 0%nat = 0 -> sy_wav fast i = 0%nat -> rot_s fast s i = 0.
  Proof. intros H0 E. unfold rot_s. rewrite E, H0. destruct (sy_cos fast i); ring. Qed.

  Lemma rot_s_partner fast (s : nat -> F) i : s 0%nat = 0 -> rot_s fast s (sy_partner fast i) = - rot_s fast s i.
  Proof.
    intros H0. pose proof (partner_wav fast i) as Ew.
    destruct (Nat.eq_dec (sy_wav fast i) 0) as [E|E].
    - rewrite !rot_s_wav0 by congruence. ring.
    - unfold rot_s. rewrite Ew, (partner_cos fast i E). destruct (sy_cos fast i); cbn [negb]; ring.
  Qed.

  Lemma rot_s_sq fast (s : nat -> F) a : rot_s fast s a * rot_s fast s a = s (sy_wav fast a) * s (sy_wav fast a).
  Proof. unfold rot_s. destruct (sy_cos fast a); ring. Qed.

  Section Group.
    Variable fast : bool.

    Theorem rot_compose (c1 s1 c2 s2 : nat -> F) (x : marr) i l :
      s1 0%nat = 0 -> s2 0%nat = 0 ->
      rot_modal fast c1 s1 (rot_modal fast c2 s2 x) i l
      = rot_modal fast (rot_c_comp c1 s1 c2 s2) (rot_s_comp c1 s1 c2 s2) x i l.
    Proof.
      intros H1 H2. unfold rot_modal.
      rewrite (partner_invol fast i), (partner_wav fast i), (rot_s_partner fast s2 i H2).
      unfold rot_c_comp, rot_s_comp, rot_s. destruct (sy_cos fast i); ring.
    Qed.

    Theorem rot_identity (c s : nat -> F) (x : marr) i l :
      (forall j, c j = 1) -> (forall j, s j = 0) -> rot_modal fast c s x i l = x i l.
    Proof.
      intros Hc Hs. unfold rot_modal, rot_s. rewrite Hc, Hs. destruct (sy_cos fast i); ring.
    Qed.

    Theorem rot_inverse (c s : nat -> F) (x : marr) i l :
      s 0%nat = 0 -> (forall j, c j * c j + s j * s j = 1) ->
      rot_modal fast c (rot_s_inv s) (rot_modal fast c s x) i l = x i l /\
      rot_modal fast c s (rot_modal fast c (rot_s_inv s) x) i l = x i l.
    Proof.
      intros H0 Hu.
      assert (H0' : rot_s_inv s 0%nat = 0) by (unfold rot_s_inv; rewrite H0; ring).
      assert (U : forall X : F, (c (sy_wav fast i) * c (sy_wav fast i) + s (sy_wav fast i) * s (sy_wav fast i)) * X = X)
        by (intros X; rewrite Hu; ring).
      split; rewrite rot_compose by assumption; unfold rot_modal, rot_c_comp, rot_s_comp, rot_s_inv, rot_s;
        rewrite <- (U (x i l)) at 2; destruct (sy_cos fast i); ring.
    Qed.

    Lemma rot_comp_unit (c1 s1 c2 s2 : nat -> F) j :
      c1 j * c1 j + s1 j * s1 j = 1 -> c2 j * c2 j + s2 j * s2 j = 1 ->
      rot_c_comp c1 s1 c2 s2 j * rot_c_comp c1 s1 c2 s2 j + rot_s_comp c1 s1 c2 s2 j * rot_s_comp c1 s1 c2 s2 j = 1.
    Proof.
      intros E1 E2. unfold rot_c_comp, rot_s_comp.
      transitivity ((c1 j * c1 j + s1 j * s1 j) * (c2 j * c2 j + s2 j * s2 j)); [ring|rewrite E1, E2; ring].
    Qed.

    Lemma rot_pow_s0 k (c s : nat -> F) : s 0%nat = 0 -> rot_s_pow k c s 0%nat = 0.
    Proof.
      intros H0. induction k as [|k IH]; [reflexivity|].
      cbn [rot_s_pow]. unfold rot_s_comp. rewrite H0, IH. ring.
    Qed.

    Lemma rot_pow_unit k (c s : nat -> F) j :
      c j * c j + s j * s j = 1 ->
      rot_c_pow k c s j * rot_c_pow k c s j + rot_s_pow k c s j * rot_s_pow k c s j = 1.
    Proof.
      intros Hu. induction k as [|k IH]; [cbn; ring|].
      cbn [rot_c_pow rot_s_pow]. apply rot_comp_unit; assumption.
    Qed.

    Theorem rot_pow_succ k (c s : nat -> F) (x : marr) i l :
      s 0%nat = 0 ->
      rot_modal fast (rot_c_pow (S k) c s) (rot_s_pow (S k) c s) x i l
      = rot_modal fast c s (rot_modal fast (rot_c_pow k c s) (rot_s_pow k c s) x) i l.
    Proof.
      intros H0. rewrite rot_compose; [reflexivity|assumption|apply rot_pow_s0; assumption].
    Qed.

    Theorem mir_involutive ps (x : marr) i l : mir_modal fast ps (mir_modal fast ps x) i l = x i l.
    Proof.
      unfold mir_modal.
      transitivity ((sgn_if ps * sgn_if ps) * (sgn_pow (l + sy_wav fast i) * sgn_pow (l + sy_wav fast i)) * x i l); [ring|].
      rewrite sgn_if_sq, sgn_pow_sq. ring.
    Qed.

    Theorem rot_mir_commute ps (c s : nat -> F) (x : marr) i l :
      mir_modal fast ps (rot_modal fast c s x) i l = rot_modal fast c s (mir_modal fast ps x) i l.
    Proof. unfold mir_modal, rot_modal. rewrite (partner_wav fast i). ring. Qed.

    Lemma mir_pseudo (x : marr) i l : mir_modal fast true x i l = - mir_modal fast false x i l.
    Proof. unfold mir_modal. cbn. ring. Qed.
  End Group.

  Lemma sumn_rows_cancel fast R (h : nat -> F) :
    layout_ok fast R ->
    (forall i, (i < R)%nat -> h i + h (sy_partner fast i) = 0) ->
    (fast = false -> h 0%nat = 0) ->
    sumn R h = 0.
  Proof.
    intros HR Hp H0. unfold layout_ok in HR. destruct fast.
    - replace R with (2 * (R / 2))%nat by lia. rewrite sumn_pairs_even.
      apply sumn_zero; intros j Hj.
      assert (Hi : (2 * j < R)%nat) by lia.
      generalize (Hp (2 * j)%nat Hi). unfold sy_partner, sy_cos, dfast_cond.
      replace ((2 * j + 1) mod 2)%nat with 1%nat by lia. cbn [Nat.eqb negb].
      replace (S (2 * j)) with (2 * j + 1)%nat by lia. auto.
    - replace R with (2 * (R / 2) + 1)%nat by lia. rewrite sumn_pairs_odd.
      rewrite (H0 eq_refl), sumn_zero; [ring|].
      intros j Hj.
      assert (Hi : (2 * j + 1 < R)%nat) by lia.
      generalize (Hp (2 * j + 1)%nat Hi). unfold sy_partner, sy_cos, dref_cond.
      replace ((2 * j + 1) mod 2)%nat with 1%nat by lia. cbn [Nat.eqb negb].
      replace (S (2 * j + 1)) with (2 * j + 2)%nat by lia. auto.
  Qed.

(** synthesis and analysis of Model/SHT.v over tables f, p, w *)
Section Transforms.
  Variables (fast : bool) (K L I J : nat).
  Variable f : nat -> nat -> F.
  Variable p : nat -> nat -> nat -> F.
  Variable w : nat -> F.
  Hypothesis HK : layout_ok fast K.

  (** named table hypotheses (re-checked numerically by the plugin on every explored grid) *)
  (** the real Fourier basis sampled k nodes further is the basis rotated by the angle with tables (c, s) *)
  Definition H_rot_table (k : nat) (c s : nat -> F) : Prop :=
    forall i a, (i < I)%nat -> (a < K)%nat ->
      f ((i + k) mod I)%nat a = c (sy_wav fast a) * f i a - rot_s fast s a * f i (sy_partner fast a).
  (** the cosine and the sine row of a wavenumber use the same Legendre table *)
  Definition H_p_pairs : Prop :=
    forall a j l, (a < K)%nat -> (j < J)%nat -> (l < L)%nat -> p (sy_partner fast a) j l = p a j l.
  (** parity of the associated Legendre functions on nodes symmetric about the equator *)
  Definition H_parity : Prop :=
    forall a j l, (a < K)%nat -> (j < J)%nat -> (l < L)%nat ->
      p a (J - 1 - j)%nat l = sgn_pow (l + sy_wav fast a) * p a j l.
  (** quadrature weights symmetric about the equator *)
  Definition H_nodes_sym : Prop := forall j, (j < J)%nat -> w (J - 1 - j)%nat = w j.
  Definition H_rot_unit (c s : nat -> F) : Prop := s 0%nat = 0 /\ forall j, c j * c j + s j * s j = 1.

  Lemma H_rot_table_residual k c s :
    H_rot_table k c s <-> forall i a, (i < I)%nat -> (a < K)%nat -> rot_table_residual fast I k c s f i a = 0.
  Proof.
    unfold H_rot_table, rot_table_residual. split; intros H i a Hi Ha.
    - rewrite (H i a Hi Ha). ring.
    - apply eq_of_sub_zero. exact (H i a Hi Ha).
  Qed.

  Lemma H_parity_residual :
    H_parity <-> forall a j l, (a < K)%nat -> (j < J)%nat -> (l < L)%nat -> parity_residual fast J p a j l = 0.
  Proof.
    unfold H_parity, parity_residual. split; intros H a j l Ha Hj Hl.
    - rewrite (H a j l Ha Hj Hl). ring.
    - apply eq_of_sub_zero. exact (H a j l Ha Hj Hl).
  Qed.

  Lemma rot_table_inv k c s i a :
    H_rot_table k c s -> H_rot_unit c s -> (i < I)%nat -> (a < K)%nat ->
    c (sy_wav fast a) * f ((i + k) mod I)%nat a + rot_s fast s a * f ((i + k) mod I)%nat (sy_partner fast a) = f i a.
  Proof.
    intros Ht [H0 Hu] Hi Ha.
    pose proof (partner_lt fast K a HK Ha) as Hpa.
    rewrite (Ht i a Hi Ha), (Ht i (sy_partner fast a) Hi Hpa).
    rewrite (partner_invol fast a), (partner_wav fast a), (rot_s_partner fast s a H0).
    transitivity ((c (sy_wav fast a) * c (sy_wav fast a) + rot_s fast s a * rot_s fast s a) * f i a); [ring|].
    rewrite rot_s_sq, Hu. ring.
  Qed.

  Theorem synth_rot_equivariant k c s (x : marr) i j :
    H_rot_table k c s -> H_p_pairs -> s 0%nat = 0 -> (i < I)%nat -> (j < J)%nat ->
    synth K L J f p (rot_modal fast c s x) i j = shift_lon I k (synth K L J f p x) i j.
  Proof.
    intros Ht Hpp H0 Hi Hj. unfold shift_lon. rewrite !synth_eq by assumption. unfold sum2, ylm.
    set (P := fun a => sumn L (fun l => p a j l * x a l)).
    assert (A : forall a, (a < K)%nat ->
               sumn L (fun l => f i a * p a j l * rot_modal fast c s x a l)
               = f i a * (c (sy_wav fast a) * P a + rot_s fast s a * P (sy_partner fast a))).
    { intros a Ha. unfold P, rot_modal.
      rewrite <- (sumn_scal_l L (c (sy_wav fast a))), <- (sumn_scal_l L (rot_s fast s a)), <- sumn_add, <- sumn_scal_l.
      apply sumn_ext; intros l Hl. rewrite (Hpp a j l Ha Hj Hl). ring. }
    assert (B : forall a, (a < K)%nat ->
               sumn L (fun l => f ((i + k) mod I)%nat a * p a j l * x a l)
               = (c (sy_wav fast a) * f i a - rot_s fast s a * f i (sy_partner fast a)) * P a).
    { intros a Ha. unfold P. rewrite <- sumn_scal_l. apply sumn_ext; intros l Hl.
      rewrite (Ht i a Hi Ha). ring. }
    rewrite (sumn_ext K _ _ A), (sumn_ext K _ _ B).
    apply eq_of_sub_zero. rewrite <- sumn_sub.
    (* the difference of the two row terms is symmetric in (a, partner a) up to the factor rot_s, which flips *)
    rewrite (sumn_ext K _ (fun a => rot_s fast s a * (f i a * P (sy_partner fast a) + f i (sy_partner fast a) * P a))).
    2:{ intros a _. ring. }
    apply (sumn_rows_cancel fast K _ HK).
    - intros a Ha. rewrite (partner_invol fast a), (rot_s_partner fast s a H0). ring.
    - intros ->. rewrite (rot_s_wav0 false s 0%nat H0 eq_refl). ring.
  Qed.

  (** the same for coefficients that are the rotated ones on the index range only *)
  Lemma synth_of_rotated k c s (x' x : marr) i j :
    H_rot_table k c s -> H_p_pairs -> s 0%nat = 0 -> (i < I)%nat -> (j < J)%nat ->
    (forall a l, (a < K)%nat -> (l < L)%nat -> x' a l = rot_modal fast c s x a l) ->
    synth K L J f p x' i j = synth K L J f p x ((i + k) mod I)%nat j.
  Proof.
    intros Ht Hpp H0 Hi Hj E. rewrite (synth_ext K L J f p x' _ i j Hj E). now apply synth_rot_equivariant.
  Qed.

  Theorem analysis_rot_equivariant k c s (z : marr) a l :
    H_rot_table k c s -> H_p_pairs -> H_rot_unit c s -> (a < K)%nat -> (l < L)%nat ->
    analysis K I J f p w (shift_lon I k z) a l = rot_modal fast c s (analysis K I J f p w z) a l.
  Proof.
    intros Ht Hpp Hun Ha Hl. pose proof (partner_lt fast K a HK Ha) as Hpa.
    unfold rot_modal. rewrite !analysis_eq by assumption. unfold sum2, ylm, shift_lon.
    set (G := fun i => sumn J (fun j => w j * p a j l * (c (sy_wav fast a) * f i a + rot_s fast s a * f i (sy_partner fast a)) * z i j)).
    transitivity (sumn I G).
    2:{ unfold G. rewrite <- !sumn_scal_l, <- sumn_add. apply sumn_ext; intros i Hi.
        rewrite <- !sumn_scal_l, <- sumn_add. apply sumn_ext; intros j Hj.
        rewrite (Hpp a j l Ha Hj Hl). ring. }
    rewrite <- (sumn_cyclic_shift I k G).
    apply sumn_ext; intros i Hi. unfold G. apply sumn_ext; intros j Hj.
    rewrite (rot_table_inv k c s i a Ht Hun Hi Ha). ring.
  Qed.

  Theorem synth_mir_equivariant ps (x : marr) i j :
    H_parity -> (j < J)%nat ->
    synth K L J f p (mir_modal fast ps x) i j = sgn_if ps * flip_lat J (synth K L J f p x) i j.
  Proof.
    intros Hp Hj. unfold flip_lat. rewrite !synth_eq by lia. unfold sum2, ylm.
    rewrite <- sumn_scal_l. apply sumn_ext; intros a Ha.
    rewrite <- sumn_scal_l. apply sumn_ext; intros l Hl.
    rewrite (Hp a j l Ha Hj Hl). unfold mir_modal. ring.
  Qed.

  Lemma synth_of_mirrored ps (x' x : marr) i j :
    H_parity -> (j < J)%nat -> (forall a l, (a < K)%nat -> (l < L)%nat -> x' a l = mir_modal fast ps x a l) ->
    synth K L J f p x' i j = sgn_if ps * synth K L J f p x i (J - 1 - j)%nat.
  Proof.
    intros Hp Hj E. rewrite (synth_ext K L J f p x' _ i j Hj E). now apply synth_mir_equivariant.
  Qed.

  Theorem analysis_mir_equivariant ps (z : marr) a l :
    H_parity -> H_nodes_sym -> (a < K)%nat -> (l < L)%nat ->
    analysis K I J f p w (fun i j => sgn_if ps * flip_lat J z i j) a l = mir_modal fast ps (analysis K I J f p w z) a l.
  Proof.
    intros Hp Hw Ha Hl. unfold mir_modal. rewrite !analysis_eq by assumption. unfold sum2, ylm, flip_lat.
    rewrite <- sumn_scal_l. apply sumn_ext; intros i Hi.
    rewrite (sumn_rev J (fun j => w j * (f i a * p a j l) * z i j)).
    rewrite <- sumn_scal_l. apply sumn_ext; intros j Hj.
    rewrite (Hw j Hj), (Hp a j l Ha Hj Hl).
    transitivity ((sgn_pow (l + sy_wav fast a) * sgn_pow (l + sy_wav fast a)) *
                  (sgn_if ps * (w j * (f i a * p a j l) * z i (J - 1 - j)%nat))); [rewrite sgn_pow_sq; ring|ring].
  Qed.
End Transforms.

Section Operators.
  Variables (fast : bool) (R : nat).
  Hypothesis HR : layout_ok fast R.

  Definition reindex (pi : nat -> nat -> nat * nat) (u : nat -> nat -> F) : nat -> nat -> F := fun i j => u (fst (pi i j)) (snd (pi i j)).

  Theorem nodal_pointwise_any (phi : F -> F -> F) pi (y z : marr) i j :
    reindex pi (fun i j => phi (y i j) (z i j)) i j = phi (reindex pi y i j) (reindex pi z i j).
  Proof. reflexivity. Qed.

  Theorem nodal_mul_shift_flip I J k (y z : marr) i j :
    nodal_mul (shift_lon I k y) (shift_lon I k z) i j = shift_lon I k (nodal_mul y z) i j /\
    nodal_mul (flip_lat J y) (flip_lat J z) i j = flip_lat J (nodal_mul y z) i j /\
    (* odd x odd = even, odd x even = odd *)
    nodal_mul (fun i j => - flip_lat J y i j) (fun i j => - flip_lat J z i j) i j = flip_lat J (nodal_mul y z) i j /\
    nodal_mul (fun i j => - flip_lat J y i j) (flip_lat J z) i j = - flip_lat J (nodal_mul y z) i j.
  Proof. unfold nodal_mul, shift_lon, flip_lat. repeat split; ring. Qed.

  Theorem column_op_equivariant N (A : nat -> nat -> F) (x : stack3) (c s : nat -> F) ps I J k n i l :
    column_op N A (rot_stack fast c s x) n i l = rot_stack fast c s (column_op N A x) n i l /\
    column_op N A (mir_stack fast ps x) n i l = mir_stack fast ps (column_op N A x) n i l /\
    column_op N A (fun n => shift_lon I k (x n)) n i l = shift_lon I k (column_op N A x n) i l /\
    column_op N A (fun n => flip_lat J (x n)) n i l = flip_lat J (column_op N A x n) i l.
  Proof.
    unfold column_op, rot_stack, mir_stack, rot_modal, mir_modal, shift_lon, flip_lat. repeat split; try reflexivity.
    - rewrite <- !sumn_scal_l, <- sumn_add. apply sumn_ext; intros; ring.
    - rewrite <- !sumn_scal_l. apply sumn_ext; intros; ring.
  Qed.

  Lemma dlon_row (x : marr) i l :
    (i < R)%nat ->
    d_dlon fast R x i l = (if sy_cos fast i then lit (sy_wav fast i) else - lit (sy_wav fast i)) * x (sy_partner fast i) l.
  Proof. intros Hi. exact (proj2 (d_dlon_partner fast R x i l HR Hi)). Qed.

  Theorem dlon_rot_commute (c s : nat -> F) (x : marr) i l :
    (i < R)%nat -> s 0%nat = 0 ->
    d_dlon fast R (rot_modal fast c s x) i l = rot_modal fast c s (d_dlon fast R x) i l.
  Proof.
    intros Hi H0. pose proof (partner_lt fast R i HR Hi) as Hp.
    rewrite dlon_row by assumption. unfold rot_modal. rewrite !dlon_row by assumption.
    rewrite (partner_invol fast i), (partner_wav fast i), (rot_s_partner fast s i H0).
    destruct (Nat.eq_dec (sy_wav fast i) 0) as [E|E].
    - rewrite E. cbn [lit]. destruct (sy_cos fast i), (sy_cos fast (sy_partner fast i)); ring.
    - rewrite (partner_cos fast i E). unfold rot_s. destruct (sy_cos fast i); cbn [negb]; ring.
  Qed.

  Theorem dlon_mir_commute ps (x : marr) i l :
    (i < R)%nat -> d_dlon fast R (mir_modal fast ps x) i l = mir_modal fast ps (d_dlon fast R x) i l.
  Proof.
    intros Hi. rewrite dlon_row by assumption. unfold mir_modal. rewrite dlon_row by assumption.
    rewrite (partner_wav fast i). ring.
  Qed.

  (** functions of the total wavenumber only: laplacian, inverse laplacian, clip, spectral filters *)
  Theorem l_scale_equivariant (e : nat -> F) (c s : nat -> F) ps (x : marr) i l :
    l_scale e (rot_modal fast c s x) i l = rot_modal fast c s (l_scale e x) i l /\
    l_scale e (mir_modal fast ps x) i l = mir_modal fast ps (l_scale e x) i l.
  Proof. unfold l_scale, rot_modal, mir_modal. split; ring. Qed.

  Lemma laplacian_is_l_scale L r (x : marr) : laplacian L r x = l_scale (lap_eig L r) x.
  Proof. reflexivity. Qed.
  Lemma inverse_laplacian_is_l_scale L r (x : marr) : inverse_laplacian L r x = l_scale (inv_eig L r) x.
  Proof. reflexivity. Qed.
  Lemma clip_is_l_scale L C n (x : marr) :
    clip L C n x = l_scale (fun l => if Nat.ltb l (C - (n + (C - L))) then 1 else 0) x.
  Proof. reflexivity. Qed.

  (** latitude operators (cos_lat_d_dlat, sec_lat_d_dlat_cos2): weighted shifts of l by +-1.  The rotation commutes
      with them when the weights agree on partner rows *)
  Lemma shift2_rot_commute C om op (wm wp : arr2) (c s : nat -> F) (x : marr) i l :
    (i < R)%nat -> s 0%nat = 0 -> sym_rows fast R wm -> sym_rows fast R wp ->
    shift2 C om op wm wp (rot_modal fast c s x) i l = rot_modal fast c s (shift2 C om op wm wp x) i l.
  Proof.
    intros Hi H0 Sm Sp. unfold rot_modal, shift2, shift_cols.
    destruct (shift1_pick C om l) as (c1 & j1 & _ & E1), (shift1_pick C op l) as (c2 & j2 & _ & E2).
    rewrite !E1, !E2.
    destruct (Nat.eq_dec (sy_wav fast i) 0) as [E|E].
    - rewrite (rot_s_wav0 fast s i H0 E). ring.
    - pose proof (Sm i j1 Hi E) as Em. pose proof (Sp i j2 Hi E) as Ep.
      change (partner fast i) with (sy_partner fast i) in Em, Ep. rewrite <- Em, <- Ep. ring.
  Qed.

  (** ... and anti-commute with the mirror: in the range they are tridiagonal ([tri]) *)
  Lemma tri_mir_anticommute C (wm wp : nat -> nat -> F) ps (x : marr) i l :
    tri C wm wp (mir_modal fast ps x) i l = mir_modal fast (negb ps) (tri C wm wp x) i l.
  Proof.
    unfold tri, mir_modal. rewrite sgn_if_negb.
    change (S l + sy_wav fast i)%nat with (S (l + sy_wav fast i)). rewrite sgn_pow_S.
    destruct (Nat.eqb_spec l 0) as [->|Hl].
    - destruct (Nat.ltb 1 C); ring.
    - replace (l - 1 + sy_wav fast i)%nat with (l + sy_wav fast i - 1)%nat by lia.
      rewrite sgn_pow_pred by lia. destruct (Nat.ltb (S l) C); ring.
  Qed.

  Theorem lat_derivatives_rot L C (a b : marr) (c s : nat -> F) (x : marr) i l :
    (i < R)%nat -> s 0%nat = 0 -> sym_rows fast R a -> sym_rows fast R b ->
    D1 L C a b (rot_modal fast c s x) i l = rot_modal fast c s (D1 L C a b x) i l /\
    D2 L C a b (rot_modal fast c s x) i l = rot_modal fast c s (D2 L C a b x) i l.
  Proof.
    intros Hi H0 Sa Sb. rewrite !D1_shift2, !D2_shift2.
    split; apply shift2_rot_commute; try assumption; now apply (sym_rows_map fast R (fun l => _)).
  Qed.

  Theorem lat_derivatives_mirror_sign L C (a b : marr) ps (x : marr) i l :
    (l < C)%nat ->
    D1 L C a b (mir_modal fast ps x) i l = mir_modal fast (negb ps) (D1 L C a b x) i l /\
    D2 L C a b (mir_modal fast ps x) i l = mir_modal fast (negb ps) (D2 L C a b x) i l.
  Proof.
    intros Hl. split.
    - rewrite D1_entries by assumption. unfold mir_modal at 2. rewrite D1_entries by assumption. apply tri_mir_anticommute.
    - rewrite D2_entries by assumption. unfold mir_modal at 2. rewrite D2_entries by assumption. apply tri_mir_anticommute.
  Qed.

  Theorem coriolis_symmetry omega (sinlat : nat -> F) I J k i j :
    (forall j, (j < J)%nat -> sinlat (J - 1 - j)%nat = - sinlat j) -> (j < J)%nat ->
    shift_lon I k (coriolis omega sinlat) i j = coriolis omega sinlat i j /\
    flip_lat J (coriolis omega sinlat) i j = - coriolis omega sinlat i j.
  Proof.
    intros Hs Hj. unfold shift_lon, flip_lat, coriolis. split; [reflexivity|]. rewrite (Hs j Hj). ring.
  Qed.
End Operators.

Section VectorCalculus.
  Variables (fast : bool) (L R C : nat) (r : F) (a b : @marr F) (cl : bool).
  Hypothesis HR : layout_ok fast R.

  (** mirror: a scalar (ps = false) has an (even, odd) gradient; the divergence of an (even, odd) vector is a
      scalar, its curl a pseudo-scalar; k-cross flips the sign.  With ps = true the same for pseudo-scalars. *)
  Lemma grad_lon_mir ps (x : marr) i l :
    (i < R)%nat ->
    fst (cos_lat_grad fast L R C r a b cl (mir_modal fast ps x)) i l = mir_modal fast ps (fst (cos_lat_grad fast L R C r a b cl x)) i l.
  Proof.
    intros Hi. unfold cos_lat_grad. cbn [fst]. rewrite clip_if_entry, (dlon_mir_commute fast R HR) by assumption.
    unfold mir_modal. rewrite clip_if_entry, !fdiv_mul. ring.
  Qed.

  Lemma grad_lat_mir ps (x : marr) i l :
    (l < C)%nat ->
    snd (cos_lat_grad fast L R C r a b cl (mir_modal fast ps x)) i l
    = mir_modal fast (negb ps) (snd (cos_lat_grad fast L R C r a b cl x)) i l.
  Proof.
    intros Hl. unfold cos_lat_grad. cbn [snd]. rewrite clip_if_entry, (proj1 (lat_derivatives_mirror_sign fast L C a b ps x i l Hl)).
    unfold mir_modal. rewrite clip_if_entry, !fdiv_mul. ring.
  Qed.

  Lemma div_mir ps (u v : marr) i l :
    (i < R)%nat -> (l < C)%nat ->
    div_cos_lat fast L R C r a b cl (mir_modal fast ps u, mir_modal fast (negb ps) v) i l
    = mir_modal fast ps (div_cos_lat fast L R C r a b cl (u, v)) i l.
  Proof.
    intros Hi Hl. unfold div_cos_lat. cbn [fst snd].
    rewrite clip_if_entry, (dlon_mir_commute fast R HR), (proj2 (lat_derivatives_mirror_sign fast L C a b _ v i l Hl)),
      Bool.negb_involutive by assumption.
    unfold mir_modal. rewrite clip_if_entry, !fdiv_mul. ring.
  Qed.

  Lemma curl_mir ps (u v : marr) i l :
    (i < R)%nat -> (l < C)%nat ->
    curl_cos_lat fast L R C r a b cl (mir_modal fast ps u, mir_modal fast (negb ps) v) i l
    = mir_modal fast (negb ps) (curl_cos_lat fast L R C r a b cl (u, v)) i l.
  Proof.
    intros Hi Hl. unfold curl_cos_lat. cbn [fst snd].
    rewrite clip_if_entry, (dlon_mir_commute fast R HR), (proj2 (lat_derivatives_mirror_sign fast L C a b _ u i l Hl)) by assumption.
    unfold mir_modal. rewrite clip_if_entry, !fdiv_mul. ring.
  Qed.

  Lemma k_cross_mir ps (u v : marr) i l :
    fst (k_cross (mir_modal fast ps u, mir_modal fast (negb ps) v)) i l = - mir_modal fast ps (fst (k_cross (u, v))) i l /\
    snd (k_cross (mir_modal fast ps u, mir_modal fast (negb ps) v)) i l = - mir_modal fast (negb ps) (snd (k_cross (u, v))) i l.
  Proof. unfold k_cross, mir_modal. cbn [fst snd]. rewrite sgn_if_negb. split; ring. Qed.

  Section Rot.
    Variables (c s : nat -> F) (i l : nat).
    Hypothesis (Hi : (i < R)%nat) (H0 : s 0%nat = 0) (Sa : sym_rows fast R a) (Sb : sym_rows fast R b).

    Lemma grad_rot (x : marr) :
      fst (cos_lat_grad fast L R C r a b cl (rot_modal fast c s x)) i l
        = rot_modal fast c s (fst (cos_lat_grad fast L R C r a b cl x)) i l /\
      snd (cos_lat_grad fast L R C r a b cl (rot_modal fast c s x)) i l
        = rot_modal fast c s (snd (cos_lat_grad fast L R C r a b cl x)) i l.
    Proof.
      unfold cos_lat_grad. cbn [fst snd]. split.
      - rewrite clip_if_entry, (dlon_rot_commute fast R HR) by assumption.
        unfold rot_modal. rewrite !clip_if_entry, !fdiv_mul. ring.
      - rewrite clip_if_entry, (proj1 (lat_derivatives_rot fast R L C a b c s x i l Hi H0 Sa Sb)).
        unfold rot_modal. rewrite !clip_if_entry, !fdiv_mul. ring.
    Qed.

    Lemma div_rot (u v : marr) :
      div_cos_lat fast L R C r a b cl (rot_modal fast c s u, rot_modal fast c s v) i l
      = rot_modal fast c s (div_cos_lat fast L R C r a b cl (u, v)) i l.
    Proof.
      unfold div_cos_lat. cbn [fst snd].
      rewrite clip_if_entry, (dlon_rot_commute fast R HR), (proj2 (lat_derivatives_rot fast R L C a b c s v i l Hi H0 Sa Sb))
        by assumption.
      unfold rot_modal. rewrite !clip_if_entry, !fdiv_mul. ring.
    Qed.

    Lemma curl_rot (u v : marr) :
      curl_cos_lat fast L R C r a b cl (rot_modal fast c s u, rot_modal fast c s v) i l
      = rot_modal fast c s (curl_cos_lat fast L R C r a b cl (u, v)) i l.
    Proof.
      unfold curl_cos_lat. cbn [fst snd].
      rewrite clip_if_entry, (dlon_rot_commute fast R HR), (proj2 (lat_derivatives_rot fast R L C a b c s u i l Hi H0 Sa Sb))
        by assumption.
      unfold rot_modal. rewrite !clip_if_entry, !fdiv_mul. ring.
    Qed.

    Lemma k_cross_rot (u v : marr) :
      fst (k_cross (rot_modal fast c s u, rot_modal fast c s v)) i l = rot_modal fast c s (fst (k_cross (u, v))) i l /\
      snd (k_cross (rot_modal fast c s u, rot_modal fast c s v)) i l = rot_modal fast c s (snd (k_cross (u, v))) i l.
    Proof. unfold k_cross, rot_modal. cbn [fst snd]. split; [ring|reflexivity]. Qed.
  End Rot.
End VectorCalculus.

Section PrimEqNodal.
  Variable c : @PEcfg F.

  (** every nodal function of Model/PrimEq.v is pointwise in the horizontal: if all per-node inputs are permuted
      (and the grid tables sec2_lat, f are invariant under the permutation - longitude shifts), the family of
      nodal columns is the permuted family, hence so is every nodal output *)
  Theorem primeq_nodal_shift_equivariant {P A : Type} (pi : P -> P) (fn : NCol -> A)
          (U V Z D T : P -> nat -> F) (gx gy sec2 cor : P -> F) p :
    (forall p, sec2 (pi p) = sec2 p) -> (forall p, cor (pi p) = cor p) ->
    fn (mk_cols (fun p => U (pi p)) (fun p => V (pi p)) (fun p => Z (pi p)) (fun p => D (pi p)) (fun p => T (pi p))
                (fun p => gx (pi p)) (fun p => gy (pi p)) sec2 cor p)
    = (fun p' => fn (mk_cols U V Z D T gx gy sec2 cor p')) (pi p).
  Proof. intros Hs Hf. unfold mk_cols. rewrite Hs, Hf. reflexivity. Qed.

  (** the mirrored family: node permutation (latitude reversal) with tables sec2 even, f odd, and the
      field parities of [ncol_mirror] *)
  Lemma mk_cols_mirrored {P : Type} (pi : P -> P) (U V Z D T : P -> nat -> F) (gx gy sec2 cor : P -> F) p :
    (forall p, sec2 (pi p) = sec2 p) -> (forall p, cor p = - cor (pi p)) ->
    mk_cols (fun p => U (pi p)) (fun p k => - V (pi p) k) (fun p k => - Z (pi p) k) (fun p => D (pi p)) (fun p => T (pi p))
            (fun p => gx (pi p)) (fun p => - gy (pi p)) sec2 cor p
    = ncol_mirror (mk_cols U V Z D T gx gy sec2 cor (pi p)).
  Proof.
    intros Hs Hf. unfold mk_cols, ncol_mirror. cbn [n_u n_v n_vort n_div n_temp n_gx n_gy n_sec2 n_f].
    rewrite (Hs p), (Hf p). reflexivity.
  Qed.

  (** the nodal outputs only read the column entries k < K, and each has a parity under the mirror.
      Both facts at once (no functional extensionality): [ncol_rel sg x' x] says that x' agrees on the levels
      k < K with the column x whose v, vorticity, d(lnps)/dy and Coriolis entries are multiplied by sg;
      sg = -1 is agreement with [ncol_mirror x], sg = 1 agreement with x itself. *)
  Definition ncol_eqv (x y : @NCol F) : Prop :=
    (forall k, (k < cK c)%nat -> n_u x k = n_u y k) /\ (forall k, (k < cK c)%nat -> n_v x k = n_v y k) /\
    (forall k, (k < cK c)%nat -> n_vort x k = n_vort y k) /\ (forall k, (k < cK c)%nat -> n_div x k = n_div y k) /\
    (forall k, (k < cK c)%nat -> n_temp x k = n_temp y k) /\
    n_gx x = n_gx y /\ n_gy x = n_gy y /\ n_sec2 x = n_sec2 y /\ n_f x = n_f y.

  Set Implicit Arguments.
  Record ncol_rel (sg : F) (x' x : @NCol F) : Prop := {
    rel_u : forall k, (k < cK c)%nat -> n_u x' k = n_u x k;
    rel_v : forall k, (k < cK c)%nat -> n_v x' k = sg * n_v x k;
    rel_vort : forall k, (k < cK c)%nat -> n_vort x' k = sg * n_vort x k;
    rel_div : forall k, (k < cK c)%nat -> n_div x' k = n_div x k;
    rel_temp : forall k, (k < cK c)%nat -> n_temp x' k = n_temp x k;
    rel_gx : n_gx x' = n_gx x;
    rel_gy : n_gy x' = sg * n_gy x;
    rel_sec2 : n_sec2 x' = n_sec2 x;
    rel_f : n_f x' = sg * n_f x }.
  Unset Implicit Arguments.

  Lemma ncol_rel_mirror x' x : ncol_eqv x' (ncol_mirror x) -> ncol_rel (- (1)) x' x.
  Proof.
    unfold ncol_eqv, ncol_mirror. cbn [n_u n_v n_vort n_div n_temp n_gx n_gy n_sec2 n_f].
    intros (Eu & Ev & Ez & Ed & Et & Egx & Egy & Es & Ef).
    split; try assumption; intros; rewrite ?Ev, ?Ez, ?Egy, ?Ef by assumption; ring.
  Qed.

  Lemma ncol_rel_eqv x' x : ncol_eqv x' x -> ncol_rel 1 x' x.
  Proof.
    intros (Eu & Ev & Ez & Ed & Et & Egx & Egy & Es & Ef).
    split; try assumption; intros; rewrite ?Ev, ?Ez, ?Egy, ?Ef by assumption; ring.
  Qed.

  Lemma vertical_tendency_scale (w s : nat -> F) t n :
    (n < cK c)%nat -> vertical_tendency c w (fun k => t * s k) n = t * vertical_tendency c w s n.
  Proof.
    intros Hn. rewrite !vertical_tendency_closed by assumption. unfold adv_term, centered_difference.
    destruct (Nat.ltb (S n) (cK c)), (Nat.eqb n 0), (Nat.ltb (S (n - 1)) (cK c)); ring.
  Qed.

  Lemma t_omega_ext (Tf Tf' g g' vg vg' : nat -> F) n :
    Tf n = Tf' n -> (forall k, (k < cK c)%nat -> g k = g' k) -> vg n = vg' n ->
    t_omega_over_sigma_sp c Tf g vg n = t_omega_over_sigma_sp c Tf' g' vg' n.
  Proof. intros ET Eg Ev. unfold t_omega_over_sigma_sp. now rewrite ET, Ev, (g_part_ext c g g' n Eg). Qed.

  Section Act.
    Variables (sg : F) (x' x : @NCol F).
    Hypothesis sg_sq : sg * sg = 1.
    Hypothesis E : ncol_rel sg x' x.

    Lemma sg_cancel (a b : F) : sg * a * (sg * b) = a * b.
    Proof. transitivity (sg * sg * (a * b)); [ring|rewrite sg_sq; ring]. Qed.

    Lemma udg_act k : (k < cK c)%nat -> u_dot_grad x' k = u_dot_grad x k.
    Proof.
      intros Hk. unfold u_dot_grad. now rewrite (rel_u E Hk), (rel_v E Hk), (rel_gx E), (rel_gy E), (rel_sec2 E), sg_cancel.
    Qed.

    Lemma g_full_act k : (k < cK c)%nat -> g_full_diag x' k = g_full_diag x k.
    Proof. intros Hk. unfold g_full_diag. now rewrite (rel_div E Hk), udg_act. Qed.

    Lemma g_adiabatic_act k : (k < cK c)%nat -> g_full_adiabatic x' k = g_full_adiabatic x k.
    Proof. intros Hk. unfold g_full_adiabatic. now rewrite (rel_div E Hk), udg_act. Qed.

    Lemma vt_full_act (s' s : nat -> F) n :
      (n < cK c)%nat -> (forall k, (k < cK c)%nat -> s' k = s k) ->
      vertical_tendency c (sigma_dot_full c x') s' n = vertical_tendency c (sigma_dot_full c x) s n.
    Proof.
      intros Hn Hs. apply vertical_tendency_ext; try assumption. intros k _. apply sigma_dot_ext. exact g_full_act.
    Qed.

    Lemma temp_vertical_tendency_act va n :
      (n < cK c)%nat -> temp_vertical_tendency c va x' n = temp_vertical_tendency c va x n.
    Proof.
      intros Hn. unfold temp_vertical_tendency. rewrite (vt_full_act (n_temp x') (n_temp x) n Hn (rel_temp E)).
      rewrite (vertical_tendency_ext c (sigma_dot_explicit c x') (sigma_dot_explicit c x) (cTref c) (cTref c) n Hn);
        [reflexivity| |reflexivity].
      intros k _. apply sigma_dot_ext. exact udg_act.
    Qed.

    Lemma hsa_nodal_act (s' s : nat -> F) n : (n < cK c)%nat -> s' n = s n -> hsa_nodal x' s' n = hsa_nodal x s n.
    Proof. intros Hn Hs. unfold hsa_nodal. now rewrite Hs, (rel_div E Hn). Qed.

    Lemma temp_nodal_total_act va n : (n < cK c)%nat -> temp_nodal_total c va x' n = temp_nodal_total c va x n.
    Proof.
      intros Hn. pose proof (rel_temp E) as Et. unfold temp_nodal_total, temp_adiabatic. cbv zeta.
      rewrite (hsa_nodal_act _ _ n Hn (Et n Hn)), temp_vertical_tendency_act by assumption.
      rewrite (t_omega_ext (cTref c) (cTref c) (g_explicit x') (g_explicit x) _ _ n eq_refl udg_act (udg_act n Hn)).
      now rewrite (t_omega_ext (n_temp x') (n_temp x) _ _ _ _ n (Et n Hn) g_adiabatic_act (udg_act n Hn)).
    Qed.

    Lemma temp_nodal_total_moist_act va m (q' q : nat -> F) n :
      (n < cK c)%nat -> q' n = q n -> temp_nodal_total_moist c va m x' q' n = temp_nodal_total_moist c va m x q n.
    Proof.
      intros Hn Hq. pose proof (rel_temp E) as Et. unfold temp_nodal_total_moist, temp_adiabatic_moist. cbv zeta.
      rewrite (hsa_nodal_act _ _ n Hn (Et n Hn)), temp_vertical_tendency_act by assumption.
      rewrite (t_omega_ext (cTref c) (cTref c) (g_explicit x') (g_explicit x) _ _ n eq_refl udg_act (udg_act n Hn)).
      do 3 f_equal. apply t_omega_ext; [now rewrite (Et n Hn), Hq|exact g_adiabatic_act|now apply udg_act].
    Qed.

    Lemma tracer_nodal_total_act va (s' s : nat -> F) n :
      (n < cK c)%nat -> (forall k, (k < cK c)%nat -> s' k = s k) ->
      tracer_nodal_total c va x' s' n = tracer_nodal_total c va x s n.
    Proof.
      intros Hn Hs. unfold tracer_nodal_total. rewrite (hsa_nodal_act s' s n Hn (Hs n Hn)).
      destruct va; [|reflexivity]. now rewrite (vt_full_act s' s n Hn Hs).
    Qed.

    Lemma log_pressure_tendency_act : log_pressure_tendency c x' = log_pressure_tendency c x.
    Proof.
      unfold log_pressure_tendency, sigma_integral. f_equal. apply sumn_ext; intros k Hk. unfold xdsigma. now rewrite udg_act.
    Qed.

    (** the flux components of div_sec_lat(u s, v s): (even, odd) *)
    Lemma hsa_mu_act (s' s : nat -> F) n : (n < cK c)%nat -> s' n = s n -> hsa_mu x' s' n = hsa_mu x s n.
    Proof. intros Hn Hs. unfold hsa_mu. now rewrite (rel_u E Hn), Hs, (rel_sec2 E). Qed.

    Lemma hsa_mv_act (s' s : nat -> F) n : (n < cK c)%nat -> s' n = s n -> hsa_mv x' s' n = sg * hsa_mv x s n.
    Proof.
      intros Hn Hs. unfold hsa_mv. rewrite (rel_v E Hn), Hs, (rel_sec2 E). ring.
    Qed.

    (** momentum equations: (combined_u, combined_v) is an (even, odd) vector, the kinetic energy is even *)
    Lemma combined_u_act va (rt' rt : nat -> F) n :
      (n < cK c)%nat -> rt' n = rt n -> combined_u c va x' rt' n = combined_u c va x rt n.
    Proof.
      intros Hn Hrt. unfold combined_u. cbv zeta.
      rewrite (vt_full_act (n_u x') (n_u x) n Hn (rel_u E)), (rel_v E Hn), (rel_vort E Hn), (rel_f E), (rel_sec2 E), (rel_gx E), Hrt.
      transitivity (- (sg * n_v x n * (sg * (n_vort x n + n_f x))) * n_sec2 x
                    + ((if va then - vertical_tendency c (sigma_dot_full c x) (n_u x) n else 0) + rt n * n_gx x) * n_sec2 x);
        [ring|rewrite sg_cancel; ring].
    Qed.

    Lemma combined_v_act va (rt' rt : nat -> F) n :
      (n < cK c)%nat -> rt' n = rt n -> combined_v c va x' rt' n = sg * combined_v c va x rt n.
    Proof.
      intros Hn Hrt. unfold combined_v. cbv zeta.
      rewrite (vt_full_act (n_v x') (fun k => sg * n_v x k) n Hn (rel_v E)), vertical_tendency_scale by assumption.
      rewrite (rel_u E Hn), (rel_vort E Hn), (rel_f E), (rel_sec2 E), (rel_gy E), Hrt. destruct va; ring.
    Qed.

    Lemma kinetic_act n : (n < cK c)%nat -> kinetic x' n = kinetic x n.
    Proof.
      intros Hn. unfold kinetic. now rewrite (rel_u E Hn), (rel_v E Hn), (rel_sec2 E), sg_cancel.
    Qed.
  End Act.

  Lemma ncol_mirror_rel x : ncol_rel (- (1)) (ncol_mirror x) x.
  Proof. apply ncol_rel_mirror. repeat split; reflexivity. Qed.

  (** humidity corrections of the moist classes: divergence term even, curl term odd, geopotential term even.
      [gqx], [gqy] = nodal cos_lat_grad(q): (even, odd). *)
  Theorem primeq_humidity_nodal_mirror sparse (m : Moist) (x : NCol) (q gqx gqy : nat -> F) lapl k :
    humidity_div_nodal c m (ncol_mirror x) q gqx (fun j => - gqy j) lapl k = humidity_div_nodal c m x q gqx gqy lapl k /\
    humidity_curl_nodal c m (ncol_mirror x) gqx (fun j => - gqy j) k = - humidity_curl_nodal c m x gqx gqy k /\
    humidity_geo_nodal c sparse m (ncol_mirror x) q k = humidity_geo_nodal c sparse m x q k.
  Proof.
    unfold humidity_div_nodal, humidity_curl_nodal, ncol_mirror. cbn [n_gx n_gy n_sec2].
    split; [ring|]. split; [ring|reflexivity].
  Qed.
End PrimEqNodal.

(** the explicit tendencies of the primitive equations (ModalAssembly of Model/PrimEq.v) over abstract
    horizontal operators, for both actions at once.  [Te] acts on the modal coefficients of scalars and of first
    components of vectors, [To] on pseudo-scalars and second components; the nodes are permuted by [piN]; the odd
    nodal fields change by the sign [sg] (-1: mirror; 1: rotation, where Te = To).  The hypotheses are the facts
    proved above for the concrete operators. *)
Section PrimEqTendencySym.
  Variables W P : Type.
  Variable inW : W -> Prop.                                  (* index range of a modal array *)
  Variable inP : P -> Prop.                                  (* index range of the nodes *)
  Variable toM : (P -> F) -> W -> F.                         (* grid.to_modal *)
  Variable divc curlc : (W -> F) -> (W -> F) -> W -> F.      (* div_cos_lat, curl_cos_lat (clip=False) *)
  Variable lap clip : (W -> F) -> W -> F.                    (* laplacian, clip_wavenumbers *)
  Variable c : @PEcfg F.
  Variable grav : F.
  Variable piN : P -> P.
  Variable Te To : (W -> F) -> W -> F.
  Variable sg : F.

  Definition ext1 (L : (W -> F) -> W -> F) : Prop :=
    forall a b, (forall w, inW w -> a w = b w) -> forall w, inW w -> L a w = L b w.
  Definition ext2 (D : (W -> F) -> (W -> F) -> W -> F) : Prop :=
    forall a a' b b', (forall w, inW w -> a w = a' w) -> (forall w, inW w -> b w = b' w) ->
                      forall w, inW w -> D a b w = D a' b' w.
  Definition lin1 (L : (W -> F) -> W -> F) : Prop :=
    (forall a b w, inW w -> L (fun w' => a w' + b w') w = L a w + L b w) /\
    (forall a w, inW w -> L (fun w' => - a w') w = - L a w) /\
    (forall t a w, inW w -> L (fun w' => t * a w') w = t * L a w).

  Hypothesis sg_sq : sg * sg = 1.
  (** the operators only read their arguments on the index range *)
  Hypothesis toM_ext : forall z z', (forall p, inP p -> z p = z' p) -> forall w, inW w -> toM z w = toM z' w.
  Hypothesis clip_ext : ext1 clip.
  Hypothesis lap_ext : ext1 lap.
  Hypothesis divc_ext : ext2 divc.
  Hypothesis curlc_ext : ext2 curlc.
  Hypothesis Te_ext : ext1 Te.
  Hypothesis Te_lin : lin1 Te.
  Hypothesis To_lin : lin1 To.
  (** (instances: analysis_mir_equivariant / analysis_rot_equivariant, div_mir / div_rot, curl_mir / curl_rot,
      l_scale_equivariant) *)
  Hypothesis toM_e : forall z w, inW w -> toM (fun p => z (piN p)) w = Te (toM z) w.
  Hypothesis toM_o : forall z w, inW w -> toM (fun p => sg * z (piN p)) w = To (toM z) w.
  Hypothesis divc_e : forall a b w, inW w -> divc (Te a) (To b) w = Te (divc a b) w.
  Hypothesis curlc_o : forall a b w, inW w -> curlc (Te a) (To b) w = To (curlc a b) w.
  Hypothesis lap_e : forall a w, inW w -> lap (Te a) w = Te (lap a) w.
  Hypothesis clip_e : forall a w, inW w -> clip (Te a) w = Te (clip a) w.
  Hypothesis clip_o : forall a w, inW w -> clip (To a) w = To (clip a) w.

  (** the nodal columns of the mirrored state *)
  Definition mirX (X : P -> NCol) : P -> NCol := fun p => ncol_mirror (X (piN p)).
  Definition cols_eqv (X Y : P -> @NCol F) : Prop := forall p, inP p -> ncol_eqv c (X p) (Y p).

  (** tracers: clip(to_modal(vertical + horizontal nodal) + (-div_sec_lat(u s, v s))) *)
  Definition tracer_tendency_explicit (X : P -> NCol) (s : P -> nat -> F) (r : nat) (w : W) : F :=
    clip (fun w' => toM (fun p => tracer_nodal_total c true (X p) (s p) r) w'
                    + - divc (toM (fun p => hsa_mu (X p) (s p) r)) (toM (fun p => hsa_mv (X p) (s p) r)) w') w.

  (** the assembly seen from the nodal arrays handed to to_modal: [g'] is the array [g] transformed as an
      even / odd nodal field *)
  Definition even_on (g' g : P -> F) : Prop := forall p, inP p -> g' p = g (piN p).
  Definition odd_on (g' g : P -> F) : Prop := forall p, inP p -> g' p = sg * g (piN p).

  Lemma toM_even (g' g : P -> F) w : even_on g' g -> inW w -> toM g' w = Te (toM g) w.
  Proof. intros E Hw. rewrite <- toM_e by assumption. now apply toM_ext. Qed.
  Lemma toM_odd (g' g : P -> F) w : odd_on g' g -> inW w -> toM g' w = To (toM g) w.
  Proof. intros E Hw. rewrite <- toM_o by assumption. now apply toM_ext. Qed.

  Lemma divc_arrays (u' u v' v : P -> F) w :
    even_on u' u -> odd_on v' v -> inW w -> divc (toM u') (toM v') w = Te (divc (toM u) (toM v)) w.
  Proof.
    intros Eu Ev Hw. rewrite <- divc_e by assumption.
    apply divc_ext; try assumption; intros w' Hw'; [now apply toM_even|now apply toM_odd].
  Qed.
  Lemma curlc_arrays (u' u v' v : P -> F) w :
    even_on u' u -> odd_on v' v -> inW w -> curlc (toM u') (toM v') w = To (curlc (toM u) (toM v)) w.
  Proof.
    intros Eu Ev Hw. rewrite <- curlc_o by assumption.
    apply curlc_ext; try assumption; intros w' Hw'; [now apply toM_even|now apply toM_odd].
  Qed.
  Lemma lap_array (g' g : P -> F) w : even_on g' g -> inW w -> lap (toM g') w = Te (lap (toM g)) w.
  Proof. intros E Hw. rewrite <- lap_e by assumption. apply lap_ext; [|assumption]. intros w' Hw'. now apply toM_even. Qed.

  (** temperature and tracers: clip(to_modal(A) - div_sec_lat(u s, v s)) *)
  Lemma flux_form_sym (A' A mu' mu mv' mv : P -> F) w :
    even_on A' A -> even_on mu' mu -> odd_on mv' mv -> inW w ->
    clip (fun w' => toM A' w' + - divc (toM mu') (toM mv') w') w
    = Te (clip (fun w' => toM A w' + - divc (toM mu) (toM mv) w')) w.
  Proof.
    intros EA Eu Ev Hw. destruct Te_lin as (Tadd & Topp & _).
    rewrite <- clip_e by assumption. apply clip_ext; [|assumption]. intros w' Hw'.
    now rewrite Tadd, Topp, (toM_even A' A), (divc_arrays mu' mu mv' mv) by assumption.
  Qed.

  (** divergence: the orography and the humidity correction enter as transformed modal scalars *)
  Lemma div_form_sym (cu' cu cv' cv ke' ke : P -> F) (orog hum : W -> F) w :
    even_on cu' cu -> odd_on cv' cv -> even_on ke' ke -> inW w ->
    clip (fun w' => - divc (toM cu') (toM cv') w' + - lap (toM ke') w' + - grav * lap (Te orog) w' + Te hum w') w
    = Te (clip (fun w' => - divc (toM cu) (toM cv) w' + - lap (toM ke) w' + - grav * lap orog w' + hum w')) w.
  Proof.
    intros Eu Ev Ek Hw. destruct Te_lin as (Tadd & Topp & Tscal).
    rewrite <- clip_e by assumption. apply clip_ext; [|assumption]. intros w' Hw'.
    rewrite !Tadd by assumption.
    now rewrite Tscal, !Topp, (divc_arrays cu' cu cv' cv), (lap_array ke' ke), (lap_e orog) by assumption.
  Qed.

  Lemma vort_form_sym (cu' cu cv' cv : P -> F) (hum : W -> F) w :
    even_on cu' cu -> odd_on cv' cv -> inW w ->
    clip (fun w' => - curlc (toM cu') (toM cv') w' + To hum w') w
    = To (clip (fun w' => - curlc (toM cu) (toM cv) w' + hum w')) w.
  Proof.
    intros Eu Ev Hw. destruct To_lin as (Tadd & Topp & _).
    rewrite <- clip_o by assumption. apply clip_ext; [|assumption]. intros w' Hw'.
    now rewrite Tadd, Topp, (curlc_arrays cu' cu cv' cv) by assumption.
  Qed.

  Lemma humidity_div_form_sym (geo' geo dn' dn : P -> F) w :
    even_on geo' geo -> even_on dn' dn -> inW w ->
    - lap (toM geo') w - toM dn' w = Te (fun w' => - lap (toM geo) w' - toM dn w') w.
  Proof.
    intros Eg Ed Hw. destruct Te_lin as (Tadd & Topp & _).
    rewrite (Te_ext _ (fun w' => - lap (toM geo) w' + - toM dn w')) by (try assumption; intros; ring).
    rewrite Tadd, !Topp, <- (lap_array geo' geo), <- (toM_even dn' dn) by assumption. ring.
  Qed.

  (** the nodal arrays of the six explicit tendencies.  [nodal_sym]: those of the column family X' (with R T'
      variant rt', humidity q', tracer s') are the transformed ones of X (rt, q, s), each with its parity *)
  Definition nodal_sym (m : Moist) (X' X : P -> @NCol F) (rt' rt q' q s' s : P -> nat -> F) (r : nat) : Prop :=
    even_on (fun p => temp_nodal_total c true (X' p) r) (fun p => temp_nodal_total c true (X p) r) /\
    even_on (fun p => temp_nodal_total_moist c true m (X' p) (q' p) r) (fun p => temp_nodal_total_moist c true m (X p) (q p) r) /\
    even_on (fun p => tracer_nodal_total c true (X' p) (s' p) r) (fun p => tracer_nodal_total c true (X p) (s p) r) /\
    even_on (fun p => log_pressure_tendency c (X' p)) (fun p => log_pressure_tendency c (X p)) /\
    even_on (fun p => hsa_mu (X' p) (n_temp (X' p)) r) (fun p => hsa_mu (X p) (n_temp (X p)) r) /\
    odd_on (fun p => hsa_mv (X' p) (n_temp (X' p)) r) (fun p => hsa_mv (X p) (n_temp (X p)) r) /\
    even_on (fun p => hsa_mu (X' p) (s' p) r) (fun p => hsa_mu (X p) (s p) r) /\
    odd_on (fun p => hsa_mv (X' p) (s' p) r) (fun p => hsa_mv (X p) (s p) r) /\
    even_on (fun p => combined_u c true (X' p) (rt' p) r) (fun p => combined_u c true (X p) (rt p) r) /\
    odd_on (fun p => combined_v c true (X' p) (rt' p) r) (fun p => combined_v c true (X p) (rt p) r) /\
    even_on (fun p => kinetic (X' p) r) (fun p => kinetic (X p) r).

  (** temperature (dry, moist), tracers, log surface pressure, divergence: scalars; vorticity: pseudo-scalar *)
  Definition tendencies_sym (m : Moist) (X' X : P -> @NCol F) (rt' rt q' q s' s : P -> nat -> F) (orog hum humz : W -> F)
             (r : nat) (w : W) : Prop :=
    temp_tendency_explicit W P toM divc clip c X' r w = Te (temp_tendency_explicit W P toM divc clip c X r) w /\
    temp_tendency_explicit_moist W P toM divc clip c m X' q' r w = Te (temp_tendency_explicit_moist W P toM divc clip c m X q r) w /\
    tracer_tendency_explicit X' s' r w = Te (tracer_tendency_explicit X s r) w /\
    toM (fun p => log_pressure_tendency c (X' p)) w = Te (toM (fun p => log_pressure_tendency c (X p))) w /\
    div_tendency_explicit W P toM divc lap clip c grav X' rt' (Te orog) (Te hum) r w
      = Te (div_tendency_explicit W P toM divc lap clip c grav X rt orog hum r) w /\
    vort_tendency_explicit W P toM curlc clip c X' rt' (To humz) r w
      = To (vort_tendency_explicit W P toM curlc clip c X rt humz r) w.

  Theorem nodal_sym_tendencies m X' X rt' rt q' q s' s orog hum humz r w :
    nodal_sym m X' X rt' rt q' q s' s r -> inW w -> tendencies_sym m X' X rt' rt q' q s' s orog hum humz r w.
  Proof.
    intros (TT & TM & TR & LP & TU & TV & SU & SV & CU & CV & KE) Hw. repeat split.
    - exact (flux_form_sym _ _ _ _ _ _ w TT TU TV Hw).
    - exact (flux_form_sym _ _ _ _ _ _ w TM TU TV Hw).
    - exact (flux_form_sym _ _ _ _ _ _ w TR SU SV Hw).
    - exact (toM_even _ _ w LP Hw).
    - exact (div_form_sym _ _ _ _ _ _ orog hum w CU CV KE Hw).
    - exact (vort_form_sym _ _ _ _ humz w CU CV Hw).
  Qed.

  (** any column family X' that agrees entrywise (levels k < K, nodes in range) with the transformed family of X,
      as the columns synthesised from the transformed modal state do, has the transformed nodal arrays *)
  Lemma cols_rel_nodal_sym m X' X rt' rt q' q s' s r :
    (forall p, inP p -> ncol_rel c sg (X' p) (X (piN p))) -> (r < cK c)%nat ->
    (forall p, inP p -> rt' p r = rt (piN p) r) -> (forall p, inP p -> q' p r = q (piN p) r) ->
    (forall p, inP p -> forall k, (k < cK c)%nat -> s' p k = s (piN p) k) ->
    nodal_sym m X' X rt' rt q' q s' s r.
  Proof.
    intros EX Hr Hrt Hq Hs.
    assert (ET : forall p, inP p -> n_temp (X' p) r = n_temp (X (piN p)) r) by (intros p Hp; exact (rel_temp (EX p Hp) Hr)).
    repeat split; intros p Hp.
    - exact (temp_nodal_total_act c sg _ _ sg_sq (EX p Hp) true r Hr).
    - exact (temp_nodal_total_moist_act c sg _ _ sg_sq (EX p Hp) true m _ _ r Hr (Hq p Hp)).
    - exact (tracer_nodal_total_act c sg _ _ sg_sq (EX p Hp) true _ _ r Hr (Hs p Hp)).
    - exact (log_pressure_tendency_act c sg _ _ sg_sq (EX p Hp)).
    - exact (hsa_mu_act c sg _ _ (EX p Hp) _ _ r Hr (ET p Hp)).
    - exact (hsa_mv_act c sg _ _ (EX p Hp) _ _ r Hr (ET p Hp)).
    - exact (hsa_mu_act c sg _ _ (EX p Hp) _ _ r Hr (Hs p Hp r Hr)).
    - exact (hsa_mv_act c sg _ _ (EX p Hp) _ _ r Hr (Hs p Hp r Hr)).
    - exact (combined_u_act c sg _ _ sg_sq (EX p Hp) true _ _ r Hr (Hrt p Hp)).
    - exact (combined_v_act c sg _ _ sg_sq (EX p Hp) true _ _ r Hr (Hrt p Hp)).
    - exact (kinetic_act c sg _ _ sg_sq (EX p Hp) r Hr).
  Qed.
End PrimEqTendencySym.

(** the assembly instantiated for the mirror: with Model/SHT.v analysis and Model/Deriv.v div / curl / laplacian / clip
    the explicit primitive-equation tendencies are mirror-equivariant under the table hypotheses H_parity and H_nodes_sym *)
Section PrimEqConcrete.
  Variables (fast : bool) (R L I J : nat).                 (* un-padded modal shape (R, L), nodal shape (I, J) *)
  Variable f : nat -> nat -> F.
  Variable p : nat -> nat -> nat -> F.
  Variable wq : nat -> F.
  Variables (rad : F) (wa wb : @marr F).                   (* radius, derivative recurrence weights *)
  Variable c : @PEcfg F.
  Variable grav : F.
  Hypothesis HR : layout_ok fast R.
  Hypothesis Hpar : H_parity fast R L J p.
  Hypothesis Hnod : H_nodes_sym J wq.

  Definition Wc := (nat * nat)%type.
  Definition inWc (w : Wc) : Prop := (fst w < R)%nat /\ (snd w < L)%nat.
  Definition inPc (q : Wc) : Prop := (fst q < I)%nat /\ (snd q < J)%nat.
  Definition un (a : Wc -> F) : marr := fun i l => a (i, l).
  Definition toMc (z : Wc -> F) (w : Wc) : F := analysis R I J f p wq (un z) (fst w) (snd w).
  Definition piNc (q : Wc) : Wc := (fst q, (J - 1 - snd q)%nat).
  Definition Sec (a : Wc -> F) (w : Wc) : F := mir_modal fast false (un a) (fst w) (snd w).
  Definition Soc (a : Wc -> F) (w : Wc) : F := mir_modal fast true (un a) (fst w) (snd w).
  Definition divcc (a b : Wc -> F) (w : Wc) : F := div_cos_lat fast L R L rad wa wb false (un a, un b) (fst w) (snd w).
  Definition curlcc (a b : Wc -> F) (w : Wc) : F := curl_cos_lat fast L R L rad wa wb false (un a, un b) (fst w) (snd w).
  Definition lapc (a : Wc -> F) (w : Wc) : F := laplacian L rad (un a) (fst w) (snd w).
  Definition clipc (a : Wc -> F) (w : Wc) : F := clip L L 1 (un a) (fst w) (snd w).

  Lemma toMc_ext : forall z z' : Wc -> F, (forall q, inPc q -> z q = z' q) -> forall w, inWc w -> toMc z w = toMc z' w.
  Proof.
    intros z z' E [a l] [Ha Hl]. unfold toMc. apply analysis_ext; [exact Ha|]. intros i j Hi Hj. apply E. split; assumption.
  Qed.

  Lemma clipc_ext : ext1 Wc inWc clipc.
  Proof. intros a b E [i l] Hw. unfold clipc, clip, un. cbn [fst snd]. now rewrite (E (i, l) Hw). Qed.
  Lemma lapc_ext : ext1 Wc inWc lapc.
  Proof. intros a b E [i l] Hw. unfold lapc, laplacian, un. cbn [fst snd]. now rewrite (E (i, l) Hw). Qed.
  Lemma Sec_ext : ext1 Wc inWc Sec.
  Proof. intros a b E [i l] Hw. unfold Sec, mir_modal, un. cbn [fst snd]. now rewrite (E (i, l) Hw). Qed.
  Lemma Soc_ext : ext1 Wc inWc Soc.
  Proof. intros a b E [i l] Hw. unfold Soc, mir_modal, un. cbn [fst snd]. now rewrite (E (i, l) Hw). Qed.

  Lemma divcc_ext : ext2 Wc inWc divcc.
  Proof.
    intros a a' b b' Ea Eb [i l] [Hi Hl]. apply div_cos_lat_ext; try assumption.
    intros i' l' Hi' Hl'. split; [apply Ea|apply Eb]; split; assumption.
  Qed.
  Lemma curlcc_ext : ext2 Wc inWc curlcc.
  Proof.
    intros a a' b b' Ea Eb [i l] [Hi Hl]. apply curl_cos_lat_ext; try assumption.
    intros i' l' Hi' Hl'. split; [apply Ea|apply Eb]; split; assumption.
  Qed.

  Lemma Sec_lin : lin1 Wc inWc Sec.
  Proof. repeat split; intros; unfold Sec, mir_modal, un; ring. Qed.
  Lemma Soc_lin : lin1 Wc inWc Soc.
  Proof. repeat split; intros; unfold Soc, mir_modal, un; ring. Qed.

  Lemma toMc_mir ps (z : Wc -> F) w :
    inWc w -> toMc (fun q => sgn_if ps * z (piNc q)) w = mir_modal fast ps (un (toMc z)) (fst w) (snd w).
  Proof. intros [Ha Hl]. exact (analysis_mir_equivariant fast R L I J f p wq ps (un z) (fst w) (snd w) Hpar Hnod Ha Hl). Qed.

  Lemma toMc_even : forall (z : Wc -> F) w, inWc w -> toMc (fun q => z (piNc q)) w = Sec (toMc z) w.
  Proof.
    intros z w Hw. unfold Sec. rewrite <- (toMc_mir false) by assumption. apply toMc_ext; [|assumption].
    intros q _. cbn [sgn_if]. ring.
  Qed.
  Lemma toMc_odd : forall (z : Wc -> F) w, inWc w -> toMc (fun q => - (1) * z (piNc q)) w = Soc (toMc z) w.
  Proof. exact (toMc_mir true). Qed.

  Lemma divcc_mir : forall a b w, inWc w -> divcc (Sec a) (Soc b) w = Sec (divcc a b) w.
  Proof. intros a b w [Hi Hl]. exact (div_mir fast L R L rad wa wb false HR false (un a) (un b) (fst w) (snd w) Hi Hl). Qed.
  Lemma curlcc_mir : forall a b w, inWc w -> curlcc (Sec a) (Soc b) w = Soc (curlcc a b) w.
  Proof. intros a b w [Hi Hl]. exact (curl_mir fast L R L rad wa wb false HR false (un a) (un b) (fst w) (snd w) Hi Hl). Qed.
  Lemma lapc_mir : forall a w, inWc w -> lapc (Sec a) w = Sec (lapc a) w.
  Proof. intros a [i l] _. unfold lapc, Sec, laplacian, mir_modal, un. cbn [fst snd]. ring. Qed.
  Lemma clipc_Se : forall a w, inWc w -> clipc (Sec a) w = Sec (clipc a) w.
  Proof. intros a [i l] _. unfold clipc, Sec, clip, mir_modal, un. cbn [fst snd]. ring. Qed.
  Lemma clipc_So : forall a w, inWc w -> clipc (Soc a) w = Soc (clipc a) w.
  Proof. intros a [i l] _. unfold clipc, Soc, clip, mir_modal, un. cbn [fst snd]. ring. Qed.

  Lemma mirrored_nodal_arrays_tendency m X' X rt' rt q' q s' s orog hum humz r a l :
    nodal_sym Wc inPc c piNc (- (1)) m X' X rt' rt q' q s' s r -> (a < R)%nat -> (l < L)%nat ->
    tendencies_sym Wc Wc toMc divcc curlcc lapc clipc c grav Sec Soc m X' X rt' rt q' q s' s orog hum humz r (a, l).
  Proof.
    intros HN Ha Hl.
    exact (nodal_sym_tendencies Wc Wc inWc inPc toMc divcc curlcc lapc clipc c grav piNc Sec Soc (- (1))
             toMc_ext clipc_ext lapc_ext divcc_ext curlcc_ext Sec_lin Soc_lin toMc_even toMc_odd divcc_mir curlcc_mir
             lapc_mir clipc_Se clipc_So m X' X rt' rt q' q s' s orog hum humz r (a, l) HN (conj Ha Hl)).
  Qed.

  (** X: the nodal columns of a state, indexed by the node (i, j); [mirX piNc X] those of the mirrored state *)
  Theorem primeq_tendency_mirror_equivariant (m : Moist) (X : Wc -> NCol) (rt q s : Wc -> nat -> F) (orog hum humz : Wc -> F) r a l :
    (r < cK c)%nat -> (a < R)%nat -> (l < L)%nat ->
    (* temperature (dry, moist), tracers, log surface pressure, divergence: scalars *)
    temp_tendency_explicit Wc Wc toMc divcc clipc c (mirX Wc piNc X) r (a, l)
      = mir_modal fast false (un (temp_tendency_explicit Wc Wc toMc divcc clipc c X r)) a l /\
    temp_tendency_explicit_moist Wc Wc toMc divcc clipc c m (mirX Wc piNc X) (fun n => q (piNc n)) r (a, l)
      = mir_modal fast false (un (temp_tendency_explicit_moist Wc Wc toMc divcc clipc c m X q r)) a l /\
    tracer_tendency_explicit Wc Wc toMc divcc clipc c (mirX Wc piNc X) (fun n => s (piNc n)) r (a, l)
      = mir_modal fast false (un (tracer_tendency_explicit Wc Wc toMc divcc clipc c X s r)) a l /\
    toMc (fun n => log_pressure_tendency c (mirX Wc piNc X n)) (a, l)
      = mir_modal fast false (un (toMc (fun n => log_pressure_tendency c (X n)))) a l /\
    div_tendency_explicit Wc Wc toMc divcc lapc clipc c grav (mirX Wc piNc X) (fun n => rt (piNc n)) (Sec orog) (Sec hum) r (a, l)
      = mir_modal fast false (un (div_tendency_explicit Wc Wc toMc divcc lapc clipc c grav X rt orog hum r)) a l /\
    vort_tendency_explicit Wc Wc toMc curlcc clipc c (mirX Wc piNc X) (fun n => rt (piNc n)) (Soc humz) r (a, l)
      = mir_modal fast true (un (vort_tendency_explicit Wc Wc toMc curlcc clipc c X rt humz r)) a l.
  Proof.
    intros Hr. apply mirrored_nodal_arrays_tendency.
    apply (cols_rel_nodal_sym Wc inPc c piNc (- (1)) neg1_sq); try assumption; try reflexivity.
    intros n _. apply ncol_mirror_rel.
  Qed.

  (** get_cos_lat_vector of (pseudo-scalar vorticity, scalar divergence) is an (even, odd) vector *)
  Theorem get_cos_lat_vector_mirror cl (vort dive : marr) i l :
    (i < R)%nat -> (l < L)%nat ->
    fst (get_cos_lat_vector fast L R L rad wa wb cl (mir_modal fast true vort) (mir_modal fast false dive)) i l
      = mir_modal fast false (fst (get_cos_lat_vector fast L R L rad wa wb cl vort dive)) i l /\
    snd (get_cos_lat_vector fast L R L rad wa wb cl (mir_modal fast true vort) (mir_modal fast false dive)) i l
      = mir_modal fast true (snd (get_cos_lat_vector fast L R L rad wa wb cl vort dive)) i l.
  Proof.
    intros Hi Hl. unfold get_cos_lat_vector. cbv zeta. unfold k_cross. cbn [fst snd].
    assert (E : forall ps x i' l', (i' < R)%nat -> (l' < L)%nat ->
                inverse_laplacian L rad (mir_modal fast ps x) i' l' = mir_modal fast ps (inverse_laplacian L rad x) i' l')
      by (intros; unfold inverse_laplacian, mir_modal; ring).
    destruct (cos_lat_grad_ext fast L R L rad wa wb cl _ _ i l (E true vort) Hi Hl) as [S1 S2].
    destruct (cos_lat_grad_ext fast L R L rad wa wb cl _ _ i l (E false dive) Hi Hl) as [V1 V2].
    rewrite S1, S2, V1, V2, !(grad_lon_mir fast L R L rad wa wb cl HR), !(grad_lat_mir fast L R L rad wa wb cl) by assumption.
    cbn [negb]. unfold mir_modal. cbn [sgn_if]. split; ring.
  Qed.

  (** nodal columns synthesised from the modal diagnostic fields (levels k) and the two latitude tables *)
  Definition cols_of_modal (um vm zeta delta temp : nat -> @marr F) (gxm gym : @marr F) (sec2 cor : nat -> F) : Wc -> @NCol F :=
    fun q => mkNCol (fun k => synth R L J f p (um k) (fst q) (snd q)) (fun k => synth R L J f p (vm k) (fst q) (snd q))
                    (fun k => synth R L J f p (zeta k) (fst q) (snd q)) (fun k => synth R L J f p (delta k) (fst q) (snd q))
                    (fun k => synth R L J f p (temp k) (fst q) (snd q))
                    (synth R L J f p gxm (fst q) (snd q)) (synth R L J f p gym (fst q) (snd q)) (sec2 (snd q)) (cor (snd q)).

  Theorem primeq_columns_of_mirrored_state (um vm zeta delta temp : nat -> marr) (gxm gym : marr) (sec2 cor : nat -> F) :
    (forall j, (j < J)%nat -> sec2 j = sec2 (J - 1 - j)%nat) -> (forall j, (j < J)%nat -> cor j = - cor (J - 1 - j)%nat) ->
    cols_eqv Wc inPc c
      (cols_of_modal (fun k => mir_modal fast false (um k)) (fun k => mir_modal fast true (vm k))
                     (fun k => mir_modal fast true (zeta k)) (fun k => mir_modal fast false (delta k))
                     (fun k => mir_modal fast false (temp k)) (mir_modal fast false gxm) (mir_modal fast true gym) sec2 cor)
      (mirX Wc piNc (cols_of_modal um vm zeta delta temp gxm gym sec2 cor)).
  Proof.
    intros Hs Hc [i j] [Hi Hj]. cbn [fst snd] in Hi, Hj.
    unfold ncol_eqv, mirX, ncol_mirror, cols_of_modal, piNc.
    cbn [n_u n_v n_vort n_div n_temp n_gx n_gy n_sec2 n_f fst snd].
    repeat split; try (intros k _);
      try (rewrite (synth_mir_equivariant fast R L J f p wq _ _ i j Hpar Hj); unfold flip_lat; cbn [sgn_if]; ring).
    - exact (Hs j Hj).
    - exact (Hc j Hj).
  Qed.

  (** the tendencies computed from the mirrored MODAL state are the mirrored tendencies *)
  Theorem primeq_mirrored_state_tendency (m : Moist) (um vm zeta delta temp : nat -> marr) (gxm gym : marr) (sec2 cor : nat -> F)
          (rt rt' q q' s s' : Wc -> nat -> F) (orog hum humz : Wc -> F) r a l :
    let X := cols_of_modal um vm zeta delta temp gxm gym sec2 cor in
    let X' := cols_of_modal (fun k => mir_modal fast false (um k)) (fun k => mir_modal fast true (vm k))
                            (fun k => mir_modal fast true (zeta k)) (fun k => mir_modal fast false (delta k))
                            (fun k => mir_modal fast false (temp k)) (mir_modal fast false gxm) (mir_modal fast true gym) sec2 cor in
    (forall j, (j < J)%nat -> sec2 j = sec2 (J - 1 - j)%nat) -> (forall j, (j < J)%nat -> cor j = - cor (J - 1 - j)%nat) ->
    (forall n, inPc n -> rt' n r = rt (piNc n) r) -> (forall n, inPc n -> q' n r = q (piNc n) r) ->
    (forall n, inPc n -> forall k, (k < cK c)%nat -> s' n k = s (piNc n) k) ->
    (r < cK c)%nat -> (a < R)%nat -> (l < L)%nat ->
    temp_tendency_explicit Wc Wc toMc divcc clipc c X' r (a, l)
      = mir_modal fast false (un (temp_tendency_explicit Wc Wc toMc divcc clipc c X r)) a l /\
    temp_tendency_explicit_moist Wc Wc toMc divcc clipc c m X' q' r (a, l)
      = mir_modal fast false (un (temp_tendency_explicit_moist Wc Wc toMc divcc clipc c m X q r)) a l /\
    tracer_tendency_explicit Wc Wc toMc divcc clipc c X' s' r (a, l)
      = mir_modal fast false (un (tracer_tendency_explicit Wc Wc toMc divcc clipc c X s r)) a l /\
    toMc (fun n => log_pressure_tendency c (X' n)) (a, l)
      = mir_modal fast false (un (toMc (fun n => log_pressure_tendency c (X n)))) a l /\
    div_tendency_explicit Wc Wc toMc divcc lapc clipc c grav X' rt' (Sec orog) (Sec hum) r (a, l)
      = mir_modal fast false (un (div_tendency_explicit Wc Wc toMc divcc lapc clipc c grav X rt orog hum r)) a l /\
    vort_tendency_explicit Wc Wc toMc curlcc clipc c X' rt' (Soc humz) r (a, l)
      = mir_modal fast true (un (vort_tendency_explicit Wc Wc toMc curlcc clipc c X rt humz r)) a l.
  Proof.
    intros X X' Hs Hc Hrt Hq Hss Hr. apply mirrored_nodal_arrays_tendency.
    apply (cols_rel_nodal_sym Wc inPc c piNc (- (1)) neg1_sq); try assumption.
    intros n Hn. apply ncol_rel_mirror. exact (primeq_columns_of_mirrored_state um vm zeta delta temp gxm gym sec2 cor Hs Hc n Hn).
  Qed.

  (** humidity corrections of the moist classes (inputs: q even, grad q = (even, odd), laplacian(lnps) even) *)
  Theorem primeq_humidity_mirror_concrete (m : Moist) (X : Wc -> NCol) (q gqx gqy : Wc -> nat -> F) (lapn : Wc -> F) r a l :
    (a < R)%nat -> (l < L)%nat ->
    humidity_div_modal Wc Wc toMc lapc c m (mirX Wc piNc X) (fun n => q (piNc n)) (fun n => gqx (piNc n))
                       (fun n k => - gqy (piNc n) k) (fun n => lapn (piNc n)) r (a, l)
      = mir_modal fast false (un (humidity_div_modal Wc Wc toMc lapc c m X q gqx gqy lapn r)) a l /\
    humidity_curl_modal Wc Wc toMc c m (mirX Wc piNc X) (fun n => gqx (piNc n)) (fun n k => - gqy (piNc n) k) r (a, l)
      = mir_modal fast true (un (humidity_curl_modal Wc Wc toMc c m X gqx gqy r)) a l.
  Proof.
    intros Ha Hl. assert (Hw : inWc (a, l)) by (split; assumption).
    pose proof (fun n => primeq_humidity_nodal_mirror c false m (X (piNc n)) (q (piNc n)) (gqx (piNc n)) (gqy (piNc n)) (lapn (piNc n)) r) as N.
    split.
    - apply (humidity_div_form_sym Wc Wc inWc inPc toMc lapc piNc Sec toMc_ext lapc_ext Sec_ext Sec_lin toMc_even lapc_mir);
        try assumption; intros n _; [reflexivity|exact (proj1 (N n))].
    - apply (toM_odd Wc Wc inWc inPc toMc piNc Soc (- (1)) toMc_ext toMc_odd); [|assumption].
      intros n _. unfold mirX. rewrite (proj1 (proj2 (N n))). ring.
  Qed.
End PrimEqConcrete.

(** rotation by grid steps: every nodal expression is pointwise in the horizontal, so the nodal arrays of
    the shifted family of columns are the shifted arrays, whatever the level *)
Section PrimEqTendencyRot.
  Variables W P : Type.
  Variable inW : W -> Prop.
  Variable inP : P -> Prop.
  Variable toM : (P -> F) -> W -> F.
  Variable lap : (W -> F) -> W -> F.
  Variable c : @PEcfg F.
  Variable piN : P -> P.                                     (* longitude shift of the nodes *)
  Variable Rm : (W -> F) -> W -> F.                          (* rotation of a modal array *)

  Hypothesis toM_ext : forall z z', (forall p, inP p -> z p = z' p) -> forall w, inW w -> toM z w = toM z' w.
  Hypothesis lap_ext : ext1 W inW lap.
  Hypothesis Rm_lin : lin1 W inW Rm.
  Hypothesis Rm_ext : ext1 W inW Rm.
  Hypothesis toM_rot : forall z w, inW w -> toM (fun p => z (piN p)) w = Rm (toM z) w.
  Hypothesis lap_rot : forall a w, inW w -> lap (Rm a) w = Rm (lap a) w.

  (** the nodal columns of the rotated state: the shifted family (tables sec2_lat, f do not depend on longitude) *)
  Definition rotX (X : P -> @NCol F) : P -> @NCol F := fun p => X (piN p).

  Lemma shifted_nodal_sym m (X : P -> @NCol F) (rt q s : P -> nat -> F) r :
    nodal_sym P inP c piN 1 m (rotX X) X (fun p => rt (piN p)) rt (fun p => q (piN p)) q (fun p => s (piN p)) s r.
  Proof. repeat split; intros p _; unfold rotX; ring. Qed.

  Theorem primeq_humidity_rot (m : Moist) (X : P -> NCol) (q gqx gqy : P -> nat -> F) (lapn : P -> F) r w :
    inW w ->
    humidity_div_modal W P toM lap c m (rotX X) (fun p => q (piN p)) (fun p => gqx (piN p)) (fun p => gqy (piN p))
                       (fun p => lapn (piN p)) r w
      = Rm (humidity_div_modal W P toM lap c m X q gqx gqy lapn r) w /\
    humidity_curl_modal W P toM c m (rotX X) (fun p => gqx (piN p)) (fun p => gqy (piN p)) r w
      = Rm (humidity_curl_modal W P toM c m X gqx gqy r) w.
  Proof.
    intros Hw. split.
    - apply (humidity_div_form_sym W P inW inP toM lap piN Rm toM_ext lap_ext Rm_ext Rm_lin toM_rot lap_rot);
        try assumption; intros p _; reflexivity.
    - apply (toM_even W P inW inP toM piN Rm toM_ext toM_rot); [|assumption]. intros p _. reflexivity.
  Qed.
End PrimEqTendencyRot.

(** the assembly instantiated for the rotation, with the concrete transforms / spectral operators, under H_rot_table,
    H_p_pairs, H_rot_unit and the pairing of the recurrence weights (sym_rows), both layouts *)
Section PrimEqConcreteRot.
  Variables (fast : bool) (R L I J : nat).
  Variable f : nat -> nat -> F.
  Variable p : nat -> nat -> nat -> F.
  Variable wq : nat -> F.
  Variables (rad : F) (wa wb : @marr F).
  Variable c : @PEcfg F.
  Variable grav : F.
  Variables (k : nat) (rc rs : nat -> F).                  (* shift by k nodes; cos / sin tables of the rotation *)
  Hypothesis HR : layout_ok fast R.
  Hypothesis Hrot : H_rot_table fast R I f k rc rs.
  Hypothesis Hpp : H_p_pairs fast R L J p.
  Hypothesis Hun : H_rot_unit rc rs.
  Hypothesis Hwa : sym_rows fast R wa.
  Hypothesis Hwb : sym_rows fast R wb.

  Definition piNr (q : Wc) : Wc := (((fst q + k) mod I)%nat, snd q).
  Definition Rmc (a : Wc -> F) (w : Wc) : F := rot_modal fast rc rs (un a) (fst w) (snd w).

  Lemma Rmc_lin : lin1 Wc (inWc R L) Rmc.
  Proof. repeat split; intros; unfold Rmc, rot_modal, un; ring. Qed.

  Lemma Rmc_ext : ext1 Wc (inWc R L) Rmc.
  Proof.
    intros a b E [i l] [Hi Hl]. cbn [fst snd] in Hi, Hl. unfold Rmc, rot_modal, un. cbn [fst snd].
    rewrite (E (i, l)) by (split; assumption).
    rewrite (E (sy_partner fast i, l)) by (split; cbn [fst snd]; [now apply (partner_lt fast R)|assumption]).
    reflexivity.
  Qed.

  Lemma toMc_rot : forall (z : Wc -> F) w, inWc R L w -> toMc R I J f p wq (fun q => z (piNr q)) w = Rmc (toMc R I J f p wq z) w.
  Proof.
    intros z w [Ha Hl].
    exact (analysis_rot_equivariant fast R L I J f p wq HR k rc rs (un z) (fst w) (snd w) Hrot Hpp Hun Ha Hl).
  Qed.
  Lemma toMc_rot1 : forall (z : Wc -> F) w, inWc R L w -> toMc R I J f p wq (fun q => 1 * z (piNr q)) w = Rmc (toMc R I J f p wq z) w.
  Proof. intros z w Hw. rewrite <- toMc_rot by assumption. apply (toMc_ext R L I J f p wq); [|assumption]. intros; ring. Qed.

  Lemma divcc_rot : forall a b w, inWc R L w ->
    divcc fast R L rad wa wb (Rmc a) (Rmc b) w = Rmc (divcc fast R L rad wa wb a b) w.
  Proof.
    intros a b w [Hi _]. exact (div_rot fast L R L rad wa wb false HR rc rs (fst w) (snd w) Hi (proj1 Hun) Hwa Hwb (un a) (un b)).
  Qed.
  Lemma curlcc_rot : forall a b w, inWc R L w ->
    curlcc fast R L rad wa wb (Rmc a) (Rmc b) w = Rmc (curlcc fast R L rad wa wb a b) w.
  Proof.
    intros a b w [Hi _]. exact (curl_rot fast L R L rad wa wb false HR rc rs (fst w) (snd w) Hi (proj1 Hun) Hwa Hwb (un a) (un b)).
  Qed.
  Lemma lapc_rot : forall a w, inWc R L w -> lapc L rad (Rmc a) w = Rmc (lapc L rad a) w.
  Proof. intros a [i l] _. unfold lapc, Rmc, laplacian, rot_modal, un. cbn [fst snd]. ring. Qed.
  Lemma clipc_rot : forall a w, inWc R L w -> clipc L (Rmc a) w = Rmc (clipc L a) w.
  Proof. intros a [i l] _. unfold clipc, Rmc, clip, rot_modal, un. cbn [fst snd]. ring. Qed.

  Lemma shifted_nodal_arrays_tendency m X' X rt' rt q' q s' s orog hum humz r a l :
    nodal_sym Wc (inPc I J) c piNr 1 m X' X rt' rt q' q s' s r -> (a < R)%nat -> (l < L)%nat ->
    tendencies_sym Wc Wc (toMc R I J f p wq) (divcc fast R L rad wa wb) (curlcc fast R L rad wa wb) (lapc L rad) (clipc L) c grav
                   Rmc Rmc m X' X rt' rt q' q s' s orog hum humz r (a, l).
  Proof.
    intros HN Ha Hl.
    exact (nodal_sym_tendencies Wc Wc (inWc R L) (inPc I J) _ _ _ _ _ c grav piNr Rmc Rmc 1
             (toMc_ext R L I J f p wq) (clipc_ext R L) (lapc_ext R L rad) (divcc_ext fast R L rad wa wb) (curlcc_ext fast R L rad wa wb)
             Rmc_lin Rmc_lin toMc_rot toMc_rot1 divcc_rot curlcc_rot lapc_rot clipc_rot clipc_rot
             m X' X rt' rt q' q s' s orog hum humz r (a, l) HN (conj Ha Hl)).
  Qed.

  (** X: the nodal columns of a state, indexed by the node (i, j); [rotX piNr X] those of the state shifted by k nodes *)
  Theorem primeq_tendency_rot_equivariant (m : Moist) (X : Wc -> NCol) (rt q s : Wc -> nat -> F) (orog hum humz : Wc -> F) r a l :
    (a < R)%nat -> (l < L)%nat ->
    let toM := toMc R I J f p wq in let divc := divcc fast R L rad wa wb in let curlc := curlcc fast R L rad wa wb in
    let lap := lapc L rad in let clp := clipc L in
    temp_tendency_explicit Wc Wc toM divc clp c (rotX Wc piNr X) r (a, l)
      = rot_modal fast rc rs (un (temp_tendency_explicit Wc Wc toM divc clp c X r)) a l /\
    temp_tendency_explicit_moist Wc Wc toM divc clp c m (rotX Wc piNr X) (fun n => q (piNr n)) r (a, l)
      = rot_modal fast rc rs (un (temp_tendency_explicit_moist Wc Wc toM divc clp c m X q r)) a l /\
    tracer_tendency_explicit Wc Wc toM divc clp c (rotX Wc piNr X) (fun n => s (piNr n)) r (a, l)
      = rot_modal fast rc rs (un (tracer_tendency_explicit Wc Wc toM divc clp c X s r)) a l /\
    toM (fun n => log_pressure_tendency c (rotX Wc piNr X n)) (a, l)
      = rot_modal fast rc rs (un (toM (fun n => log_pressure_tendency c (X n)))) a l /\
    div_tendency_explicit Wc Wc toM divc lap clp c grav (rotX Wc piNr X) (fun n => rt (piNr n)) (Rmc orog) (Rmc hum) r (a, l)
      = rot_modal fast rc rs (un (div_tendency_explicit Wc Wc toM divc lap clp c grav X rt orog hum r)) a l /\
    vort_tendency_explicit Wc Wc toM curlc clp c (rotX Wc piNr X) (fun n => rt (piNr n)) (Rmc humz) r (a, l)
      = rot_modal fast rc rs (un (vort_tendency_explicit Wc Wc toM curlc clp c X rt humz r)) a l.
  Proof. intros Ha Hl. exact (shifted_nodal_arrays_tendency m _ X _ rt _ q _ s orog hum humz r a l (shifted_nodal_sym Wc (inPc I J) c piNr m X rt q s r) Ha Hl). Qed.

  Theorem get_cos_lat_vector_rot cl (vort dive : marr) i l :
    (i < R)%nat -> (l < L)%nat ->
    fst (get_cos_lat_vector fast L R L rad wa wb cl (rot_modal fast rc rs vort) (rot_modal fast rc rs dive)) i l
      = rot_modal fast rc rs (fst (get_cos_lat_vector fast L R L rad wa wb cl vort dive)) i l /\
    snd (get_cos_lat_vector fast L R L rad wa wb cl (rot_modal fast rc rs vort) (rot_modal fast rc rs dive)) i l
      = rot_modal fast rc rs (snd (get_cos_lat_vector fast L R L rad wa wb cl vort dive)) i l.
  Proof using Fc fast R L f rad wa wb rc rs HR Hun Hwa Hwb.
    intros Hi Hl. unfold get_cos_lat_vector. cbv zeta. unfold k_cross. cbn [fst snd].
    assert (E : forall x i' l', (i' < R)%nat -> (l' < L)%nat ->
                inverse_laplacian L rad (rot_modal fast rc rs x) i' l' = rot_modal fast rc rs (inverse_laplacian L rad x) i' l')
      by (intros; unfold inverse_laplacian, rot_modal; ring).
    destruct (cos_lat_grad_ext fast L R L rad wa wb cl _ _ i l (E vort) Hi Hl) as [S1 S2].
    destruct (cos_lat_grad_ext fast L R L rad wa wb cl _ _ i l (E dive) Hi Hl) as [V1 V2].
    pose proof (grad_rot fast L R L rad wa wb cl HR rc rs i l Hi (proj1 Hun) Hwa Hwb) as G.
    rewrite S1, S2, V1, V2, (proj1 (G _)), (proj2 (G _)), (proj1 (G _)), (proj2 (G _)). unfold rot_modal. split; ring.
  Qed.

  (** the nodal columns synthesised from the rotated modal fields are (entrywise) the shifted family *)
  Theorem primeq_columns_of_rotated_state (um vm zeta delta temp : nat -> marr) (gxm gym : marr) (sec2 cor : nat -> F) :
    cols_eqv Wc (inPc I J) c
      (cols_of_modal R L J f p (fun n => rot_modal fast rc rs (um n)) (fun n => rot_modal fast rc rs (vm n))
                     (fun n => rot_modal fast rc rs (zeta n)) (fun n => rot_modal fast rc rs (delta n))
                     (fun n => rot_modal fast rc rs (temp n)) (rot_modal fast rc rs gxm) (rot_modal fast rc rs gym) sec2 cor)
      (rotX Wc piNr (cols_of_modal R L J f p um vm zeta delta temp gxm gym sec2 cor)).
  Proof.
    intros [i j] [Hi Hj]. cbn [fst snd] in Hi, Hj.
    unfold ncol_eqv, rotX, cols_of_modal, piNr. cbn [n_u n_v n_vort n_div n_temp n_gx n_gy n_sec2 n_f fst snd].
    repeat split; try (intros n _);
      try (rewrite (synth_rot_equivariant fast R L I J f p HR k rc rs _ i j Hrot Hpp (proj1 Hun) Hi Hj); reflexivity).
  Qed.

  (** the tendencies computed from the rotated MODAL state (orography rotated too) are the rotated tendencies *)
  Theorem primeq_rotated_state_tendency (m : Moist) (um vm zeta delta temp : nat -> marr) (gxm gym : marr) (sec2 cor : nat -> F)
          (rt rt' q q' s s' : Wc -> nat -> F) (orog hum humz : Wc -> F) r a l :
    let X := cols_of_modal R L J f p um vm zeta delta temp gxm gym sec2 cor in
    let X' := cols_of_modal R L J f p (fun n => rot_modal fast rc rs (um n)) (fun n => rot_modal fast rc rs (vm n))
                            (fun n => rot_modal fast rc rs (zeta n)) (fun n => rot_modal fast rc rs (delta n))
                            (fun n => rot_modal fast rc rs (temp n)) (rot_modal fast rc rs gxm) (rot_modal fast rc rs gym) sec2 cor in
    let toM := toMc R I J f p wq in let divc := divcc fast R L rad wa wb in let curlc := curlcc fast R L rad wa wb in
    let lap := lapc L rad in let clp := clipc L in
    (forall n, inPc I J n -> rt' n r = rt (piNr n) r) -> (forall n, inPc I J n -> q' n r = q (piNr n) r) ->
    (forall n, inPc I J n -> forall g, (g < cK c)%nat -> s' n g = s (piNr n) g) ->
    (r < cK c)%nat -> (a < R)%nat -> (l < L)%nat ->
    temp_tendency_explicit Wc Wc toM divc clp c X' r (a, l)
      = rot_modal fast rc rs (un (temp_tendency_explicit Wc Wc toM divc clp c X r)) a l /\
    temp_tendency_explicit_moist Wc Wc toM divc clp c m X' q' r (a, l)
      = rot_modal fast rc rs (un (temp_tendency_explicit_moist Wc Wc toM divc clp c m X q r)) a l /\
    tracer_tendency_explicit Wc Wc toM divc clp c X' s' r (a, l)
      = rot_modal fast rc rs (un (tracer_tendency_explicit Wc Wc toM divc clp c X s r)) a l /\
    toM (fun n => log_pressure_tendency c (X' n)) (a, l)
      = rot_modal fast rc rs (un (toM (fun n => log_pressure_tendency c (X n)))) a l /\
    div_tendency_explicit Wc Wc toM divc lap clp c grav X' rt' (Rmc orog) (Rmc hum) r (a, l)
      = rot_modal fast rc rs (un (div_tendency_explicit Wc Wc toM divc lap clp c grav X rt orog hum r)) a l /\
    vort_tendency_explicit Wc Wc toM curlc clp c X' rt' (Rmc humz) r (a, l)
      = rot_modal fast rc rs (un (vort_tendency_explicit Wc Wc toM curlc clp c X rt humz r)) a l.
  Proof.
    intros X X' toM divc curlc lap clp Hrt Hq Hss Hr. apply shifted_nodal_arrays_tendency.
    apply (cols_rel_nodal_sym Wc (inPc I J) c piNr 1 one_sq); try assumption.
    intros n Hn. apply ncol_rel_eqv. exact (primeq_columns_of_rotated_state um vm zeta delta temp gxm gym sec2 cor n Hn).
  Qed.

  Theorem primeq_humidity_rot_concrete (m : Moist) (X : Wc -> NCol) (q gqx gqy : Wc -> nat -> F) (lapn : Wc -> F) r a l :
    (a < R)%nat -> (l < L)%nat ->
    humidity_div_modal Wc Wc (toMc R I J f p wq) (lapc L rad) c m (rotX Wc piNr X) (fun n => q (piNr n)) (fun n => gqx (piNr n))
                       (fun n => gqy (piNr n)) (fun n => lapn (piNr n)) r (a, l)
      = rot_modal fast rc rs (un (humidity_div_modal Wc Wc (toMc R I J f p wq) (lapc L rad) c m X q gqx gqy lapn r)) a l /\
    humidity_curl_modal Wc Wc (toMc R I J f p wq) c m (rotX Wc piNr X) (fun n => gqx (piNr n)) (fun n => gqy (piNr n)) r (a, l)
      = rot_modal fast rc rs (un (humidity_curl_modal Wc Wc (toMc R I J f p wq) c m X gqx gqy r)) a l.
  Proof.
    intros Ha Hl.
    exact (primeq_humidity_rot Wc Wc (inWc R L) (inPc I J) (toMc R I J f p wq) (lapc L rad) c piNr Rmc (toMc_ext R L I J f p wq)
                               (lapc_ext R L rad) Rmc_lin Rmc_ext toMc_rot lapc_rot m X q gqx gqy lapn r (a, l) (conj Ha Hl)).
  Qed.
End PrimEqConcreteRot.

(** implicit terms and implicit inverse of the primitive equations (Model/Implicit.v): operators acting on the
    vertical column of one coefficient (m, l), depending on l only - they commute with both actions *)
Section ImplicitEquivariance.
  Variable fast : bool.
  Variable K : nat.
  (** a family of column operators indexed by the total wavenumber (through the laplacian eigenvalue) *)
  Variable Lop : nat -> @Col F -> @Col F.
  Definition col_linear : Prop :=
    forall l a b x y, col_eq K (Lop l (col_lin a x b y)) (col_lin a (Lop l x) b (Lop l y)).
  Definition col_respects : Prop := forall l x y, col_eq K x y -> col_eq K (Lop l x) (Lop l y).

  (** the column (divergence, temperature, lnps) of the coefficient at row i, total wavenumber l *)
  Definition col_at (dv tp : nat -> @marr F) (ps : @marr F) (i l : nat) : @Col F :=
    mkCol (fun g => dv g i l) (fun g => tp g i l) (ps i l).
  (** the operator applied coefficient by coefficient: result stacks *)
  Definition op_div (dv tp : nat -> marr) (ps : marr) (g : nat) : marr := fun i l => c_div (Lop l (col_at dv tp ps i l)) g.
  Definition op_temp (dv tp : nat -> marr) (ps : marr) (g : nat) : marr := fun i l => c_temp (Lop l (col_at dv tp ps i l)) g.
  Definition op_lnps (dv tp : nat -> marr) (ps : marr) : marr := fun i l => c_lnps (Lop l (col_at dv tp ps i l)).

  Theorem column_family_rot_equivariant (c s : nat -> F) (dv tp : nat -> marr) (ps : marr) g i l :
    col_linear -> (g < K)%nat ->
    let dv' := fun g => rot_modal fast c s (dv g) in let tp' := fun g => rot_modal fast c s (tp g) in
    let ps' := rot_modal fast c s ps in
    op_div dv' tp' ps' g i l = rot_modal fast c s (op_div dv tp ps g) i l /\
    op_temp dv' tp' ps' g i l = rot_modal fast c s (op_temp dv tp ps g) i l /\
    op_lnps dv' tp' ps' i l = rot_modal fast c s (op_lnps dv tp ps) i l.
  Proof.
    intros Hlin Hg dv' tp' ps'. unfold op_div, op_temp, op_lnps.
    change (col_at dv' tp' ps' i l)
      with (col_lin (c (sy_wav fast i)) (col_at dv tp ps i l) (rot_s fast s i) (col_at dv tp ps (sy_partner fast i) l)).
    destruct (Hlin l (c (sy_wav fast i)) (rot_s fast s i) (col_at dv tp ps i l) (col_at dv tp ps (sy_partner fast i) l))
      as (E1 & E2 & E3).
    repeat split; [rewrite (E1 g Hg)|rewrite (E2 g Hg)|rewrite E3]; reflexivity.
  Qed.

  Theorem column_family_mir_equivariant pz (dv tp : nat -> marr) (ps : marr) g i l :
    col_linear -> col_respects -> (g < K)%nat ->
    let dv' := fun g => mir_modal fast pz (dv g) in let tp' := fun g => mir_modal fast pz (tp g) in
    let ps' := mir_modal fast pz ps in
    op_div dv' tp' ps' g i l = mir_modal fast pz (op_div dv tp ps g) i l /\
    op_temp dv' tp' ps' g i l = mir_modal fast pz (op_temp dv tp ps g) i l /\
    op_lnps dv' tp' ps' i l = mir_modal fast pz (op_lnps dv tp ps) i l.
  Proof.
    intros Hlin Hres Hg dv' tp' ps'. unfold op_div, op_temp, op_lnps.
    set (sg := sgn_if pz * sgn_pow (l + sy_wav fast i)).
    assert (E0 : col_eq K (col_at dv' tp' ps' i l) (col_lin sg (col_at dv tp ps i l) 0 (col_at dv tp ps i l))).
    { repeat split; cbn [col_at col_lin c_div c_temp c_lnps]; intros; unfold dv', tp', ps', mir_modal, sg; ring. }
    destruct (Hres l _ _ E0) as (R1 & R2 & R3).
    destruct (Hlin l sg 0 (col_at dv tp ps i l) (col_at dv tp ps i l)) as (E1 & E2 & E3).
    repeat split; [rewrite (R1 g Hg), (E1 g Hg)|rewrite (R2 g Hg), (E2 g Hg)|rewrite R3, E3];
      cbn [col_lin c_div c_temp c_lnps]; unfold mir_modal, sg; ring.
  Qed.
End ImplicitEquivariance.

Section ImplicitInstances.
  Variable c : @PEcfg F.

  (** implicit_terms and implicit_inverse (default method 'split'; [lam l] = laplacian eigenvalue of l, any matrix
      inverse routine [inv]) of the rotated / mirrored (divergence, temperature, lnps) stacks *)
  Theorem implicit_terms_equivariant fast sp (lam : nat -> F) (rc rs : nat -> F) pz (dv tp : nat -> marr) (ps : marr) g i l :
    (g < cK c)%nat ->
    let Lop := fun l => implicit_terms sp c (lam l) in
    (let dv' := fun g => rot_modal fast rc rs (dv g) in let tp' := fun g => rot_modal fast rc rs (tp g) in
     let ps' := rot_modal fast rc rs ps in
     op_div Lop dv' tp' ps' g i l = rot_modal fast rc rs (op_div Lop dv tp ps g) i l /\
     op_temp Lop dv' tp' ps' g i l = rot_modal fast rc rs (op_temp Lop dv tp ps g) i l /\
     op_lnps Lop dv' tp' ps' i l = rot_modal fast rc rs (op_lnps Lop dv tp ps) i l) /\
    (let dv' := fun g => mir_modal fast pz (dv g) in let tp' := fun g => mir_modal fast pz (tp g) in
     let ps' := mir_modal fast pz ps in
     op_div Lop dv' tp' ps' g i l = mir_modal fast pz (op_div Lop dv tp ps g) i l /\
     op_temp Lop dv' tp' ps' g i l = mir_modal fast pz (op_temp Lop dv tp ps g) i l /\
     op_lnps Lop dv' tp' ps' i l = mir_modal fast pz (op_lnps Lop dv tp ps) i l).
  Proof.
    intros Hg Lop. assert (Hlin : col_linear (cK c) Lop) by (intros l' a b x y; apply L_linear).
    split; [now apply (column_family_rot_equivariant fast (cK c))|apply (column_family_mir_equivariant fast (cK c)); try assumption].
    intros l' x y. apply implicit_terms_respects.
  Qed.

  Theorem implicit_inverse_equivariant fast inv eta (lam : nat -> F) (rc rs : nat -> F) pz (dv tp : nat -> marr) (ps : marr) g i l :
    (g < cK c)%nat ->
    let Lop := fun l => inverse_split inv c eta (lam l) in
    (let dv' := fun g => rot_modal fast rc rs (dv g) in let tp' := fun g => rot_modal fast rc rs (tp g) in
     let ps' := rot_modal fast rc rs ps in
     op_div Lop dv' tp' ps' g i l = rot_modal fast rc rs (op_div Lop dv tp ps g) i l /\
     op_temp Lop dv' tp' ps' g i l = rot_modal fast rc rs (op_temp Lop dv tp ps g) i l /\
     op_lnps Lop dv' tp' ps' i l = rot_modal fast rc rs (op_lnps Lop dv tp ps) i l) /\
    (let dv' := fun g => mir_modal fast pz (dv g) in let tp' := fun g => mir_modal fast pz (tp g) in
     let ps' := mir_modal fast pz ps in
     op_div Lop dv' tp' ps' g i l = mir_modal fast pz (op_div Lop dv tp ps g) i l /\
     op_temp Lop dv' tp' ps' g i l = mir_modal fast pz (op_temp Lop dv tp ps g) i l /\
     op_lnps Lop dv' tp' ps' i l = mir_modal fast pz (op_lnps Lop dv tp ps) i l).
  Proof.
    intros Hg Lop. assert (Hlin : col_linear (cK c) Lop) by (intros l' a b x y; apply inverse_split_linear).
    split; [now apply (column_family_rot_equivariant fast (cK c))|apply (column_family_mir_equivariant fast (cK c)); try assumption].
    intros l' x y. apply inverse_split_respects.
  Qed.
End ImplicitInstances.
End OverField.

Section Trajectories.
  Context {S : Type} (ES : S -> S -> Prop) (TS : S -> S).
  Hypothesis ES_refl : forall u, ES u u.
  Hypothesis ES_trans : forall u v w, ES u v -> ES v w -> ES u w.

  (** a map respects the equality [ES] and commutes with the transformation [TS] *)
  Definition equivariant1 (step : S -> S) : Prop :=
    (forall u u', ES u u' -> ES (step u) (step u')) /\ (forall u, ES (step (TS u)) (TS (step u))).
  Definition equivariant2 (f : S -> S -> S) : Prop :=
    (forall u u' v v', ES u u' -> ES v v' -> ES (f u v) (f u' v')) /\ (forall u v, ES (f (TS u) (TS v)) (TS (f u v))).

  Lemma with_filters_equivariant (step : S -> S) (filters : list (S -> S -> S)) :
    equivariant1 step -> Forall equivariant2 filters -> equivariant1 (with_filters step filters).
  Proof.
    intros [Sc Se] Hf. unfold with_filters. split.
    - intros u u' Hu. generalize (Sc u u' Hu). generalize (step u) (step u').
      induction Hf as [|f fs [fc fe] _ IH]; intros un un' Hun; cbn; [exact Hun|].
      apply IH. apply fc; assumption.
    - intros u. generalize (Se u). generalize (step (TS u)) (step u).
      induction Hf as [|f fs [fc fe] _ IH]; intros un1 un2 Hun; cbn; [exact Hun|].
      apply IH. apply (ES_trans _ (f (TS u) (TS un2))); [apply fc; [apply ES_refl|exact Hun]|apply fe].
  Qed.

  Lemma iter_equivariant k (step : S -> S) : equivariant1 step -> equivariant1 (iter k step).
  Proof.
    intros [Sc Se]. induction k as [|k [IHc IHe]]; (split; [intros u u' Hu|intros u]); cbn.
    - exact Hu.
    - apply ES_refl.
    - apply IHc, Sc, Hu.
    - apply (ES_trans _ (iter k step (TS (step u)))); [apply IHc, Se|apply IHe].
  Qed.
End Trajectories.

Section StepEquivariance.
  Context {F V : Type} {vo : VSp F V}.
  Variables (Fx G : V -> V) (Ginv : F -> V -> V) (T : V -> V) (E : V -> V -> Prop).
  Hypothesis E_refl : forall u, E u u.
  Hypothesis E_sym : forall u v, E u v -> E v u.
  Hypothesis E_trans : forall u v w, E u v -> E v w -> E u w.
  Hypothesis va_E : forall x x' y y', E x x' -> E y y' -> E (va x y) (va x' y').
  Hypothesis vs_E : forall c x x', E x x' -> E (vs c x) (vs c x').
  Hypothesis Fx_E : forall x x', E x x' -> E (Fx x) (Fx x').
  Hypothesis G_E : forall x x', E x x' -> E (G x) (G x').
  Hypothesis Ginv_E : forall eta x x', E x x' -> E (Ginv eta x) (Ginv eta x').
  Hypothesis T_zero : E (T vz) vz.
  Hypothesis T_add : forall x y, E (T (va x y)) (va (T x) (T y)).
  Hypothesis T_scale : forall c x, E (T (vs c x)) (vs c (T x)).
  Hypothesis T_F : forall x, E (Fx (T x)) (T (Fx x)).
  Hypothesis T_G : forall x, E (G (T x)) (T (G x)).
  Hypothesis T_Ginv : forall eta x, E (Ginv eta (T x)) (T (Ginv eta x)).

  (** both are instances of Thm/Invariants.v [eval_rel]: for the relation E, and for "x is E-equal to T y" *)
  Lemma term_cong (t : stepterm F) (env env' : nat -> V) :
    (forall i, E (env i) (env' i)) -> E (eval Fx G Ginv t env) (eval Fx G Ginv t env').
  Proof. apply (eval_rel Fx G Ginv Fx G Ginv E); auto. Qed.

  Theorem term_equivariant (t : stepterm F) (env : nat -> V) :
    E (eval Fx G Ginv t (fun i => T (env i))) (T (eval Fx G Ginv t env)).
  Proof.
    apply (eval_rel Fx G Ginv Fx G Ginv (fun x y => E x (T y))).
    - apply E_sym, T_zero.
    - intros x x' y y' Hx Hy. apply (E_trans _ (va (T x') (T y'))); [now apply va_E|apply E_sym, T_add].
    - intros c x x' Hx. apply (E_trans _ (vs c (T x'))); [now apply vs_E|apply E_sym, T_scale].
    - intros x x' Hx. apply (E_trans _ (Fx (T x'))); [now apply Fx_E|apply T_F].
    - intros x x' Hx. apply (E_trans _ (G (T x'))); [now apply G_E|apply T_G].
    - intros eta x x' Hx. apply (E_trans _ (Ginv eta (T x'))); [now apply Ginv_E|apply T_Ginv].
    - intros i. apply E_refl.
  Qed.

  (** one-snapshot steps (all Runge-Kutta type integrators) *)
  Theorem step_equivariant (t : stepterm F) : equivariant1 E T (step_of Fx G Ginv t).
  Proof.
    split.
    - intros u u' Hu. unfold step_of. apply term_cong. intros i. exact Hu.
    - intros u. unfold step_of. exact (term_equivariant t (env1 u)).
  Qed.

  (** two-snapshot (leapfrog) steps on pairs *)
  Definition E2 (a b : V * V) : Prop := E (fst a) (fst b) /\ E (snd a) (snd b).
  Definition T2 (a : V * V) : V * V := (T (fst a), T (snd a)).

  Theorem lf_step_equivariant (t : stepterm F) : equivariant1 E2 T2 (lf_step_of Fx G Ginv t).
  Proof.
    split.
    - intros [p c] [p' c'] [Hp Hc]. unfold lf_step_of, E2; cbn [fst snd]. cbn in Hp, Hc. split; [exact Hc|].
      apply term_cong. intros [|i]; cbn; assumption.
    - intros [p c]. unfold lf_step_of, E2, T2; cbn [fst snd]. split; [apply E_refl|].
      apply (E_trans _ (eval Fx G Ginv t (fun i => T (env2 p c i)))); [|apply term_equivariant].
      apply term_cong. intros [|i]; cbn; apply E_refl.
  Qed.

  Lemma E2_refl u : E2 u u. Proof. split; apply E_refl. Qed.
  Lemma E2_trans u v w : E2 u v -> E2 v w -> E2 u w.
  Proof. intros [A B] [C D]. split; eapply E_trans; eassumption. Qed.

  Theorem trajectory_equivariant (t : stepterm F) (filters : list (V -> V -> V)) k :
    Forall (equivariant2 E T) filters ->
    equivariant1 E T (iter k (with_filters (step_of Fx G Ginv t) filters)).
  Proof.
    intros Hf. apply iter_equivariant; try assumption.
    apply with_filters_equivariant; try assumption. apply step_equivariant.
  Qed.

  Theorem lf_trajectory_equivariant (t : stepterm F) (filters : list (V * V -> V * V -> V * V)) k :
    Forall (equivariant2 E2 T2) filters ->
    equivariant1 E2 T2 (iter k (with_filters (lf_step_of Fx G Ginv t) filters)).
  Proof.
    intros Hf. apply iter_equivariant; [exact E2_refl|exact E2_trans|].
    apply with_filters_equivariant; [exact E2_refl|exact E2_trans| |assumption]. apply lf_step_equivariant.
  Qed.

  (** a Runge-Kutta step filter built from an equivariant state filter is an equivariant step filter *)
  Lemma rk_filter_equivariant (f : V -> V) : equivariant1 E T f -> equivariant2 E T (rk_filter f).
  Proof. intros [fc fe]. split; unfold rk_filter; auto. Qed.
End StepEquivariance.

(** the concrete integrators of time_integration.py (as encoded in Model/Invariants.v), any coefficients *)
Section Integrators.
  Context {F : Type} {o : Ops F} {V : Type} {vo : VSp F V}.
  Variables (Fx G : V -> V) (Ginv : F -> V -> V) (T : V -> V) (E : V -> V -> Prop).

  Definition sym_hyps : Prop :=
    (forall u, E u u) /\ (forall u v, E u v -> E v u) /\ (forall u v w, E u v -> E v w -> E u w) /\
    (forall x x' y y', E x x' -> E y y' -> E (va x y) (va x' y')) /\ (forall c x x', E x x' -> E (vs c x) (vs c x')) /\
    (forall x x', E x x' -> E (Fx x) (Fx x')) /\ (forall x x', E x x' -> E (G x) (G x')) /\
    (forall eta x x', E x x' -> E (Ginv eta x) (Ginv eta x')) /\
    E (T vz) vz /\ (forall x y, E (T (va x y)) (va (T x) (T y))) /\ (forall c x, E (T (vs c x)) (vs c (T x))) /\
    (forall x, E (Fx (T x)) (T (Fx x))) /\ (forall x, E (G (T x)) (T (G x))) /\
    (forall eta x, E (Ginv eta (T x)) (T (Ginv eta x))).

  Theorem integrators_equivariant (dt alpha : F) (al be ga : list F) (a_ex a_im : list (list F)) (b_ex b_im : list F) :
    sym_hyps ->
    equivariant1 E T (step_of Fx G Ginv (euler_term dt)) /\
    equivariant1 E T (step_of Fx G Ginv (cn_rk2_term dt)) /\
    equivariant1 E T (step_of Fx G Ginv (ls_step_term dt al be ga)) /\
    (forall t, imex_term dt a_ex a_im b_ex b_im = Some t -> equivariant1 E T (step_of Fx G Ginv t)) /\
    equivariant1 (E2 E) (T2 T) (lf_step_of Fx G Ginv (leapfrog_term dt alpha)).
  Proof.
    intros (H1 & H2 & H3 & H4 & H5 & H6 & H7 & H8 & H9 & H10 & H11 & H12 & H13 & H14).
    assert (SE : forall t, equivariant1 E T (step_of Fx G Ginv t)) by (intros t; apply step_equivariant; assumption).
    split; [apply SE|]. split; [apply SE|]. split; [apply SE|]. split; [intros t _; apply SE|].
    apply lf_step_equivariant; assumption.
  Qed.
End Integrators.
