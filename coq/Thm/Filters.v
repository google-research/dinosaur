(** Model/Filters.v (property C15): which leaves [rescale] multiplies (numpy
    broadcasting on shapes); the exponents of the exponential and the diffusion
    filter in every ordered field (non-positive, 0 on the mean, non-increasing in the
    total wavenumber, additive in the strength); and the filters as maps on
    leaves for any [fexp] with the properties of the exponential. *)
From Dino Require Import Base.Ops Base.Field Base.Sums Base.Ord Model.Filters.
Local Open Scope F_scope.

Section Shapes.
  Lemma bdim_refl a : bdim a a = Some a.
  Proof. unfold bdim. now rewrite Nat.eqb_refl. Qed.
  Lemma bdim_1_r a : bdim a 1 = Some a.
  Proof. unfold bdim. destruct (Nat.eqb a 1) eqn:E; reflexivity. Qed.
  Lemma bdim_1_l b : bdim 1 b = Some b.
  Proof.
    unfold bdim. destruct (Nat.eqb 1 b) eqn:E; [|reflexivity].
    apply Nat.eqb_eq in E. now subst.
  Qed.
  Lemma bdim_keeps a b : bdim a b = Some a <-> (b = a \/ b = 1%nat).
  Proof.
    unfold bdim.
    destruct (Nat.eqb_spec a b) as [E|E]; [subst; tauto|].
    destruct (Nat.eqb_spec a 1) as [E1|E1].
    - subst. split; [intros H; inversion H; lia | intros [H|H]; congruence].
    - destruct (Nat.eqb_spec b 1) as [E2|E2].
      + tauto.
      + split; [discriminate | intros [H|H]; congruence].
  Qed.

  Lemma shape_eqb_eq a b : shape_eqb a b = true <-> a = b.
  Proof.
    revert b. induction a as [|x a IH]; intros [|y b]; cbn; try (split; [discriminate|congruence]).
    - tauto.
    - rewrite andb_true_iff, Nat.eqb_eq, IH. split; [intros [-> ->]; reflexivity | intros H; inversion H; auto].
  Qed.
  Lemma shape_eqb_refl a : shape_eqb a a = true.
  Proof. now apply shape_eqb_eq. Qed.

  Lemma bzip_length a b r : bzip a b = Some r -> length a = length b /\ length r = length a.
  Proof.
    revert b r. induction a as [|x a IH]; intros [|y b] r H; cbn in H; try discriminate.
    - inversion H. auto.
    - destruct (bdim x y); [|discriminate]. destruct (bzip a b) as [r'|] eqn:E; [|discriminate].
      inversion H; subst. destruct (IH _ _ E). cbn. auto.
  Qed.

  Lemma bzip_keeps a b :
    bzip a b = Some a <-> Forall2 (fun da db => db = da \/ db = 1%nat) a b.
  Proof.
    revert b. induction a as [|x a IH]; intros [|y b]; cbn.
    - split; auto.
    - split; [discriminate | intros H; inversion H].
    - split; [discriminate | intros H; inversion H].
    - split.
      + intros H. destruct (bdim x y) as [d|] eqn:Ed; [|discriminate].
        destruct (bzip a b) as [r|] eqn:Er; [|discriminate].
        inversion H; subst. constructor; [now apply bdim_keeps | now apply IH].
      + intros H. inversion H; subst.
        rewrite (proj2 (bdim_keeps x y)) by assumption.
        rewrite (proj2 (IH b)) by assumption. reflexivity.
  Qed.

  Lemma bzip_ones_prefix pre a b :
    bzip (pre ++ a) (repeat 1%nat (length pre) ++ b) =
    match bzip a b with Some r => Some (pre ++ r) | None => None end.
  Proof.
    induction pre as [|x pre IH]; cbn.
    - destruct (bzip a b); reflexivity.
    - rewrite bdim_1_r, IH. destruct (bzip a b); reflexivity.
  Qed.

  Lemma Forall2_same_length {A B} (R : A -> B -> Prop) l l' : Forall2 R l l' -> length l = length l'.
  Proof. induction 1; cbn; congruence. Qed.

  Lemma broadcast_length a b r : broadcast_shapes a b = Some r -> length r = Nat.max (length a) (length b).
  Proof.
    intros H. apply bzip_length in H as [_ ->]. unfold lpad. rewrite app_length, repeat_length. lia.
  Qed.

  Lemma broadcast_suffix pre suf s :
    length suf = length s ->
    broadcast_shapes (pre ++ suf) s = match bzip suf s with Some r => Some (pre ++ r) | None => None end.
  Proof.
    intros Hl. unfold broadcast_shapes, lpad. rewrite app_length, Hl.
    replace (Nat.max (length pre + length s) (length s)) with (length pre + length s)%nat by lia.
    rewrite Nat.sub_diag, Nat.add_sub. apply (bzip_ones_prefix pre suf s).
  Qed.

  (** what [_preserves_shape] accepts: exactly the leaves whose trailing
      dimensions are matched by the scaling (equal, or 1 in the scaling) *)
  Theorem preserves_shape_spec (t s : list nat) :
    preserves_shape t s = true <->
    exists pre suf, t = pre ++ suf /\ Forall2 (fun dt ds => ds = dt \/ ds = 1%nat) suf s.
  Proof.
    unfold preserves_shape. split.
    - destruct (broadcast_shapes t s) as [r|] eqn:E; [|discriminate].
      intros H. apply shape_eqb_eq in H. subst r.
      pose proof (broadcast_length _ _ _ E) as Hl.
      set (k := (length t - length s)%nat).
      rewrite <- (firstn_skipn k t), broadcast_suffix in E by (rewrite skipn_length; lia).
      destruct (bzip (skipn k t) s) as [r|] eqn:Er; [|discriminate].
      injection E as E. apply app_inv_head in E. subst r.
      exists (firstn k t), (skipn k t). split; [symmetry; apply firstn_skipn | now apply bzip_keeps].
    - intros (pre & suf & -> & Hf).
      rewrite broadcast_suffix by (eapply Forall2_same_length; eassumption).
      rewrite (proj2 (bzip_keeps suf s) Hf). apply shape_eqb_refl.
  Qed.

  (** 1-D scalings (scalar strengths): [scaling.shape = (L,)] *)
  Corollary preserves_shape_1d (t : list nat) (L : nat) :
    preserves_shape t [L] = true <-> exists pre d, t = pre ++ [d] /\ (L = d \/ L = 1%nat).
  Proof.
    rewrite preserves_shape_spec. split.
    - intros (pre & suf & E & Hf). inversion Hf as [|d x suf' s' Hd Hf' E1 E2]; subst.
      inversion Hf'; subst. exists pre, d. auto.
    - intros (pre & d & E & Hd). exists pre, [d]. split; [exact E|]. constructor; [exact Hd|constructor].
  Qed.

  Corollary spectral_rescaled (pre : list nat) (L : nat) : preserves_shape (pre ++ [L]) [L] = true.
  Proof. apply preserves_shape_1d. exists pre, L. auto. Qed.

  (** scalars, 1-element clocks and leaves whose last axis is not [L] *)
  Corollary nonspectral_not_rescaled (t : list nat) (L : nat) :
    L <> 1%nat -> (t = [] \/ t = [1%nat] \/ exists pre d, t = pre ++ [d] /\ d <> L) ->
    preserves_shape t [L] = false.
  Proof.
    intros HL Ht. destruct (preserves_shape t [L]) eqn:E; [|reflexivity]. exfalso.
    apply preserves_shape_1d in E as (pre & d & -> & [<-|Hd]); [|contradiction].
    destruct Ht as [E|[E|(pre' & d & E & Hd')]].
    - symmetry in E. now apply app_cons_not_nil in E.
    - now apply (app_inj_tail pre []) in E.
    - apply app_inj_tail in E. destruct E. congruence.
  Qed.

  Lemma preserves_shape_cons T ls ss :
    length ls = length ss -> preserves_shape (T :: ls) (T :: ss) = preserves_shape ls ss.
  Proof.
    intros Hl. unfold preserves_shape, broadcast_shapes. cbn [length].
    rewrite Hl, !Nat.max_id. unfold lpad. cbn [length]. rewrite Hl, !Nat.sub_diag.
    cbn [repeat app bzip]. rewrite bdim_refl. destruct (bzip ls ss); [|reflexivity].
    cbn. now rewrite Nat.eqb_refl.
  Qed.

  Lemma bidx_cons T ss i idx :
    length idx = length ss -> (i < T)%nat -> bidx (T :: ss) (i :: idx) = i :: bidx ss idx.
  Proof.
    intros Hl Hi. unfold bidx. cbn [length]. rewrite Hl, !Nat.sub_diag. cbn.
    destruct (Nat.eqb_spec T 1); [f_equal; lia | reflexivity].
  Qed.

  Lemma bidx_1d L pre j : (j < L)%nat -> bidx [L] (pre ++ [j]) = [j].
  Proof.
    intros Hj. unfold bidx. rewrite app_length. cbn [length].
    replace (length pre + 1 - 1)%nat with (length pre) by lia.
    rewrite skipn_app, skipn_all, Nat.sub_diag. cbn.
    destruct (Nat.eqb_spec L 1); [f_equal; lia | reflexivity].
  Qed.

  Lemma bidx_nil idx : bidx [] idx = [].
  Proof. reflexivity. Qed.
End Shapes.

Section Rescale.
  Context {F : Type} {o : Ops F} {Fc : FieldC o}.
  Add Field FFr : (field_c : FieldTh o).

  Lemma rescale_shape (sc x : @arr F) : fst (rescale sc x) = fst x.
  Proof. unfold rescale. destruct (preserves_shape (fst x) (fst sc)); reflexivity. Qed.

  Lemma rescale_spec (sc x : arr) :
    (preserves_shape (fst x) (fst sc) = true /\
     rescale sc x = (fst x, fun idx => snd sc (bidx (fst sc) idx) * snd x idx)) \/
    (preserves_shape (fst x) (fst sc) = false /\ rescale sc x = x).
  Proof. unfold rescale. destruct (preserves_shape (fst x) (fst sc)); auto. Qed.

  Lemma rescale_true (sc x : arr) idx :
    preserves_shape (fst x) (fst sc) = true ->
    snd (rescale sc x) idx = snd sc (bidx (fst sc) idx) * snd x idx.
  Proof. intros H. unfold rescale. rewrite H. reflexivity. Qed.
  Lemma rescale_false (sc x : arr) :
    preserves_shape (fst x) (fst sc) = false -> rescale sc x = x.
  Proof. intros H. unfold rescale. rewrite H. reflexivity. Qed.

  Lemma rescale_slice (T : nat) (ss ls : list nat) (s x : list nat -> F) i idx :
    length ss = length ls -> length idx = length ls -> (i < T)%nat ->
    snd (rescale (T :: ss, s) (T :: ls, x)) (i :: idx)
    = snd (rescale (slice i (T :: ss, s)) (slice i (T :: ls, x))) idx.
  Proof.
    intros H1 H2 Hi. unfold rescale, slice. cbn [fst snd tl].
    rewrite preserves_shape_cons by lia.
    destruct (preserves_shape ls ss); cbn [fst snd]; [|reflexivity].
    rewrite bidx_cons by lia. reflexivity.
  Qed.

  Lemma rescale_twice (sh sf : arr) (x : arr) idx :
    fst sh = fst sf ->
    (forall i, snd sf i = snd sh i * snd sh i) ->
    fst (rescale sh (rescale sh x)) = fst (rescale sf x) /\
    snd (rescale sh (rescale sh x)) idx = snd (rescale sf x) idx.
  Proof.
    intros Hs Hv. split; [now rewrite !rescale_shape|].
    destruct (preserves_shape (fst x) (fst sh)) eqn:E.
    - rewrite !rescale_true by (rewrite ?rescale_shape, <- ?Hs; exact E). rewrite Hv, Hs. ring.
    - rewrite (rescale_false sf) by (rewrite <- Hs; exact E). now rewrite !(rescale_false sh x E).
  Qed.
End Rescale.

Section RobertAsselin.
  Context {F : Type} {o : Ops F} {Fc : FieldC o}.
  Add Field FFra : (field_c : FieldTh o).

  Lemma ra_value_linear (r p c f : F) : p + f = ftwo * c -> ra_value r p c f = c.
  Proof. intros H. unfold ra_value. rewrite H. unfold ftwo. ring. Qed.

  Lemma map3_spec (g : @arr F -> @arr F -> @arr F -> @arr F) (a b c r : @tree F) (d : @arr F) :
    map3 g a b c = Some r ->
    length r = length b /\ length a = length b /\ length c = length b /\
    forall n, (n < length b)%nat -> nth n r d = g (nth n a d) (nth n b d) (nth n c d).
  Proof.
    revert b c r. induction a as [|x a IH]; intros [|y b] [|z c] r H; cbn in H; try discriminate.
    - inversion H; subst. cbn. repeat split; auto. intros n Hn. lia.
    - destruct (map3 g a b c) as [r'|] eqn:E; [|discriminate]. inversion H; subst.
      destruct (IH _ _ _ E) as (H1 & H2 & H3 & H4). cbn [length]. repeat split; try lia.
      intros [|n] Hn; cbn; [reflexivity|]. apply H4. cbn in Hn. lia.
  Qed.

  Lemma map3_total (g : @arr F -> @arr F -> @arr F -> @arr F) (a b c : @tree F) :
    length a = length b -> length c = length b -> exists r, map3 g a b c = Some r.
  Proof.
    revert b c. induction a as [|x a IH]; intros [|y b] [|z c] H1 H2; cbn in *; try discriminate.
    - eauto.
    - destruct (IH b c) as (r & E); [lia|lia|]. rewrite E. eauto.
  Qed.

  Theorem robert_asselin_spec (r : F) (prev cur u0 fut res1 res2 : tree) (d : arr) :
    robert_asselin_leapfrog_filter r (prev, cur) (u0, fut) = Some (res1, res2) ->
    res2 = fut /\ length res1 = length cur /\
    forall n, (n < length cur)%nat ->
      fst (nth n res1 d) = fst (nth n cur d) /\
      forall idx,
        snd (nth n res1 d) idx
        = (1 - ftwo * r) * snd (nth n cur d) idx + r * (snd (nth n prev d) idx + snd (nth n fut d) idx) /\
        (snd (nth n prev d) idx + snd (nth n fut d) idx = ftwo * snd (nth n cur d) idx ->
         snd (nth n res1 d) idx = snd (nth n cur d) idx).
  Proof.
    unfold robert_asselin_leapfrog_filter. cbn [fst snd].
    destruct (map3 (ra_leaf r) prev cur fut) as [c'|] eqn:E; [|discriminate].
    intros H. inversion H; subst. destruct (map3_spec _ _ _ _ _ d E) as (H1 & H2 & H3 & H4).
    split; [reflexivity|]. split; [exact H1|]. intros n Hn. rewrite H4 by assumption.
    cbn [ra_leaf fst snd]. split; [reflexivity|]. intros idx. split; [reflexivity|].
    intros Hl. now apply ra_value_linear.
  Qed.

  Theorem robert_asselin_defined (r : F) (prev cur u0 fut : tree) :
    length prev = length cur -> length fut = length cur ->
    exists res, robert_asselin_leapfrog_filter r (prev, cur) (u0, fut) = Some (res, fut).
  Proof.
    intros H1 H2. unfold robert_asselin_leapfrog_filter. cbn [fst snd].
    destruct (map3_total (ra_leaf r) prev cur fut H1 H2) as (res & E). rewrite E. eauto.
  Qed.
End RobertAsselin.

Section Exponents.
  Context {F : Type} {o : Ops F} {Fc : FieldC o}.
  Add Field FFx : (field_c : FieldTh o).

  Lemma exp_exponent_add (a b c : F) p lmax l :
    exp_exponent (a + b) c p lmax l = exp_exponent a c p lmax l + exp_exponent b c p lmax l.
  Proof. unfold exp_exponent. cbv zeta. ring. Qed.
  Lemma hd_exponent_add (a b r : F) order l :
    hd_exponent (a + b) r order l = hd_exponent a r order l + hd_exponent b r order l.
  Proof. unfold hd_exponent. ring. Qed.

  Lemma fdiv_halves (x y : F) : ftwo <> 0 -> y <> 0 -> x / y = (x / ftwo) / y + (x / ftwo) / y.
  Proof. intros H2 Hy. unfold ftwo in *. field. auto. Qed.

  Lemma exp_exponent_off (a c : F) p lmax l :
    fle (fnat l / fnat lmax) c -> exp_exponent a c p lmax l = 0.
  Proof. intros H. unfold exp_exponent, fltb. cbv zeta. rewrite H. cbn [negb indb]. ring. Qed.
  Lemma exp_exponent_on (a c : F) p lmax l :
    flt c (fnat l / fnat lmax) ->
    exp_exponent a c p lmax l = - (a * fpow ((fnat l / fnat lmax - c) / (1 - c)) (2 * p)).
  Proof. intros H. unfold exp_exponent, fltb. cbv zeta. rewrite H. cbn [negb indb]. ring. Qed.

  Lemma hd_exponent_neg (scale r : F) order l :
    hd_exponent scale r order l = - (scale * fpow (- lap_eig r l) order).
  Proof. unfold hd_exponent. ring. Qed.

  Lemma exp_exponent_mean (a c : F) p lmax : fle 0 c -> exp_exponent a c p lmax 0 = 0.
  Proof. intros Hc. apply exp_exponent_off. cbn [fnat]. now rewrite fdiv0. Qed.

  Lemma hd_exponent_mean (scale r : F) order : (1 <= order)%nat -> hd_exponent scale r order 0 = 0.
  Proof.
    intros Ho. destruct order as [|n]; [lia|]. unfold hd_exponent, lap_eig. cbn [fnat fpow].
    replace (- (0) * (0 + 1)) with (0:F) by ring. rewrite fdiv0. ring.
  Qed.
End Exponents.

Lemma maxn_ge n (f : nat -> nat) j : (j < n)%nat -> (f j <= maxn n f)%nat.
Proof.
  induction n as [|n IH]; intros Hj; [lia|]. cbn.
  destruct (Nat.eq_dec j n) as [->|Hn]; [lia|]. assert (j < n)%nat by lia. specialize (IH H). lia.
Qed.
Lemma maxn_attained n (f : nat -> nat) : (0 < n)%nat -> exists j, (j < n)%nat /\ f j = maxn n f.
Proof.
  induction n as [|n IH]; intros Hn; [lia|]. cbn.
  destruct n as [|n].
  - exists 0%nat. cbn. split; lia.
  - destruct IH as (j & Hj & E); [lia|].
    destruct (Nat.le_gt_cases (f (S n)) (maxn (S n) f)) as [H|H].
    + exists j. split; [lia|]. rewrite E. lia.
    + exists (S n). split; [lia|]. lia.
Qed.

Section Order.
  Context {F : Type} {o : Ops F} {Oc : OrdFieldC o}.
  Add Field FFq : (field_c : FieldTh o).

  Lemma fnat_nonneg n : fle 0 (fnat n).
  Proof.
    induction n as [|n IH]; cbn [fnat]; [apply fle_refl|].
    eapply fle_trans; [exact IH|apply fle_le_add1].
  Qed.
  Lemma fnat_mono n m : (n <= m)%nat -> fle (fnat n) (fnat m).
  Proof.
    induction 1 as [|m H IH]; [apply fle_refl|]. cbn [fnat].
    eapply fle_trans; [exact IH|apply fle_le_add1].
  Qed.
  Lemma fnat_pos n : (0 < n)%nat -> flt 0 (fnat n).
  Proof.
    intros Hn. destruct n as [|k]; [lia|]. cbn [fnat].
    apply (flt_le_trans 0 1); [apply flt_0_1|].
    pose proof (fle_add _ _ 1 (fnat_nonneg k)) as H. replace (0 + 1) with (1:F) in H by ring. exact H.
  Qed.
  Lemma ftwo_neq0 : (ftwo : F) <> 0.
  Proof. apply fpos_neq0, flt_0_2. Qed.

  Lemma fpow_nonneg (x : F) n : fle 0 x -> fle 0 (fpow x n).
  Proof. intros H. induction n as [|n IH]; cbn [fpow]; [apply fle_0_1|now apply fle_mul_pos]. Qed.
  Lemma fpow_pos (x : F) n : flt 0 x -> flt 0 (fpow x n).
  Proof. intros H. induction n as [|n IH]; cbn [fpow]; [apply flt_0_1|now apply fmul_pos_pos]. Qed.
  Lemma fpow_mono (x y : F) n : fle 0 x -> fle x y -> fle (fpow x n) (fpow y n).
  Proof.
    intros H0 H. induction n as [|n IH]; cbn [fpow]; [apply fle_refl|].
    apply fmul_le_mono; auto. now apply fpow_nonneg.
  Qed.
  Lemma fpow_even (x : F) p : fle 0 (fpow x (2 * p)).
  Proof.
    induction p as [|p IH]; [cbn; apply fle_0_1|].
    replace (2 * S p)%nat with (S (S (2 * p))) by lia. cbn [fpow].
    replace (x * (x * fpow x (2 * p))) with ((x * x) * fpow x (2 * p)) by ring.
    apply fle_mul_pos; [apply fle_sq|exact IH].
  Qed.

  Lemma fmaxn_ge n (f : nat -> F) j : (j <= n)%nat -> fle (f j) (fmaxn n f).
  Proof.
    induction n as [|n IH]; intros Hj.
    - replace j with 0%nat by lia. apply fle_refl.
    - cbn [fmaxn]. destruct (Nat.eq_dec j (S n)) as [->|Hn]; [apply fmax_ge_r|].
      eapply fle_trans; [apply IH; lia|apply fmax_ge_l].
  Qed.
  Lemma fmaxn_lub n (f : nat -> F) b : (forall j, (j <= n)%nat -> fle (f j) b) -> fle (fmaxn n f) b.
  Proof.
    induction n as [|n IH]; intros H; cbn [fmaxn]; [apply H; lia|].
    apply fmax_lub; [apply IH; intros; apply H; lia|apply H; lia].
  Qed.

  Lemma exp_exponent_nonpos (a c : F) p lmax l :
    fle 0 a -> fle (exp_exponent a c p lmax l) 0.
  Proof.
    intros Ha. destruct (fle_or_lt (fnat l / fnat lmax) c) as [H|H].
    - rewrite exp_exponent_off by exact H. apply fle_refl.
    - rewrite exp_exponent_on by exact H. apply fle_opp_0, fle_mul_pos; [assumption|apply fpow_even].
  Qed.

  (** [k = l / lmax] grows with [l]; past the cutoff so does [(k - c) / (1 - c) >= 0] *)
  Lemma exp_exponent_mono (a c : F) p lmax l l' :
    (l <= l')%nat -> (0 < lmax)%nat -> fle 0 a -> flt c 1 ->
    fle (exp_exponent a c p lmax l') (exp_exponent a c p lmax l).
  Proof.
    intros Hl Hm Ha Hc.
    assert (Hk : fle (fnat l / fnat lmax) (fnat l' / fnat lmax)).
    { apply fdiv_le_mono; [now apply fnat_mono|now apply fnat_pos]. }
    destruct (fle_or_lt (fnat l / fnat lmax) c) as [E|E].
    - rewrite (exp_exponent_off a c p lmax l) by exact E. now apply exp_exponent_nonpos.
    - rewrite !exp_exponent_on by (try exact E; eapply flt_le_trans; eassumption).
      assert (H1c : flt 0 (1 - c)) by now apply flt_sub_pos.
      apply fle_opp, fle_mul_l; [assumption|]. apply fpow_mono.
      + apply fdiv_pos; [|assumption]. now apply fle_sub_1, flt_le.
      + apply fdiv_le_mono; [|assumption]. apply fle_sub_2.
        replace (fnat l' / fnat lmax - c - (fnat l / fnat lmax - c))
          with (fnat l' / fnat lmax - fnat l / fnat lmax) by ring.
        now apply fle_sub_1.
  Qed.

  Lemma exp_step_semigroup (dt tau c : F) p lmax l :
    tau <> 0 ->
    exp_exponent (dt / tau) c p lmax l = ftwo * exp_exponent ((dt / ftwo) / tau) c p lmax l.
  Proof.
    intros Ht. rewrite (fdiv_halves dt tau ftwo_neq0 Ht), exp_exponent_add. unfold ftwo. ring.
  Qed.

  Lemma neg_lap_eig (r : F) l : r <> 0 -> - lap_eig r l = fnat l * (fnat l + 1) / (r * r).
  Proof. intros Hr. unfold lap_eig. field. auto. Qed.
  Lemma neg_lap_eig_nonneg (r : F) l : r <> 0 -> fle 0 (- lap_eig r l).
  Proof.
    intros Hr. rewrite neg_lap_eig by assumption. apply fdiv_pos; [|now apply fsq_pos].
    apply fle_mul_pos; [apply fnat_nonneg|]. eapply fle_trans; [apply fnat_nonneg|apply fle_le_add1].
  Qed.
  Lemma neg_lap_eig_mono (r : F) l l' : r <> 0 -> (l <= l')%nat -> fle (- lap_eig r l) (- lap_eig r l').
  Proof.
    intros Hr Hl. rewrite !neg_lap_eig by assumption. apply fdiv_le_mono; [|now apply fsq_pos].
    apply fmul_le_mono.
    - apply fnat_nonneg.
    - now apply fnat_mono.
    - eapply fle_trans; [apply fnat_nonneg|apply fle_le_add1].
    - apply fle_add. now apply fnat_mono.
  Qed.
  Lemma neg_lap_eig_pos (r : F) l : r <> 0 -> (0 < l)%nat -> flt 0 (- lap_eig r l).
  Proof.
    intros Hr Hl. rewrite neg_lap_eig by assumption. apply fdiv_pos_pos; [|now apply fsq_pos].
    apply fmul_pos_pos; [now apply fnat_pos|].
    eapply flt_le_trans; [apply fnat_pos; eassumption|apply fle_le_add1].
  Qed.
  Lemma fabs_lap_eig (r : F) l : r <> 0 -> fabs (lap_eig r l) = - lap_eig r l.
  Proof.
    intros Hr. apply fabs_nonpos. replace (lap_eig r l) with (- (- lap_eig r l)) by ring.
    now apply fle_opp_0, neg_lap_eig_nonneg.
  Qed.

  Lemma hd_exponent_nonpos (scale r : F) order l :
    fle 0 scale -> r <> 0 -> fle (hd_exponent scale r order l) 0.
  Proof.
    intros Hs Hr. rewrite hd_exponent_neg. apply fle_opp_0, fle_mul_pos; [assumption|].
    now apply fpow_nonneg, neg_lap_eig_nonneg.
  Qed.
  Lemma hd_exponent_mono (scale r : F) order l l' :
    (l <= l')%nat -> fle 0 scale -> r <> 0 ->
    fle (hd_exponent scale r order l') (hd_exponent scale r order l).
  Proof.
    intros Hl Hs Hr. rewrite !hd_exponent_neg. apply fle_opp, fle_mul_l; [assumption|].
    apply fpow_mono; [now apply neg_lap_eig_nonneg|now apply neg_lap_eig_mono].
  Qed.

  (** the normalisation [abs(eigenvalues).max()] is the eigenvalue of the
      largest total wavenumber present (padded columns carry l = 0) *)
  Theorem max_abs_eig_top (L : nat) (lw : nat -> nat) (r : F) :
    (0 < L)%nat -> r <> 0 -> max_abs_eig L lw r = - lap_eig r (maxn L lw).
  Proof.
    intros HL Hr. unfold max_abs_eig. apply fle_antisym.
    - apply fmaxn_lub. intros j Hj. rewrite fabs_lap_eig by assumption.
      apply neg_lap_eig_mono; [assumption|]. apply maxn_ge. lia.
    - destruct (maxn_attained L lw HL) as (j & Hj & E).
      rewrite <- E, <- fabs_lap_eig by assumption.
      apply (fmaxn_ge (L - 1) (fun j0 => fabs (lap_eig r (lw j0))) j). lia.
  Qed.

  Lemma max_abs_eig_pow_pos (L : nat) (lw : nat -> nat) (r : F) order :
    (0 < L)%nat -> (0 < maxn L lw)%nat -> r <> 0 -> flt 0 (fpow (max_abs_eig L lw r) order).
  Proof.
    intros HL Hm Hr. apply fpow_pos. rewrite max_abs_eig_top by assumption. now apply neg_lap_eig_pos.
  Qed.

  Definition hd_step_scale_s (L : nat) (lw : nat -> nat) (dt tau r : F) (order : nat) : F :=
    dt / (tau * fpow (max_abs_eig L lw r) order).

  Lemma hd_step_scale_scalar L lw (dt tau r : F) order idx :
    snd (hd_step_scale L lw dt (scalar_arr tau) r order) idx = hd_step_scale_s L lw dt tau r order.
  Proof. reflexivity. Qed.

  Lemma hd_step_scale_nonneg L lw (dt tau r : F) order :
    (0 < L)%nat -> (0 < maxn L lw)%nat -> r <> 0 -> fle 0 dt -> flt 0 tau ->
    fle 0 (hd_step_scale_s L lw dt tau r order).
  Proof.
    intros HL Hm Hr Hdt Htau. apply fdiv_pos; [assumption|].
    apply fmul_pos_pos; [assumption|now apply max_abs_eig_pow_pos].
  Qed.

  Lemma hd_step_semigroup L lw (dt tau r : F) order l :
    (0 < L)%nat -> (0 < maxn L lw)%nat -> r <> 0 -> tau <> 0 ->
    hd_exponent (hd_step_scale_s L lw dt tau r order) r order l
    = ftwo * hd_exponent (hd_step_scale_s L lw (dt / ftwo) tau r order) r order l.
  Proof.
    intros HL Hm Hr Ht. unfold hd_step_scale_s.
    rewrite (fdiv_halves dt _ ftwo_neq0), hd_exponent_add; [unfold ftwo; ring|].
    apply fmul_nz; [assumption|]. now apply fpos_neq0, max_abs_eig_pow_pos.
  Qed.

  (** docstring of [horizontal_diffusion_step_filter]: the top mode decays with time scale tau *)
  Theorem hd_step_top_mode L lw (dt tau r : F) order :
    (0 < L)%nat -> (0 < maxn L lw)%nat -> r <> 0 -> tau <> 0 ->
    hd_exponent (hd_step_scale_s L lw dt tau r order) r order (maxn L lw) = - (dt / tau).
  Proof.
    intros HL Hm Hr Ht.
    pose proof (fpos_neq0 _ (max_abs_eig_pow_pos L lw r order HL Hm Hr)) as HM.
    unfold hd_exponent, hd_step_scale_s. rewrite <- max_abs_eig_top by assumption.
    field. auto.
  Qed.
End Order.

Section Exp.
  Context {F : Type} {o : Ops F} {Oc : OrdFieldC o}.
  Add Field FFe : (field_c : FieldTh o).
  Variable fexp : F -> F.
  Hypothesis H_exp_0 : fexp 0 = 1.
  Hypothesis H_exp_add : forall x y, fexp (x + y) = fexp x * fexp y.
  Hypothesis H_exp_pos : forall x, flt 0 (fexp x).
  Hypothesis H_exp_mono : forall x y, fle x y -> fle (fexp x) (fexp y).

  Lemma scaling_unit (e : F) : fle e 0 -> flt 0 (fexp e) /\ fle (fexp e) 1.
  Proof. intros H. split; [apply H_exp_pos|]. rewrite <- H_exp_0. now apply H_exp_mono. Qed.

  Lemma scaling_double (e : F) : fexp (ftwo * e) = fexp e * fexp e.
  Proof. rewrite <- H_exp_add. f_equal. unfold ftwo. ring. Qed.

  (** Both filters multiply by [fexp] of an exponent [e strength l] that depends on the
      position only through the total wavenumber [l] of the last axis:
      [exp_filter_exponent] and [exponential_filter] are [wn_exponent] and [wn_filter] at
      [exp_of], [hd_filter_exponent] and [horizontal_diffusion_filter] at [hd_of], by
      conversion. *)
  Definition wn_exponent (L : nat) (lw : nat -> nat) (att : @arr F) (e : F -> nat -> F) : option (@arr F) :=
    match broadcast_shapes (fst att) [L] with
    | None => None
    | Some sh => Some (sh, fun idx => e (snd att (bidx (fst att) idx)) (lw (last idx 0%nat)))
    end.
  Definition wn_filter L lw att e (t : @tree F) : option (@tree F) :=
    match wn_exponent L lw att e with None => None | Some x => Some (filter_tree (map_arr fexp x) t) end.
  Definition exp_of (c : F) (p lmax : nat) : F -> nat -> F := fun a l => exp_exponent a c p lmax l.
  Definition hd_of (r : F) (order : nat) : F -> nat -> F := fun s l => hd_exponent s r order l.

  Lemma wn_exponent_scalar L lw (a : F) e :
    wn_exponent L lw (scalar_arr a) e = Some ([L], fun idx => e a (lw (last idx 0%nat))).
  Proof.
    unfold wn_exponent, broadcast_shapes, lpad, scalar_arr.
    cbn [fst snd length Nat.max Nat.sub repeat app bzip]. rewrite bdim_1_l. reflexivity.
  Qed.

  Lemma rescale_1d (L : nat) (s : list nat -> F) (x : arr) pre ipre j :
    fst x = pre ++ [L] -> (j < L)%nat ->
    snd (rescale ([L], s) x) (ipre ++ [j]) = s [j] * snd x (ipre ++ [j]).
  Proof.
    intros Hx Hj. rewrite rescale_true by (cbn [fst]; rewrite Hx; apply spectral_rescaled).
    cbn [fst snd]. now rewrite bidx_1d.
  Qed.

  Theorem wn_filter_leaf L lw (a : F) e (x : arr) pre :
    fst x = pre ++ [L] ->
    exists y, wn_filter L lw (scalar_arr a) e [x] = Some [y] /\ fst y = fst x /\
      forall ipre j, (j < L)%nat -> snd y (ipre ++ [j]) = fexp (e a (lw j)) * snd x (ipre ++ [j]).
  Proof.
    intros Hx. unfold wn_filter. rewrite wn_exponent_scalar.
    cbn [filter_tree map]. eexists. split; [reflexivity|]. split; [apply rescale_shape|].
    intros ipre j Hj. unfold map_arr. cbn [fst snd].
    rewrite (rescale_1d L _ x pre ipre j Hx Hj). reflexivity.
  Qed.

  Theorem wn_filter_nonspectral L lw (a : F) e (x : arr) :
    L <> 1%nat ->
    (fst x = [] \/ fst x = [1%nat] \/ exists pre d, fst x = pre ++ [d] /\ d <> L) ->
    wn_filter L lw (scalar_arr a) e [x] = Some [x].
  Proof.
    intros HL Hx. unfold wn_filter. rewrite wn_exponent_scalar.
    cbn [filter_tree map]. rewrite rescale_false; [reflexivity|]. now apply nonspectral_not_rescaled.
  Qed.

  Theorem wn_filter_twice L lw (a h : F) e (x : arr) idx eh ef :
    (forall l, e a l = ftwo * e h l) ->
    wn_exponent L lw (scalar_arr h) e = Some eh ->
    wn_exponent L lw (scalar_arr a) e = Some ef ->
    fst (rescale (map_arr fexp eh) (rescale (map_arr fexp eh) x)) = fst (rescale (map_arr fexp ef) x) /\
    snd (rescale (map_arr fexp eh) (rescale (map_arr fexp eh) x)) idx = snd (rescale (map_arr fexp ef) x) idx.
  Proof.
    intros He Eh Ef. rewrite wn_exponent_scalar in Eh, Ef. inversion Eh; subst eh. inversion Ef; subst ef.
    apply rescale_twice; [reflexivity|]. intros i. unfold map_arr. cbn [fst snd].
    rewrite He. apply scaling_double.
  Qed.

  (** array-valued strengths of shape (T,1,1,1) on leaves (T,K,M,L) *)
  Lemma preserves_shape_4 T K M L : preserves_shape [T; K; M; L] [T; 1%nat; 1%nat; L] = true.
  Proof.
    apply preserves_shape_spec. exists [], [T; K; M; L]. split; [reflexivity|].
    constructor; [left; reflexivity|]. constructor; [right; reflexivity|].
    constructor; [right; reflexivity|]. constructor; [left; reflexivity|constructor].
  Qed.
  Lemma bidx_4 T L i k m j : (i < T)%nat -> (j < L)%nat ->
    bidx [T; 1%nat; 1%nat; L] [i; k; m; j] = [i; 0%nat; 0%nat; j].
  Proof.
    intros Hi Hj. unfold bidx. cbn.
    destruct (Nat.eqb_spec T 1), (Nat.eqb_spec L 1); repeat f_equal; lia.
  Qed.
  Lemma bidx_4a T i j : (i < T)%nat ->
    bidx [T; 1%nat; 1%nat; 1%nat] [i; 0%nat; 0%nat; j] = [i; 0%nat; 0%nat; 0%nat].
  Proof. intros Hi. unfold bidx. cbn. destruct (Nat.eqb_spec T 1); repeat f_equal; lia. Qed.

  Lemma wn_exponent_4 T L lw (av : list nat -> F) e :
    wn_exponent L lw ([T; 1%nat; 1%nat; 1%nat], av) e
    = Some ([T; 1%nat; 1%nat; L], fun idx => e (av (bidx [T; 1%nat; 1%nat; 1%nat] idx)) (lw (last idx 0%nat))).
  Proof.
    unfold wn_exponent, broadcast_shapes, lpad.
    cbn [fst snd length Nat.max Nat.sub repeat app bzip]. rewrite !bdim_1_r, bdim_1_l. reflexivity.
  Qed.

  Theorem wn_filter_slicewise T K M L lw (av : list nat -> F) e (x : list nat -> F) i k m j eA eS :
    (i < T)%nat -> (j < L)%nat ->
    wn_exponent L lw ([T; 1%nat; 1%nat; 1%nat], av) e = Some eA ->
    wn_exponent L lw (scalar_arr (av [i; 0%nat; 0%nat; 0%nat])) e = Some eS ->
    fst eA = [T; 1%nat; 1%nat; L] /\
    snd (rescale (map_arr fexp eA) ([T; K; M; L], x)) [i; k; m; j]
    = snd (rescale (map_arr fexp eS) (slice i ([T; K; M; L], x))) [k; m; j].
  Proof.
    intros Hi Hj EA ES. rewrite wn_exponent_4 in EA. rewrite wn_exponent_scalar in ES.
    inversion EA; subst eA. inversion ES; subst eS. split; [reflexivity|].
    rewrite rescale_true by (cbn [fst map_arr]; apply preserves_shape_4).
    rewrite rescale_true by (cbn [fst map_arr slice tl]; apply (spectral_rescaled [K; M] L)).
    cbn [fst snd map_arr slice]. rewrite bidx_4 by assumption. rewrite bidx_4a by assumption.
    change [k; m; j] with ([k; m] ++ [j]). rewrite bidx_1d by assumption. reflexivity.
  Qed.
End Exp.
