(** Theorems relating the fast spherical-harmonic layout to the reference
    layout (C09; padding inertness also used by C01).  Any field, any sizes,
    any paddings, any tables, any input. *)
From Dino Require Import Base.Ops Base.Sums Model.SHT Model.SHTFast Thm.SHT.
Local Open Scope F_scope.

Lemma round_to_multiple_spec x m : (1 <= m)%nat ->
  (x <= round_to_multiple x m)%nat /\ (round_to_multiple x m < x + m)%nat /\
  (round_to_multiple x m mod m = 0)%nat.
Proof.
  intros Hm. unfold round_to_multiple, ceil_div.
  pose proof (Nat.div_mod (x + m - 1) m ltac:(lia)) as D.
  pose proof (Nat.mod_upper_bound (x + m - 1) m ltac:(lia)) as U.
  repeat split; try nia.
  rewrite Nat.mul_comm. apply Nat.mod_mul. lia.
Qed.

Lemma modal_rows_fast_even base xs M : (1 <= base)%nat -> (1 <= xs)%nat ->
  exists Mh, modal_rows_fast base xs M = (2 * Mh)%nat /\ (M <= Mh)%nat.
Proof.
  intros Hb Hx. unfold modal_rows_fast.
  destruct (round_to_multiple_spec (2 * M) (2 * base * xs)) as (A & _ & _); [nia|].
  unfold round_to_multiple in *.
  exists (base * xs * ceil_div (2 * M) (2 * base * xs))%nat. split; nia.
Qed.

Lemma phi_half a : (phi a / 2 = mabs_real a)%nat.
Proof.
  destruct a as [|a]; [reflexivity|]. unfold phi, mabs_real.
  now replace (S a + 1)%nat with (S (S a)) by lia.
Qed.

Lemma phi_lt a M : (a < 2 * M - 1)%nat -> (phi a < 2 * M)%nat.
Proof. destruct a; cbn [phi]; lia. Qed.

Lemma phi_ne1 a : phi a <> 1%nat.
Proof. destruct a; cbn [phi]; lia. Qed.

Lemma div2_lt k M : (k < 2 * M)%nat -> (k / 2 < M)%nat.
Proof. intros H. apply Nat.div_lt_upper_bound; lia. Qed.

Lemma divmod2 k : (2 * (k / 2) + k mod 2 = k)%nat.
Proof. symmetry. apply Nat.div_mod. lia. Qed.

(** the m axis of the fast layout is the re-indexed m axis of the reference layout *)
Lemma m_fast_phi M a : (a < 2 * M - 1)%nat -> m_fast M (phi a) = m_real a.
Proof.
  intros Ha. destruct a as [|a]; [reflexivity|].
  unfold m_fast, m_real. cbn [phi].
  rewrite (ltb_false (S (S a)) 2), (ltb_true (S (S a)) (2 * M)) by lia. cbn [orb negb].
  rewrite Nat.even_succ, <- Nat.negb_even, Nat.add_1_r.
  destruct (Nat.even (S a)) eqn:E; [|reflexivity]. cbn [negb].
  apply Nat.even_spec in E. destruct E as [q ->].
  replace (S (2 * q)) with (2 * q + 1)%nat by lia. now rewrite div2_double, div2_double1.
Qed.

Lemma m_fast_out M k : (k = 1 \/ 2 * M <= k)%nat -> m_fast M k = 0%Z.
Proof.
  intros H. unfold m_fast. destruct H as [->|H]; [reflexivity|].
  now rewrite (ltb_false k (2 * M) H), Bool.orb_true_r.
Qed.

Lemma l_fast_in L l : (l < L)%nat -> l_fast L l = l_real l.
Proof. intros H. unfold l_fast. now rewrite (ltb_true l L H). Qed.

Lemma l_fast_out L l : (L <= l)%nat -> l_fast L l = 0%Z.
Proof. intros H. unfold l_fast. now rewrite (ltb_false l L H). Qed.

(** the fast mask is the embedded reference mask: false on the extra row and on all padding *)
Lemma mask_fast_phi M L a l : (a < 2 * M - 1)%nat -> (l < L)%nat ->
  mask_fast M L (phi a) l = mask_real a l.
Proof.
  intros Ha Hl. unfold mask_fast.
  rewrite (m_fast_phi M a Ha), (l_fast_in L l Hl), (ltb_true _ _ (phi_lt a M Ha)), (ltb_true l L Hl).
  rewrite (proj2 (Nat.eqb_neq _ _) (phi_ne1 a)), !Bool.andb_true_r. reflexivity.
Qed.

Lemma mask_fast_row1 M L l : mask_fast M L 1 l = false.
Proof. unfold mask_fast. now rewrite Bool.andb_false_r. Qed.

Lemma mask_fast_pad M L k l : (2 * M <= k \/ L <= l)%nat -> mask_fast M L k l = false.
Proof.
  intros H. unfold mask_fast.
  destruct (Nat.ltb_spec k (2 * M)); destruct (Nat.ltb_spec l L); rewrite ?Bool.andb_false_r; try reflexivity; lia.
Qed.

Section Thm.
  Context {F : Type} {o : Ops F} {Fc : FieldC o}.
  Add Field FFshtf : (field_c : FieldTh o).

  Lemma emul_comm rev (a b : F) : emul rev a b = a * b.
  Proof. destruct rev; unfold emul; ring. Qed.

  Lemma sh_memo3_ok b n m (g : nat -> nat -> nat -> F) q a j :
    (q < b)%nat -> (a < n)%nat -> (j < m)%nat -> sh_memo3 b n m g q a j = g q a j.
  Proof.
    intros Hq Ha Hj. unfold sh_memo3.
    rewrite (nth_map_seq (fun q => sh_memo2 n m (g q)) b q) by assumption.
    now apply sh_memo2_ok.
  Qed.

  (** the reshape lemma: a sum over 2n stacked rows = sum over sign and |m| *)
  Lemma sumn_even_odd n (g : nat -> F) :
    sumn (2 * n) g = sumn 2 (fun s => sumn n (fun m => g (2 * m + s)%nat)).
  Proof.
    rewrite sumn_pairs_even, sumn_add. cbn [sumn].
    rewrite (sumn_ext n (fun m => g (2 * m + 0)%nat) (fun m => g (2 * m)%nat)) by (intros; now rewrite Nat.add_0_r). ring.
  Qed.

  (** a sum over the 2M fast rows whose row-1 term vanishes = sum over the 2M-1 reference rows *)
  Lemma sumn_phi M (g : nat -> F) : (1 <= M)%nat -> g 1%nat = 0 ->
    sumn (2 * M) g = sumn (2 * M - 1) (fun a => g (phi a)).
  Proof.
    intros HM H1. replace (2 * M)%nat with (S (S (2 * M - 2))) by lia.
    replace (S (S (2 * M - 2)) - 1)%nat with (S (2 * M - 2)) by lia.
    rewrite (sumn_S_first (S (2 * M - 2)) g), (sumn_S_first (2 * M - 2) (fun i => g (S i))).
    rewrite (sumn_S_first (2 * M - 2) (fun a => g (phi a))).
    rewrite H1. cbn [phi]. ring.
  Qed.

  Lemma pad2_in I J (z : nat -> nat -> F) i j : (i < I)%nat -> (j < J)%nat -> pad2 I J z i j = z i j.
  Proof. intros Hi Hj. unfold pad2. now rewrite (ltb_true i I Hi), (ltb_true j J Hj). Qed.

  Lemma pad2_out I J (z : nat -> nat -> F) i j : (I <= i \/ J <= j)%nat -> pad2 I J z i j = 0.
  Proof.
    intros H. unfold pad2.
    destruct (Nat.ltb_spec i I); destruct (Nat.ltb_spec j J); try reflexivity; lia.
  Qed.

  Lemma pad2_ext I J (z z' : nat -> nat -> F) i j :
    ((i < I)%nat -> (j < J)%nat -> z i j = z' i j) -> pad2 I J z i j = pad2 I J z' i j.
  Proof.
    intros H. unfold pad2.
    destruct (Nat.ltb_spec i I); destruct (Nat.ltb_spec j J); try reflexivity. now apply H.
  Qed.

  (** an entry of a fast modal array is padding, on the extra row, or the image of a reference entry *)
  Lemma fast_entry_cases M L k l :
    (2 * M <= k \/ L <= l)%nat \/ k = 1%nat \/ exists a, (a < 2 * M - 1)%nat /\ (l < L)%nat /\ k = phi a.
  Proof.
    destruct (Nat.lt_ge_cases k (2 * M)) as [Hk|Hk]; [|now left; left].
    destruct (Nat.lt_ge_cases l L) as [Hl|Hl]; [|now left; right].
    right. destruct k as [|[|k]].
    - right. exists 0%nat. repeat split; [lia|assumption].
    - now left.
    - right. exists (S k). repeat split; [lia|assumption].
  Qed.

  Lemma embed_phi M L (x : nat -> nat -> F) a l : (a < 2 * M - 1)%nat -> (l < L)%nat -> embed M L x (phi a) l = x a l.
  Proof.
    intros Ha Hl. unfold embed. rewrite (ltb_true _ _ (phi_lt a M Ha)), (ltb_true l L Hl).
    destruct a; reflexivity.
  Qed.

  Lemma proj_embed M L (x : nat -> nat -> F) a l : (a < 2 * M - 1)%nat -> (l < L)%nat -> proj (embed M L x) a l = x a l.
  Proof. exact (embed_phi M L x a l). Qed.

  Lemma embed_row1 M L (x : nat -> nat -> F) l : embed M L x 1 l = 0.
  Proof. unfold embed. destruct ((1 <? 2 * M) && (l <? L)); reflexivity. Qed.

  Lemma embed_pad M L (x : nat -> nat -> F) k l : (2 * M <= k \/ L <= l)%nat -> embed M L x k l = 0.
  Proof.
    intros H. unfold embed.
    destruct (Nat.ltb_spec k (2 * M)); destruct (Nat.ltb_spec l L); try reflexivity; lia.
  Qed.

  Lemma embed_ext M L (x x' : nat -> nat -> F) k l :
    (forall a, (a < 2 * M - 1)%nat -> x a l = x' a l) -> embed M L x k l = embed M L x' k l.
  Proof.
    intros H. destruct (fast_entry_cases M L k l) as [Hp|[->|(a & Ha & Hl & ->)]].
    - now rewrite !embed_pad.
    - now rewrite !embed_row1.
    - rewrite !embed_phi by assumption. now apply H.
  Qed.

  Section Plain.
    Variables (Mh Lf If Jf : nat).
    Variable ff : nat -> nat -> F.
    Variable pf : nat -> nat -> nat -> F.
    Variable wf : nat -> F.

    Lemma synth_fast_u_eq rev y i j : (j < Jf)%nat ->
      synth_fast_u rev Mh Lf Jf ff pf y i j
      = sumn (2 * Mh) (fun k => ff i k * sumn Lf (fun l => pf (k / 2) j l * y k l)).
    Proof.
      intros Hj. unfold synth_fast_u. apply sumn_ext; intros k Hk.
      rewrite emul_comm. f_equal. rewrite sh_memo2_ok by assumption.
      unfold stack_m, inv_legendre_f, unstack_m. apply sumn_ext; intros l _.
      rewrite emul_comm. now rewrite divmod2.
    Qed.

    Lemma analysis_fast_u_eq rev z k l : (k < 2 * Mh)%nat ->
      analysis_fast_u rev Mh If Jf ff pf wf z k l
      = sumn Jf (fun j => pf (k / 2) j l * sumn If (fun i => ff i k * (wf j * z i j))).
    Proof.
      intros Hk. unfold analysis_fast_u, stack_m, fwd_legendre_f, unstack_m.
      apply sumn_ext; intros j Hj. rewrite emul_comm. f_equal.
      rewrite divmod2. rewrite sh_memo2_ok by assumption.
      apply sumn_ext; intros i Hi. rewrite emul_comm. now rewrite sh_memo2_ok.
    Qed.

  End Plain.

  Section Related.
    Variables (M L I J Mh Lf If Jf : nat).
    Hypothesis HM : (1 <= M)%nat.
    Hypothesis HMh : (M <= Mh)%nat.
    Hypothesis HLf : (L <= Lf)%nat.
    Hypothesis HIf : (I <= If)%nat.
    Hypothesis HJf : (J <= Jf)%nat.
    Variable fr : nat -> nat -> F.
    Variable pr : nat -> nat -> nat -> F.
    Variable wr : nat -> F.
    Variable ff : nat -> nat -> F.
    Variable pf : nat -> nat -> nat -> F.
    Variable wf : nat -> F.

    (** the fast tables are the reference tables re-indexed by phi, with the
        extra zero column for m = -0 and zero padding (exact table obligation) *)
    Record tables_related : Prop := {
      tr_f_in : forall i a, (i < I)%nat -> (a < 2 * M - 1)%nat -> ff i (phi a) = fr i a;
      tr_f_row1 : forall i, (i < If)%nat -> ff i 1%nat = 0;
      tr_f_out : forall i k, (i < If)%nat -> (k < 2 * Mh)%nat -> (I <= i \/ 2 * M <= k)%nat -> ff i k = 0;
      tr_p_in : forall a j l, (a < 2 * M - 1)%nat -> (j < J)%nat -> (l < L)%nat ->
                              pf (mabs_real a) j l = pr a j l;
      tr_p_out : forall m j l, (m < Mh)%nat -> (j < Jf)%nat -> (l < Lf)%nat ->
                               (M <= m \/ J <= j \/ L <= l)%nat -> pf m j l = 0;
      tr_w_in : forall j, (j < J)%nat -> wf j = wr j;
      tr_w_out : forall j, (J <= j)%nat -> (j < Jf)%nat -> wf j = 0 }.

    Definition K := (2 * M - 1)%nat.

    (** synthesis: fast = pad . reference . Pi, for EVERY fast-layout input
        (whatever sits in the extra row or in the padding is inert) *)
    Theorem synth_fast_general rev y i j :
      tables_related -> (i < If)%nat -> (j < Jf)%nat ->
      synth_fast_u rev Mh Lf Jf ff pf y i j
      = pad2 I J (synth K L J fr pr (proj y)) i j.
    Proof.
      intros T Hi Hj. rewrite synth_fast_u_eq by assumption.
      destruct (Nat.lt_ge_cases i I) as [HiI|HiI].
      2:{ rewrite pad2_out by auto. apply sumn_zero; intros k Hk. rewrite (tr_f_out T i k) by (auto; lia). ring. }
      destruct (Nat.lt_ge_cases j J) as [HjJ|HjJ].
      2:{ rewrite pad2_out by auto. apply sumn_zero; intros k Hk. rewrite sumn_zero; [ring|].
          intros l Hl. rewrite (tr_p_out T (k / 2) j l); auto; [ring | now apply div2_lt]. }
      rewrite pad2_in by assumption.
      rewrite (sumn_trunc (2 * M) (2 * Mh)); [| lia |].
      2:{ intros k Hk1 Hk2. rewrite (tr_f_out T i k) by (auto; lia). ring. }
      rewrite sumn_phi; [| assumption | rewrite (tr_f_row1 T i Hi); ring].
      rewrite synth_eq by assumption. unfold sum2, K. apply sumn_ext; intros a Ha.
      pose proof (mabs_real_lt M a Ha) as Hm.
      rewrite (tr_f_in T i a HiI Ha), phi_half. rewrite <- sumn_scal_l.
      rewrite (sumn_trunc L Lf); [| lia |].
      2:{ intros l Hl1 Hl2. rewrite (tr_p_out T (mabs_real a) j l) by (auto; lia). ring. }
      apply sumn_ext; intros l Hl. rewrite (tr_p_in T a j l) by assumption.
      unfold ylm, proj. ring.
    Qed.

    (** analysis: fast = E . reference, for EVERY padded nodal input
        (whatever sits in the nodal padding is inert; the extra row and the
        modal padding of the result are exactly zero) *)
    Theorem analysis_fast_general rev z k l :
      tables_related -> (k < 2 * Mh)%nat -> (l < Lf)%nat ->
      analysis_fast_u rev Mh If Jf ff pf wf z k l
      = embed M L (analysis K I J fr pr wr z) k l.
    Proof.
      intros T Hk Hl. rewrite analysis_fast_u_eq by assumption.
      destruct (fast_entry_cases M L k l) as [Hp|[->|(a & Ha & HlL & ->)]].
      - rewrite embed_pad by assumption. apply sumn_zero; intros j Hj. destruct Hp as [HkM|HlL].
        + rewrite sumn_zero; [ring|]. intros i Hi. rewrite (tr_f_out T i k) by (auto; lia). ring.
        + rewrite (tr_p_out T (k / 2) j l); auto; [ring|now apply div2_lt].
      - rewrite embed_row1. apply sumn_zero; intros j Hj. rewrite sumn_zero; [ring|].
        intros i Hi. rewrite (tr_f_row1 T i Hi). ring.
      - rewrite embed_phi, phi_half, analysis_eq, sum2_swap by assumption. unfold sum2.
        pose proof (mabs_real_lt M a Ha) as Hm. pose proof (phi_lt a M Ha) as Hp.
        rewrite (sumn_trunc J Jf); [| lia |].
        2:{ intros j Hj1 Hj2. rewrite (tr_p_out T (mabs_real a) j l) by (auto; lia). ring. }
        apply sumn_ext; intros j Hj. rewrite (tr_p_in T a j l) by assumption.
        rewrite <- sumn_scal_l.
        rewrite (sumn_trunc I If); [| lia |].
        2:{ intros i Hi1 Hi2. rewrite (tr_f_out T i (phi a)) by (auto; lia). ring. }
        apply sumn_ext; intros i Hi. rewrite (tr_f_in T i a Hi Ha), (tr_w_in T j Hj).
        unfold ylm. ring.
    Qed.

    Theorem synth_fast_embed rev x i j :
      tables_related -> (i < If)%nat -> (j < Jf)%nat ->
      synth_fast_u rev Mh Lf Jf ff pf (embed M L x) i j = pad2 I J (synth K L J fr pr x) i j.
    Proof.
      intros T Hi Hj. rewrite synth_fast_general by assumption. apply pad2_ext; intros HiI HjJ.
      apply synth_ext; [assumption|]. intros a l Ha Hl. now apply proj_embed.
    Qed.

    Theorem analysis_fast_pad rev z k l :
      tables_related -> (k < 2 * Mh)%nat -> (l < Lf)%nat ->
      analysis_fast_u rev Mh If Jf ff pf wf (pad2 I J z) k l
      = embed M L (analysis K I J fr pr wr z) k l.
    Proof.
      intros T Hk Hl. rewrite analysis_fast_general by assumption. apply embed_ext; intros a Ha.
      apply analysis_ext; [assumption|]. intros i j Hi Hj. now apply pad2_in.
    Qed.

    (** padded nodal entries of a fast synthesis are exactly zero *)
    Corollary synth_fast_padding_zero rev y i j :
      tables_related -> (i < If)%nat -> (j < Jf)%nat -> (I <= i \/ J <= j)%nat ->
      synth_fast_u rev Mh Lf Jf ff pf y i j = 0.
    Proof.
      intros T Hi Hj H. rewrite synth_fast_general by assumption. now apply pad2_out.
    Qed.

    (** the extra row and the modal padding of a fast analysis are exactly zero *)
    Corollary analysis_fast_extra_zero rev z k l :
      tables_related -> (k < 2 * Mh)%nat -> (l < Lf)%nat -> (k = 1 \/ 2 * M <= k \/ L <= l)%nat ->
      analysis_fast_u rev Mh If Jf ff pf wf z k l = 0.
    Proof.
      intros T Hk Hl H. rewrite analysis_fast_general by assumption.
      destruct H as [->|H]; [apply embed_row1 | now apply embed_pad].
    Qed.

    Theorem fast_roundtrip rev y k l (wq : F) (wp : nat -> F) :
      tables_related ->
      H_weights J wr wq wp -> H_fourier_orth K I fr wq -> H_legendre_orth K L J pr wp mabs_real ->
      H_p_support K L J pr mabs_real ->
      (k < 2 * Mh)%nat -> (l < Lf)%nat ->
      analysis_fast_u rev Mh If Jf ff pf wf (synth_fast_u rev Mh Lf Jf ff pf y) k l
      = if mask_fast M L k l then y k l else 0.
    Proof.
      intros T Hw Hfo Hlo Hps Hk Hl. rewrite analysis_fast_general by assumption.
      destruct (fast_entry_cases M L k l) as [Hp|[->|(a & Ha & HlL & ->)]].
      - now rewrite embed_pad, mask_fast_pad.
      - now rewrite embed_row1, mask_fast_row1.
      - rewrite embed_phi, mask_fast_phi by assumption.
        rewrite (analysis_ext K I J fr pr wr _ (synth K L J fr pr (proj y))); [| assumption |].
        + rewrite (sht_roundtrip K L I J fr pr wr wq wp mabs_real) by assumption.
          rewrite mask_real_spec. reflexivity.
        + intros i j Hi Hj. rewrite synth_fast_general by (auto; lia). now apply pad2_in.
    Qed.
  End Related.

  Theorem rev_irrelevant_synth Mh Lf Jf (f : nat -> nat -> F) p y i j : (j < Jf)%nat ->
    synth_fast_u true Mh Lf Jf f p y i j = synth_fast_u false Mh Lf Jf f p y i j.
  Proof. intros Hj. now rewrite !synth_fast_u_eq. Qed.

  Theorem rev_irrelevant_analysis Mh If Jf (f : nat -> nat -> F) p w z k l : (k < 2 * Mh)%nat ->
    analysis_fast_u true Mh If Jf f p w z k l = analysis_fast_u false Mh If Jf f p w z k l.
  Proof. intros Hk. now rewrite !analysis_fast_u_eq. Qed.

  (** stacked (with the Fortran-reshaped Fourier table of [basis]) = unstacked, any argument order *)
  Theorem stacked_irrelevant_synth rev rev' Mh Lf Jf (f : nat -> nat -> F) p y i j : (j < Jf)%nat ->
    synth_fast_s rev Mh Lf Jf (stack_f f) p y i j = synth_fast_u rev' Mh Lf Jf f p y i j.
  Proof.
    intros Hj. rewrite synth_fast_u_eq by assumption. rewrite sumn_even_odd.
    unfold synth_fast_s. apply sumn_ext; intros s Hs. apply sumn_ext; intros m Hm.
    rewrite emul_comm, sh_memo3_ok by assumption. unfold stack_f. f_equal.
    unfold inv_legendre_f, unstack_m. apply sumn_ext; intros l _. rewrite emul_comm.
    replace ((2 * m + s) / 2)%nat with m; [reflexivity|].
    apply (Nat.div_unique (2 * m + s) 2 m s); lia.
  Qed.

  Theorem stacked_irrelevant_analysis rev rev' Mh If Jf (f : nat -> nat -> F) p w z k l :
    (k < 2 * Mh)%nat ->
    analysis_fast_s rev Mh If Jf (stack_f f) p w z k l = analysis_fast_u rev' Mh If Jf f p w z k l.
  Proof.
    intros Hk. rewrite analysis_fast_u_eq by assumption.
    unfold analysis_fast_s, stack_m, fwd_legendre_f.
    apply sumn_ext; intros j Hj. rewrite emul_comm. f_equal.
    rewrite sh_memo3_ok; [| apply Nat.mod_upper_bound; lia | now apply div2_lt | assumption].
    apply sumn_ext; intros i Hi. rewrite emul_comm. unfold stack_f.
    rewrite divmod2. now rewrite sh_memo2_ok.
  Qed.

  (** two fast configurations (different paddings / base multiples) related to the
      same reference tables agree on every resolved entry *)
  Theorem base_multiple_irrelevant M L I J Mh Lf If Jf Mh' Lf' If' Jf'
          fr pr wr ff pf wf ff' pf' wf' rev rev' y y' z z' :
    (1 <= M)%nat -> (M <= Mh)%nat -> (L <= Lf)%nat -> (I <= If)%nat -> (J <= Jf)%nat ->
    (M <= Mh')%nat -> (L <= Lf')%nat -> (I <= If')%nat -> (J <= Jf')%nat ->
    tables_related M L I J Mh Lf If Jf fr pr wr ff pf wf ->
    tables_related M L I J Mh' Lf' If' Jf' fr pr wr ff' pf' wf' ->
    (forall a l, (a < 2 * M - 1)%nat -> (l < L)%nat -> y (phi a) l = y' (phi a) l) ->
    (forall i j, (i < I)%nat -> (j < J)%nat -> z i j = z' i j) ->
    (forall i j, (i < I)%nat -> (j < J)%nat ->
       synth_fast_u rev Mh Lf Jf ff pf y i j = synth_fast_u rev' Mh' Lf' Jf' ff' pf' y' i j) /\
    (forall a l, (a < 2 * M - 1)%nat -> (l < L)%nat ->
       analysis_fast_u rev Mh If Jf ff pf wf z (phi a) l
       = analysis_fast_u rev' Mh' If' Jf' ff' pf' wf' z' (phi a) l).
  Proof.
    intros HM H1 H2 H3 H4 H1' H2' H3' H4' T T' Hy Hz. split.
    - intros i j Hi Hj.
      rewrite (synth_fast_general M L I J Mh Lf If Jf HM H1 H2 H3 H4 fr pr wr ff pf wf rev y i j T),
              (synth_fast_general M L I J Mh' Lf' If' Jf' HM H1' H2' H3' H4' fr pr wr ff' pf' wf' rev' y' i j T') by lia.
      rewrite !pad2_in by assumption.
      apply synth_ext; [assumption|]. intros a l Ha Hl. now apply Hy.
    - intros a l Ha Hl. pose proof (phi_lt a M Ha) as Hp.
      rewrite (analysis_fast_general M L I J Mh Lf If Jf HM H1 H2 H3 H4 fr pr wr ff pf wf rev z _ l T),
              (analysis_fast_general M L I J Mh' Lf' If' Jf' HM H1' H2' H3' H4' fr pr wr ff' pf' wf' rev' z' _ l T') by lia.
      rewrite !embed_phi by assumption. now apply analysis_ext.
  Qed.
End Thm.
