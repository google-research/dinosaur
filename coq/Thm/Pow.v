(** Natural and integer powers on a field ([npow], [zpow] of Model/Units.v;
    those of Model/Scaling.v are convertible with them).  Every fact about an
    inverse is read off the multiplicative fact beside it through
    [fmul_eq1_inv]: [y] with [x * y = 1] is [1 / x]. *)
From Dino Require Import Base.Ops Base.Field Model.Units.
Local Open Scope F_scope.

Section Pow.
  Context {F : Type} {o : Ops F} {Fc : FieldC o}.
  Add Field FFpow : (field_c : FieldTh o).

  Lemma npow_nz x k : x <> 0 -> npow x k <> 0.
  Proof. intros Hx. induction k as [|k IH]; cbn; [exact f1_nz | now apply fmul_nz]. Qed.

  Lemma npow_add x a b : npow x (a + b) = npow x a * npow x b.
  Proof. induction a as [|a IH]; cbn; [ring | rewrite IH; ring]. Qed.

  Lemma npow_mul_base x y k : npow (x * y) k = npow x k * npow y k.
  Proof. induction k as [|k IH]; cbn; [ring | rewrite IH; ring]. Qed.

  Lemma npow_one k : npow 1 k = 1.
  Proof. induction k as [|k IH]; cbn; [reflexivity | rewrite IH; ring]. Qed.

  Lemma npow_inv x k : x <> 0 -> npow (1 / x) k = 1 / npow x k.
  Proof.
    intros Hx. symmetry. apply fmul_eq1_inv.
    rewrite <- npow_mul_base. replace (x * (1 / x)) with 1 by (field; exact Hx). apply npow_one.
  Qed.

  Lemma zpow_of_nat x k : zpow x (Z.of_nat k) = npow x k.
  Proof.
    destruct k as [|k]; [reflexivity|].
    cbn [Z.of_nat zpow]. now rewrite SuccNat2Pos.id_succ.
  Qed.

  Lemma zpow_opp_nat x k : zpow x (- Z.of_nat k) = 1 / npow x k.
  Proof.
    destruct k as [|k]; cbn [Z.of_nat Z.opp zpow].
    - cbn. field. exact f1_nz.
    - now rewrite SuccNat2Pos.id_succ.
  Qed.

  Lemma zpow_sub_nat x a b : x <> 0 -> zpow x (Z.of_nat a - Z.of_nat b) = npow x a / npow x b.
  Proof.
    intros Hx. destruct (Nat.le_ge_cases b a) as [H|H].
    - replace (Z.of_nat a - Z.of_nat b)%Z with (Z.of_nat (a - b)) by lia.
      rewrite zpow_of_nat. replace a with (b + (a - b))%nat at 2 by lia.
      rewrite npow_add. field. now apply npow_nz.
    - replace (Z.of_nat a - Z.of_nat b)%Z with (- Z.of_nat (b - a))%Z by lia.
      rewrite zpow_opp_nat. replace b with (a + (b - a))%nat at 2 by lia.
      rewrite npow_add. field. split; now apply npow_nz.
  Qed.

  (** every integer is a difference of naturals *)
  Lemma zpow_diff x z a b : x <> 0 -> z = (Z.of_nat a - Z.of_nat b)%Z -> zpow x z = npow x a / npow x b.
  Proof. intros Hx ->. now apply zpow_sub_nat. Qed.

  Lemma zpow_add x a b : x <> 0 -> zpow x (a + b) = zpow x a * zpow x b.
  Proof.
    intros Hx.
    rewrite (zpow_diff x a (Z.to_nat a) (Z.to_nat (- a))) by (auto; lia).
    rewrite (zpow_diff x b (Z.to_nat b) (Z.to_nat (- b))) by (auto; lia).
    rewrite (zpow_diff x (a + b) (Z.to_nat a + Z.to_nat b) (Z.to_nat (- a) + Z.to_nat (- b))) by (auto; lia).
    rewrite !npow_add. field. split; now apply npow_nz.
  Qed.

  Lemma zpow_opp_r x a : x <> 0 -> zpow x a * zpow x (- a) = 1.
  Proof. intros Hx. now rewrite <- zpow_add, Z.add_opp_diag_r. Qed.

  Lemma zpow_nz x z : x <> 0 -> zpow x z <> 0.
  Proof. intros Hx. exact (fmul_eq1_nz _ _ (zpow_opp_r x z Hx)). Qed.

  Lemma zpow_opp x a : x <> 0 -> zpow x (- a) = 1 / zpow x a.
  Proof. intros Hx. symmetry. exact (fmul_eq1_inv _ _ (zpow_opp_r x a Hx)). Qed.

  Lemma zpow_sub x a b : x <> 0 -> zpow x (a - b) = zpow x a / zpow x b.
  Proof.
    intros Hx. unfold Z.sub. rewrite zpow_add, zpow_opp by exact Hx. field. now apply zpow_nz.
  Qed.

  Lemma zpow_mul_base x y z : x <> 0 -> y <> 0 -> zpow (x * y) z = zpow x z * zpow y z.
  Proof.
    intros Hx Hy. destruct z; cbn.
    - ring.
    - apply npow_mul_base.
    - rewrite npow_mul_base. field. split; now apply npow_nz.
  Qed.

  Lemma zpow_one z : zpow 1 z = 1.
  Proof. destruct z; cbn; rewrite ?npow_one; try reflexivity. field. exact f1_nz. Qed.

  Lemma zpow_1 x : zpow x 1 = x.
  Proof. unfold zpow. rewrite Pos2Nat.inj_1. cbn [npow]. ring. Qed.

  Lemma zpow_div1_base x z : x <> 0 -> zpow (1 / x) z = 1 / zpow x z.
  Proof.
    intros Hx. symmetry. apply fmul_eq1_inv.
    rewrite <- zpow_mul_base by (try apply fdiv_nz; auto using f1_nz).
    replace (x * (1 / x)) with 1 by (field; exact Hx). apply zpow_one.
  Qed.

  Lemma zpow_mul_exp_nat x a k : x <> 0 -> zpow x (a * Z.of_nat k) = npow (zpow x a) k.
  Proof.
    intros Hx. induction k as [|k IH].
    - cbn. now rewrite Z.mul_0_r.
    - rewrite Nat2Z.inj_succ, Z.mul_succ_r, Z.add_comm, zpow_add, IH by exact Hx. reflexivity.
  Qed.

  Lemma zpow_mul_exp x a b : x <> 0 -> zpow x (a * b) = zpow (zpow x a) b.
  Proof.
    intros Hx. destruct b as [|p|p].
    - now rewrite Z.mul_0_r.
    - rewrite <- (positive_nat_Z p), zpow_mul_exp_nat, zpow_of_nat by exact Hx. reflexivity.
    - replace (a * Z.neg p)%Z with (- (a * Z.of_nat (Pos.to_nat p)))%Z by lia.
      rewrite zpow_opp, zpow_mul_exp_nat by exact Hx. reflexivity.
  Qed.
End Pow.
