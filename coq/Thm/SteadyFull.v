(** Property C05 on the EXECUTED whole-state models.
    Model/PrimEqFull.v (explicit_terms_full + implicit_terms_full, the concrete operators of
    Model/SHT.v / Model/Deriv.v): a resting isothermal atmosphere in hydrostatic balance over any
    orography has zero total tendency of vorticity, temperature and ln ps on every in-range
    coefficient, and the divergence tendency is exactly g (lap orog - clip (lap orog)).
    Linearity of the five operators and lap(constant) = 0 come from Thm/PrimEqFull.v;
    no exactness hypothesis on the transforms is left.
    The same for the moist classes, and the modal refinement of the executed dry model.
    Model/ShallowWater.v: the model refines the layered shallow-water specification; its concrete operators
    are linear. *)
From Dino Require Import Base.Ops Base.Field Base.Sums Base.Ord Model.Sigma Model.Implicit Model.PrimEq Model.SHT Model.Deriv
     Model.PrimEqFull Gen.DerivExprs Thm.SHT Thm.Deriv Thm.Implicit Thm.PrimEq Thm.PrimEqFull
     Model.PrimEqSpec Thm.PrimEqSpec.
Local Open Scope F_scope.

Section RestFull.
  Context {F : Type} {o : Ops F} {Fc : FieldC o}.
  Add Field FFsf : (field_c : FieldTh o).

  Lemma memo3_zero n m q (x : nat -> nat -> nat -> F) :
    (forall k a j, (k < n)%nat -> (a < m)%nat -> (j < q)%nat -> x k a j = 0) ->
    forall k a j, memo3 n m q x k a j = 0.
  Proof.
    intros H k a j. rewrite memo3_spec.
    destruct (Nat.ltb_spec k n), (Nat.ltb_spec a m), (Nat.ltb_spec j q); cbn [andb]; auto.
  Qed.

  Variable g : @HGrid F.

  (** get_cos_lat_vector of a state without vorticity and divergence is the zero vector *)
  Lemma uvm_rest (vo dv : nat -> nat -> F) a l :
    (forall a l, (a < hR g)%nat -> (l < hL g)%nat -> vo a l = 0) ->
    (forall a l, (a < hR g)%nat -> (l < hL g)%nat -> dv a l = 0) ->
    (a < hR g)%nat -> (l < hL g)%nat ->
    fst (uvm g vo dv) a l = 0 /\ snd (uvm g vo dv) a l = 0.
  Proof.
    intros Hvo Hdv Ha Hl. destruct (uvm_comb g 0 0 vo dv vo dv vo dv a l) as [-> ->]; [|split; ring].
    intros a' l' Ha' Hl'. rewrite Hvo, Hdv by auto. split; ring.
  Qed.

  Lemma to_nodal_zero (x : nat -> nat -> F) i j :
    (j < hJ g)%nat -> (forall a l, (a < hR g)%nat -> (l < hL g)%nat -> x a l = 0) -> to_nodal g x i j = 0.
  Proof.
    intros Hj H. rewrite (to_nodal_scal g 0 x x i j Hj) by (intros; rewrite H by assumption; ring). ring.
  Qed.
  Lemma to_nodal3_zero K (x : nat -> nat -> nat -> F) :
    (forall k a l, (k < K)%nat -> (a < hR g)%nat -> (l < hL g)%nat -> x k a l = 0) ->
    forall k i j, to_nodal3 g K x k i j = 0.
  Proof.
    intros H k i j. rewrite (to_nodal3_scal g K 0 x x) by (intros; rewrite H by assumption; ring). ring.
  Qed.

  Lemma clipm_below_top (x : nat -> nat -> F) a l : (l < hL g - 1)%nat -> clipm g x a l = x a l.
  Proof.
    intros Hl. unfold clipm, Deriv.clip. destruct (Nat.ltb_spec l (hL g - (1 + (hL g - hL g)))); [ring|lia].
  Qed.

  Variable c : @PEcfg F.
  Variable s : @State F.
  Hypothesis vort0 : forall k a l, (k < cK c)%nat -> (a < hR g)%nat -> (l < hL g)%nat -> s_vort s k a l = 0.
  Hypothesis div0 : forall k a l, (k < cK c)%nat -> (a < hR g)%nat -> (l < hL g)%nat -> s_div s k a l = 0.
  Hypothesis temp0 : forall k a l, (k < cK c)%nat -> (a < hR g)%nat -> (l < hL g)%nat -> s_temp s k a l = 0.

  Let X := X_of g (diagnostic_state g (cK c) s).

  Lemma rest_u0 p k : n_u (X p) k = 0.
  Proof.
    apply (to_nodal3_zero (cK c) (fun k => fst (uvm g (s_vort s k) (s_div s k)))).
    intros k0 a l Hk Ha Hl.
    exact (proj1 (uvm_rest _ _ a l (fun a' l' => vort0 k0 a' l' Hk) (fun a' l' => div0 k0 a' l' Hk) Ha Hl)).
  Qed.
  Lemma rest_v0 p k : n_v (X p) k = 0.
  Proof.
    apply (to_nodal3_zero (cK c) (fun k => snd (uvm g (s_vort s k) (s_div s k)))).
    intros k0 a l Hk Ha Hl.
    exact (proj2 (uvm_rest _ _ a l (fun a' l' => vort0 k0 a' l' Hk) (fun a' l' => div0 k0 a' l' Hk) Ha Hl)).
  Qed.
  Lemma rest_d0 p k : n_div (X p) k = 0.
  Proof. apply (to_nodal3_zero (cK c) (s_div s) div0). Qed.
  Lemma rest_t0 p k : n_temp (X p) k = 0.
  Proof. apply (to_nodal3_zero (cK c) (s_temp s) temp0). Qed.

  (** the implicit terms of the rest state are those of ModalAssembly without divergence and temperature *)
  Lemma implicit_rest k a l :
    (k < cK c)%nat -> (a < hR g)%nat -> (l < hL g)%nat ->
    let I := implicit_terms_full g c s in
    s_temp I k a l = temp_tendency_implicit Wi c (fun _ _ => 0) k (a, l) /\
    s_lnps I a l = lnps_implicit_col c (fun _ => 0) /\
    forall lnps : Wi -> F, lnps (a, l) = s_lnps s a l ->
      s_div I k a l = div_tendency_implicit Wi (lap_c g) c (fun _ _ => 0) lnps k (a, l).
  Proof.
    intros Hk Ha Hl. cbv zeta. cbn [implicit_terms_full s_temp s_lnps s_div]. split; [|split].
    - unfold temp_tendency_implicit, temp_implicit_col, temp_implicit_dense.
      apply matvec_ext. intros h Hh. unfold unc. cbn [fst snd]. now apply div0.
    - unfold lnps_implicit_col. f_equal. apply matvec_ext. intros h Hh. now apply div0.
    - intros lnps E.
      unfold div_tendency_implicit, lap_c, unc, cur, lapm, Deriv.laplacian, div_implicit_potential. cbn [fst snd].
      rewrite E. do 3 f_equal. unfold geo_diff, geo_diff_dense. apply sumn_ext. intros k0 Hk0.
      now rewrite (temp0 k0 a l Hk0 Ha Hl).
  Qed.
  Lemma rest_lnps_total a l :
    (a < hR g)%nat -> (l < hL g)%nat ->
    lnps_tendency_explicit_c g c X (a, l) + lnps_implicit_col c (fun _ => 0) = 0.
  Proof.
    intros Ha Hl.
    exact (rest_lnps_steady Wi Wi (toM_c g) (clip_c g) (toM_c_lin g) (clip_c_lin g)
             c X rest_u0 rest_v0 (fun _ _ => 0) (fun _ _ => eq_refl) (a, l)).
  Qed.

  Variables grav T0 cst v00 : F.
  Variable orog : nat -> nat -> F.
  Hypothesis RT0_nz : cR c * T0 <> 0.
  Hypothesis Tref_iso : forall k, (k < cK c)%nat -> cTref c k = T0.
  (** hydrostatic balance as a relation between MODAL arrays: constant (only the (0,0) coefficient) minus g orog / (R T0) *)
  Hypothesis H_hydrostatic : forall a l, (a < hR g)%nat -> (l < hL g)%nat ->
      s_lnps s a l = cst * onem00 v00 (a, l) - grav / (cR c * T0) * orog a l.

  Theorem whole_state_rest_isothermal_steady k a l :
    (k < cK c)%nat -> (a < hR g)%nat -> (l < hL g)%nat ->
    let E := explicit_terms_full g c grav orog s in
    let I := implicit_terms_full g c s in
    s_vort E k a l + s_vort I k a l = 0 /\
    s_temp E k a l + s_temp I k a l = 0 /\
    s_lnps E a l + s_lnps I a l = 0 /\
    s_div E k a l + s_div I k a l = grav * (lapm g orog a l - clipm g (lapm g orog) a l) /\
    ((l < hL g - 1)%nat -> s_div E k a l + s_div I k a l = 0).
  Proof.
    intros Hk Ha Hl. cbv zeta.
    destruct (explicit_terms_full_is_assembly g c grav orog s k a l Hk Ha Hl) as (Ev & Ed & Et & El).
    cbv zeta in Ev, Ed, Et, El. fold X in Ev, Ed, Et, El.
    destruct (implicit_rest k a l Hk Ha Hl) as (It & Il & Id).
    rewrite Ev, Ed, Et, El, It, Il,
      (Id (fun w => cst * onem00 v00 w - grav / (cR c * T0) * unc orog w) (eq_sym (H_hydrostatic a l Ha Hl))).
    assert (Rd := rest_divergence_residual Wi Wi (toM_c g) (divc_c g) (lap_c g) (clip_c g)
                    (toM_c_lin g) (divc_c_lin g) (lap_c_lin g) (clip_c_lin g) c grav cst X
                    rest_u0 rest_v0 rest_d0 rest_t0 (fun _ _ => 0) (onem00 v00) (unc orog) (lap_c_const g v00) T0 RT0_nz
                    _ k (a, l) (Tref_iso k Hk) (fun _ _ _ => eq_refl) (fun _ => eq_refl)).
    split; [|split; [|split; [|split]]].
    - cbn [implicit_terms_full s_vort]. unfold zero3.
      rewrite (rest_vorticity_steady Wi Wi (toM_c g) (curlc_c g) (clip_c g) (toM_c_lin g) (curlc_c_lin g) (clip_c_lin g)
                 c X rest_u0 rest_v0 rest_d0 rest_t0 k (a, l)). ring.
    - exact (rest_temperature_steady Wi Wi (toM_c g) (divc_c g) (clip_c g) (toM_c_lin g) (divc_c_lin g) (clip_c_lin g)
               c X rest_u0 rest_v0 rest_d0 (fun _ _ => 0) (fun _ _ => eq_refl) k (a, l)).
    - exact (rest_lnps_total a l Ha Hl).
    - exact Rd.
    - intros Hl1. refine (residual_vanishes _ _ _ _ Rd _). exact (clipm_below_top (lapm g orog) a l Hl1).
  Qed.
End RestFull.

(** The executed MOIST whole-state model (MoistPrimitiveEquations: explicit_terms_full_moist with cloud = false) at rest:
    isothermal, uniform specific humidity q0 (tracer 0), lnps = cst * (0,0)-spectrum - g orog / (R T0 (1 + eps q0)).
    Table hypotheses (in-range only): H_q_uniform, H_gradq_zero (the nodal humidity is q0 and its nodal
    gradient 0 on the node range), H_lap_one (the analysed constant has no laplacian), H_lapn (laplacian(lnps) survives
    to_nodal -> to_modal under the clip). *)
Section RestFullMoist.
  Context {F : Type} {o : Ops F} {Fc : FieldC o}.
  Add Field FFsm : (field_c : FieldTh o).
  Variable g : @HGrid F.
  Variable c : @PEcfg F.
  Variable m : @Moist F.
  Variables grav T0 cst v00 q0 : F.
  Variable orog : nat -> nat -> F.
  Variable s : @State F.
  Hypothesis RT0_nz : cR c * T0 <> 0.
  Hypothesis R_nz : cR c <> 0.
  Let eps := mRv m / cR c - 1.
  Hypothesis mf_nz : 1 + eps * q0 <> 0.
  Hypothesis Tref_iso : forall k, (k < cK c)%nat -> cTref c k = T0.
  Hypothesis vort0 : forall k a l, (k < cK c)%nat -> (a < hR g)%nat -> (l < hL g)%nat -> s_vort s k a l = 0.
  Hypothesis div0 : forall k a l, (k < cK c)%nat -> (a < hR g)%nat -> (l < hL g)%nat -> s_div s k a l = 0.
  Hypothesis temp0 : forall k a l, (k < cK c)%nat -> (a < hR g)%nat -> (l < hL g)%nat -> s_temp s k a l = 0.
  Hypothesis H_hydrostatic : forall a l, (a < hR g)%nat -> (l < hL g)%nat ->
      s_lnps s a l = cst * onem00 v00 (a, l) - grav / (cR c * T0 * (1 + eps * q0)) * orog a l.
  Hypothesis has_humidity : s_tr s <> [].
  Hypothesis H_q_uniform : forall k i j, (k < cK c)%nat -> (i < hI g)%nat -> (j < hJ g)%nat ->
      to_nodal g (q_modal s k) i j = q0.
  Hypothesis H_gradq_zero : forall k i j, (k < cK c)%nat -> (i < hI g)%nat -> (j < hJ g)%nat ->
      to_nodal g (fst (gradm g (q_modal s k))) i j = 0 /\ to_nodal g (snd (gradm g (q_modal s k))) i j = 0.
  Definition lapn0 (p : Wi) : F := to_nodal g (lapm g (s_lnps s)) (fst p) (snd p).
  Hypothesis H_lap_one : forall a l, (a < hR g)%nat -> (l < hL g)%nat -> lap_c g (toM_c g (fun _ => 1)) (a, l) = 0.
  Hypothesis H_lapn : forall a l, (a < hR g)%nat -> (l < hL g)%nat ->
      clip_c g (toM_c g lapn0) (a, l) = clip_c g (lap_c g (unc (s_lnps s))) (a, l).

  Let d := diagnostic_state g (cK c) s.
  Let md := moist_diag g (cK c) s.
  Let X := X_of g d.
  Let q := trn d 0.
  Let gqx := gq_of (m_gqx md).
  Let gqy := gq_of (m_gqy md).

  Let u0 : forall p k, n_u (X p) k = 0 := rest_u0 g c s vort0 div0.
  Let v0 : forall p k, n_v (X p) k = 0 := rest_v0 g c s vort0 div0.
  Let d0 : forall p k, n_div (X p) k = 0 := rest_d0 g c s div0.
  Let t0 : forall p k, n_temp (X p) k = 0 := rest_t0 g c s temp0.

  Lemma moist_gqx0 p k : gqx p k = 0.
  Proof.
    apply (memo3_zero (cK c) (hI g) (hJ g)). intros k0 i j Hk Hi Hj. exact (proj1 (H_gradq_zero k0 i j Hk Hi Hj)).
  Qed.
  Lemma moist_gqy0 p k : gqy p k = 0.
  Proof.
    apply (memo3_zero (cK c) (hI g) (hJ g)). intros k0 i j Hk Hi Hj. exact (proj2 (H_gradq_zero k0 i j Hk Hi Hj)).
  Qed.
  Lemma moist_q_nodes i j k : (k < cK c)%nat -> (i < hI g)%nat -> (j < hJ g)%nat -> q (i, j) k = q0.
  Proof.
    intros Hk Hi Hj. unfold q, trn, tr_of, d, diagnostic_state. cbn [d_tr fst snd].
    pose proof (H_q_uniform k i j Hk Hi Hj) as E. unfold q_modal in E.
    destruct (s_tr s) as [|qm rest]; [contradiction has_humidity; reflexivity|].
    cbn [map nth] in *. unfold to_nodal3. rewrite memo3_ok by assumption. exact E.
  Qed.

  Lemma lap_c_ext_pt (x y : Wi -> F) w : x w = y w -> lap_c g x w = lap_c g y w.
  Proof. destruct w. intros H. unfold lap_c, unc, lapm, Deriv.laplacian, cur. cbn [fst snd]. now rewrite H. Qed.

  Notation lnpsm := (fun w : Wi => cst * onem00 v00 w - grav / (cR c * T0 * (1 + eps * q0)) * unc orog w).

  (** the concrete clip and laplacian act coefficient by coefficient, so the in-range table hypotheses give the
      humidity term under the clip at the coefficient: - q0 T0 (Rv - R) lap(lnps) *)
  Lemma moist_humidity_term k a l :
    (k < cK c)%nat -> (a < hR g)%nat -> (l < hL g)%nat ->
    clip_c g (fun w' => humidity_div_modal Wi Wi (toM_c g) (lap_c g) c m X q gqx gqy
                                           (fun p => m_lap md (fst p) (snd p)) k w') (a, l)
    = - (q0 * T0 * (mRv m - cR c)) * clip_c g (lap_c g lnpsm) (a, l).
  Proof.
    intros Hk Ha Hl.
    rewrite <- (clip_c_ext_pt g (lap_c g (unc (s_lnps s))) (lap_c g lnpsm) (a, l))
      by (apply lap_c_ext_pt; exact (H_hydrostatic a l Ha Hl)).
    rewrite <- (H_lapn a l Ha Hl).
    rewrite <- (lin_scal (clip_c g) (clip_c_lin g) (fun w' => - (q0 * T0 * (mRv m - cR c)) * toM_c g lapn0 w')
                  (toM_c g lapn0) _ (fun _ => eq_refl)).
    apply clip_c_ext_pt. unfold humidity_div_modal.
    set (Gc := geo_diff false c (fun _ => q0 * T0 * (mRv m / cR c - 1)) k).
    rewrite (lap_c_ext_pt _ (fun w' => Gc * toM_c g (fun _ => 1) w') (a, l)).
    2:{ rewrite <- (lin_scal (toM_c g) (toM_c_lin g) (fun _ => Gc * 1) (fun _ => 1) Gc (fun _ => eq_refl) (a, l)).
        apply toM_c_ext_range; [assumption|]. intros i j Hi Hj.
        apply (humidity_geo_rest c (X (i, j)) (t0 (i, j))); [|exact Tref_iso].
        intros k1 Hk1. now apply moist_q_nodes. }
    rewrite (lin_scal (lap_c g) (lap_c_lin g) _ (toM_c g (fun _ => 1)) Gc (fun _ => eq_refl)), (H_lap_one a l Ha Hl).
    rewrite (toM_c_ext_range g _ (fun p => q0 * T0 * (mRv m - cR c) * lapn0 p) a l Ha).
    2:{ intros i j Hi Hj. unfold lapn0, md, moist_diag. cbn [m_lap fst snd]. rewrite sh_memo2_ok by assumption.
        apply humidity_div_rest; [now apply moist_q_nodes|apply moist_gqx0|apply moist_gqy0|now apply Tref_iso]. }
    rewrite (lin_scal (toM_c g) (toM_c_lin g) _ lapn0 (q0 * T0 * (mRv m - cR c)) (fun _ => eq_refl)). ring.
  Qed.

  Theorem whole_state_rest_isothermal_steady_moist k a l :
    (k < cK c)%nat -> (a < hR g)%nat -> (l < hL g)%nat ->
    let E := explicit_terms_full_moist g false c m grav orog s in
    let I := implicit_terms_full g c s in
    s_vort E k a l + s_vort I k a l = 0 /\
    s_temp E k a l + s_temp I k a l = 0 /\
    s_lnps E a l + s_lnps I a l = 0 /\
    s_div E k a l + s_div I k a l = grav / (1 + eps * q0) * (lapm g orog a l - clipm g (lapm g orog) a l) /\
    ((l < hL g - 1)%nat -> s_div E k a l + s_div I k a l = 0).
  Proof.
    intros Hk Ha Hl. cbv zeta.
    destruct (explicit_terms_full_moist_is_assembly g c m grav orog false s k a l Hk Ha Hl) as (Ev & Ed & Et & El).
    cbv zeta in Ev, Ed, Et, El.
    fold d in Ev, Ed, Et, El. fold md in Ev, Ed. fold X in Ev, Ed, Et, El. fold q in Ed, Et. fold gqx in Ev, Ed. fold gqy in Ev, Ed.
    change (rt_full g false c m d) with (fun p => rt_moist c m (X p) (q p)) in Ev, Ed.
    destruct (implicit_rest g c s div0 temp0 k a l Hk Ha Hl) as (It & Il & Id).
    rewrite Ev, Ed, Et, El, It, Il, (Id lnpsm (eq_sym (H_hydrostatic a l Ha Hl))).
    assert (Rd := rest_divergence_residual_humid Wi Wi (toM_c g) (divc_c g) (lap_c g) (clip_c g)
                    (toM_c_lin g) (divc_c_lin g) (lap_c_lin g) (clip_c_lin g) c grav cst X u0 v0 d0 t0 (fun _ _ => 0)
                    (onem00 v00) (unc orog) (lap_c_const g v00) T0 RT0_nz m q0 q R_nz mf_nz _ lnpsm k (a, l)
                    (Tref_iso k Hk) (fun _ _ _ => eq_refl) (fun _ => eq_refl) (moist_humidity_term k a l Hk Ha Hl)).
    split; [|split; [|split; [|split]]].
    - cbn [implicit_terms_full s_vort]. unfold zero3.
      rewrite (rest_vorticity_steady_moist Wi Wi (toM_c g) (curlc_c g) (clip_c g) (toM_c_lin g) (curlc_c_lin g) (clip_c_lin g)
                 c X u0 v0 d0 t0 m q gqx gqy k (a, l) (fun p => moist_gqx0 p k) (fun p => moist_gqy0 p k)). ring.
    - exact (rest_temperature_steady_moist Wi Wi (toM_c g) (divc_c g) (clip_c g) (toM_c_lin g) (divc_c_lin g) (clip_c_lin g)
               c X u0 v0 d0 (fun _ _ => 0) (fun _ _ => eq_refl) m q k (a, l)).
    - exact (rest_lnps_total g c s vort0 div0 a l Ha Hl).
    - exact Rd.
    - intros Hl1. refine (residual_vanishes _ _ _ _ Rd _). exact (clipm_below_top g (lapm g orog) a l Hl1).
  Qed.
End RestFullMoist.

(** Uniform humidity as a MODAL hypothesis: if tracer 0 is q0 times the (0,0)-only spectrum v00 on the coefficient
    range and that spectrum synthesises to the constant one (H_one, the table hypothesis of C04), then the nodal humidity is q0
    and its nodal cos-lat gradient vanishes: H_q_uniform and H_gradq_zero follow. *)
Section UniformHumidity.
  Context {F : Type} {o : Ops F} {Fc : FieldC o}.
  Add Field FFuh : (field_c : FieldTh o).
  Variable g : @HGrid F.
  Variables v00 q0 : F.
  Hypothesis H_one : forall i j, (i < hI g)%nat -> (j < hJ g)%nat -> to_nodal g (cur (onem00 v00)) i j = 1.
  Variable x : nat -> nat -> F.
  Hypothesis Hx : forall a l, (a < hR g)%nat -> (l < hL g)%nat -> x a l = q0 * onem00 v00 (a, l).
  Let xo : nat -> nat -> F := fun a l => q0 * onem00 v00 (a, l).

  Lemma uniform_nodal i j : (i < hI g)%nat -> (j < hJ g)%nat -> to_nodal g x i j = q0.
  Proof.
    intros Hi Hj. unfold to_nodal.
    rewrite (synth_ext (hR g) (hL g) (hJ g) (hf g) (hp g) x (fun a l => q0 * cur (onem00 v00) a l + (fun _ _ => 0) a l) i j Hj)
      by (intros a l Ha Hl; rewrite (Hx a l Ha Hl); unfold cur; ring).
    rewrite (synth_linear (hR g) (hL g) (hJ g) (hf g) (hp g) q0 (cur (onem00 v00)) (fun _ _ => 0) i j Hj).
    rewrite synth_zero. pose proof (H_one i j Hi Hj) as E. unfold to_nodal in E. rewrite E. ring.
  Qed.

  Lemma uniform_grad_nodal i j : (j < hJ g)%nat ->
    to_nodal g (fst (gradm g x)) i j = 0 /\ to_nodal g (snd (gradm g x)) i j = 0.
  Proof using Fc H_one Hx.
    intros Hj.
    assert (G : forall a l, (a < hR g)%nat -> (l < hL g)%nat -> fst (gradm g x) a l = 0 /\ snd (gradm g x) a l = 0).
    { intros a l Ha Hl. unfold gradm.
      destruct (cos_lat_grad_ext false (hL g) (hR g) (hL g) (hr g) (ha g) (hb g) false x xo a l Hx Ha Hl) as [-> ->].
      apply cos_lat_grad_const; try assumption.
      intros a' l' N. unfold xo, onem00. cbn [fst snd].
      destruct N as [N|N]; apply Nat.eqb_neq in N; rewrite N, ?Bool.andb_false_r; cbn [andb]; ring. }
    split; apply to_nodal_zero; try assumption; intros a l Ha Hl; now apply G.
  Qed.
End UniformHumidity.

(** The executed dry whole-state model refines the specification at the modal layer ([refines_vorticity_modal],
    [refines_divergence_modal] of Thm/PrimEqSpec.v at the concrete operators, for the EXECUTED explicit_terms_full + implicit_terms_full):
    the total vorticity / divergence tendency of every in-range coefficient is the clipped modal curl / div / laplacian of the
    analysed specification momentum vector (zeta+f) k x v + sigma_dot dv/dsigma + R T grad lnps and of KE + g orog (+ G.T).
    Exactness hypotheses (those of C04_whole_state_split_invariance): H_one, H_div_grad, H_curl_grad; b_0 = 0. *)
Section WholeRefine.
  Context {F : Type} {o : Ops F} {Fc : FieldC o}.
  Add Field FFwr : (field_c : FieldTh o).
  Variable g : @HGrid F.
  Variable c : @PEcfg F.
  Hypothesis b_top : cb c 0%nat = 0.
  Variable grav : F.
  Variable orog : nat -> nat -> F.
  Variable s0 : @State F.                       (* vorticity, divergence, lnps, tracers *)
  Variable temp1 : nat -> nat -> nat -> F.      (* temperature variation of the executed state *)
  Variable T1 : nat -> F.                       (* its reference profile *)
  Variable v00 : F.
  Hypothesis H_one : forall i j, (i < hI g)%nat -> (j < hJ g)%nat -> to_nodal g (cur (onem00 v00)) i j = 1.
  Let X := X_ideal g (cK c) s0.
  Let lnps := unc (s_lnps s0).
  Let T := T_abs g c temp1 T1 v00.              (* absolute nodal temperature *)
  Let Tm := Tm_abs temp1 T1 v00.                (* its modal coefficients *)
  Hypothesis H_div_grad : forall w,
      clip_c g (divc_c g (toM_c g (fun p => n_gx (X p) * n_sec2 (X p))) (toM_c g (fun p => n_gy (X p) * n_sec2 (X p)))) w
      = lap_c g lnps w.
  Hypothesis H_curl_grad : forall w,
      clip_c g (curlc_c g (toM_c g (fun p => n_gx (X p) * n_sec2 (X p))) (toM_c g (fun p => n_gy (X p) * n_sec2 (X p)))) w = 0.

  Let s1 := with_stemp s0 temp1.
  Let c1 := with_tref c T1.

  Lemma wr_rel k a l : (k < cK c)%nat -> (a < hR g)%nat -> (l < hL g)%nat ->
    temp1 k a l = Tm_abs temp1 T1 v00 k (a, l) - T1 k * onem00 v00 (a, l).
  Proof. intros. unfold Tm_abs. cbn [fst snd]. ring. Qed.

  Lemma wr_add0 (x y : F) : x = y -> x + 0 = y.
  Proof. intros ->. ring. Qed.

  Theorem whole_state_refines_spec k a l :
    (k < cK c)%nat -> (a < hR g)%nat -> (l < hL g)%nat ->
    let E := explicit_terms_full g c1 grav orog s1 in
    let I := implicit_terms_full g c1 s1 in
    s_vort E k a l + s_vort I k a l
    = clip_c g (fun w' => - curlc_c g (toM_c g (fun p => spec_P Wi c X (rt_abs Wi c T) p k))
                                      (toM_c g (fun p => spec_Q Wi c X (rt_abs Wi c T) p k)) w') (a, l) /\
    s_div E k a l + s_div I k a l
    = clip_c g (fun w' => - divc_c g (toM_c g (fun p => spec_P Wi c X (rt_abs Wi c T) p k))
                                     (toM_c g (fun p => spec_Q Wi c X (rt_abs Wi c T) p k)) w'
                          - lap_c g (fun w2 => toM_c g (fun p => kinetic (X p) k) w2 + grav * unc orog w2) w') (a, l)
      - lap_c g (fun w' => geo_diff false c (fun k' => Tm k' w') k) (a, l).
  Proof.
    intros Hk Ha Hl. cbv zeta.
    destruct (explicit_terms_full_is_assembly g (with_tref c T1) grav orog s1 k a l Hk Ha Hl) as (Ev & Ed & _ & _).
    cbv zeta in Ev, Ed. change (cK (with_tref c T1)) with (cK c) in *.
    pose proof (node_eq g c s0 temp1 T1 v00 H_one temp1 T1 wr_rel (fun k0 _ => eq_refl)) as N1. fold s1 in N1.
    unfold c1. split.
    - rewrite Ev, (vort_assembly_ext g (with_tref c T1) _ _ N1 k a l Ha Hl).
      cbn [implicit_terms_full s_vort]. unfold zero3.
      apply wr_add0.
      exact (refines_vorticity_modal Wi Wi (toM_c g) (curlc_c g) (clip_c g) (toM_c_lin g) (curlc_c_lin g) (clip_c_lin g)
               c b_top X T H_curl_grad T1 k (a, l) Hk).
    - rewrite Ed, (div_assembly_ext g (with_tref c T1) grav _ _ N1 (unc orog) k a l Ha Hl).
      unfold s1. rewrite (div_implicit_shape g c s0 temp1 T1 v00 (with_tref c T1) temp1 T1 k a l eq_refl Ha Hl wr_rel).
      exact (refines_divergence_modal Wi Wi (toM_c g) (divc_c g) (lap_c g) (clip_c g) (toM_c_lin g) (divc_c_lin g) (lap_c_lin g)
               (clip_c_lin g) c b_top grav X T Tm lnps (onem00 v00) (unc orog) H_div_grad (lap_c_const g v00) T1 k (a, l) Hk).
  Qed.
End WholeRefine.

From Dino Require Import Model.ShallowWater.

(** Shallow water: explicit_terms of Model/ShallowWater.v ([Section SWAssembly], the assembly that
    [sw_explicit_terms] instantiates at the concrete operators) + implicit_terms of Model/Implicit.v ([sw_implicit_terms])
    refine the layered shallow-water specification of Model/PrimEqSpec.v in the sense of [refines_divergence_modal]:
    the modal tendencies are the clipped modal div / curl / laplacian of the analysed specification quantities
      flux = (zeta + f) (u, v),   pressure_i = sum_j Rm i j pot_j + orography  (Rm i i = 1: the diagonal comes from the
      implicit term),   kinetic energy,   (u, v) (ref_i + pot_i)  (the ref_i part comes from the implicit term). *)
Section SWRefine.
  Context {F : Type} {o : Ops F} {Fc : FieldC o}.
  Add Field FFsw : (field_c : FieldTh o).
  Variables W P : Type.
  Variable toM : (P -> F) -> W -> F.
  Variable divc curlc : (W -> F) -> (W -> F) -> W -> F.
  Variable lap clip : (W -> F) -> W -> F.
  Hypothesis toM_lin : linear toM.
  Hypothesis divc_lin : linear2 divc.
  Hypothesis lap_lin : linear lap.
  Hypothesis clip_lin : linear clip.
  Variable N : nat.
  Variable dens : nat -> F.
  Variable X : P -> @SWCol F.
  Variable pot dive : nat -> W -> F.            (* modal potential and divergence of the state *)
  Variable orog : option (W -> F).
  Variable ref : nat -> F.                      (* ref_potential *)
  Variable lam : W -> F.                        (* laplacian eigenvalue of the coefficient *)
  Hypothesis lap_diag : forall x w, lap x w = x w * lam w.

  (** the specification's pressure weights: the code's density ratios (zero diagonal) plus the identity *)
  Definition sw_Rm (i j : nat) : F := density_ratio dens i j + Sums.delta i j.
  Definition sw_orog0 (w : W) : F := match orog with Some h => h w | None => 0 end.
  (** nodal specification quantities at layer r: absolute-vorticity flux, mass flux of the FULL thickness, kinetic energy
      (all times sec^2: the operators as coded are div / curl of sec^2-scaled components, C05_operators) *)
  Definition sw_flux_u r (p : P) : F := s_u (X p) r * (s_vort (X p) r + s_f (X p)) * s_sec2 (X p).
  Definition sw_flux_v r (p : P) : F := s_v (X p) r * (s_vort (X p) r + s_f (X p)) * s_sec2 (X p).
  Definition sw_mass_u r (p : P) : F := s_u (X p) r * (ref r + s_pot (X p) r) * s_sec2 (X p).
  Definition sw_mass_v r (p : P) : F := s_v (X p) r * (ref r + s_pot (X p) r) * s_sec2 (X p).
  Definition sw_kin r (p : P) : F := (s_u (X p) r * s_u (X p) r + s_v (X p) r * s_v (X p) r) * s_sec2 (X p) / (1 + 1).

  Lemma sw_pressure_full r w : (r < N)%nat ->
    sumn N (fun j => sw_Rm r j * pot j w) + sw_orog0 w
    = sw_pressure W N dens pot orog r w + 1 * pot r w.
  Proof.
    intros Hr. unfold sw_pressure, sw_orog0, sw_Rm. cbv zeta.
    rewrite (sumn_ext N (fun j => (density_ratio dens r j + Sums.delta r j) * pot j w)
               (fun j => density_ratio dens r j * pot j w + Sums.delta r j * pot j w)) by (intros; ring).
    rewrite sumn_add, (sumn_delta_l N r (fun j => pot j w) Hr). destruct orog; ring.
  Qed.

  Theorem sw_model_refines_spec r w :
    (r < N)%nat ->
    (* H_sw_pot_clip: the potential has no content in the clipped total wavenumber *)
    clip (lap (pot r)) w = lap (pot r) w ->
    (* H_sw_div_vel: the divergence of the velocity obtained from (vorticity, divergence) is the divergence *)
    clip (divc (toM (fun p => s_u (X p) r * s_sec2 (X p))) (toM (fun p => s_v (X p) r * s_sec2 (X p)))) w = dive r w ->
    let imp := sw_implicit_terms (ref r) (lam w) (dive r w, pot r w) in
    sw_vort_explicit W P toM divc clip X r w + 0
    = clip (fun w' => - divc (toM (sw_flux_u r)) (toM (sw_flux_v r)) w') w /\
    sw_div_explicit W P toM curlc lap clip N dens X pot orog r w + fst imp
    = clip (fun w' => curlc (toM (sw_flux_u r)) (toM (sw_flux_v r)) w'
                      - lap (fun w2 => sumn N (fun j => sw_Rm r j * pot j w2) + sw_orog0 w2 + toM (sw_kin r) w2) w') w /\
    sw_pot_explicit W P toM divc clip X r w + snd imp
    = clip (fun w' => - divc (toM (sw_mass_u r)) (toM (sw_mass_v r)) w') w.
  Proof.
    intros Hr Hpc Hdv. cbv zeta. split; [|split].
    - unfold sw_vort_explicit, sw_flux_u, sw_flux_v, sw_b_u, sw_b_v, sw_total_vorticity. cbv zeta. ring.
    - unfold sw_div_explicit, sw_implicit_terms. cbv zeta. cbn [fst snd].
      change (fun p => sw_b_u (X p) r) with (sw_flux_u r). change (fun p => sw_b_v (X p) r) with (sw_flux_v r).
      change (fun p => sw_e (X p) r) with (sw_kin r).
      rewrite (lin_comb clip clip_lin
                 (fun w' => curlc (toM (sw_flux_u r)) (toM (sw_flux_v r)) w'
                            - lap (fun w2 => sumn N (fun j => sw_Rm r j * pot j w2) + sw_orog0 w2 + toM (sw_kin r) w2) w')
                 (fun w' => - lap (fun w2 => sw_pressure W N dens pot orog r w2 + toM (sw_kin r) w2) w'
                            + curlc (toM (sw_flux_u r)) (toM (sw_flux_v r)) w')
                 (lap (pot r)) (- (1))).
      2:{ intros w'.
          rewrite (lin_comb lap lap_lin
                     (fun w2 => sumn N (fun j => sw_Rm r j * pot j w2) + sw_orog0 w2 + toM (sw_kin r) w2)
                     (fun w2 => sw_pressure W N dens pot orog r w2 + toM (sw_kin r) w2) (pot r) 1)
            by (intros w2; rewrite (sw_pressure_full r w2 Hr); ring).
          ring. }
      rewrite Hpc, (lap_diag (pot r) w). ring.
    - unfold sw_pot_explicit, sw_implicit_terms. cbv zeta. cbn [fst snd].
      change (fun p => sw_g_u (X p) r) with (fun p => s_u (X p) r * s_pot (X p) r * s_sec2 (X p)).
      change (fun p => sw_g_v (X p) r) with (fun p => s_v (X p) r * s_pot (X p) r * s_sec2 (X p)).
      rewrite (lin_comb clip clip_lin
                 (fun w' => - divc (toM (sw_mass_u r)) (toM (sw_mass_v r)) w')
                 (fun w' => - divc (toM (fun p => s_u (X p) r * s_pot (X p) r * s_sec2 (X p)))
                                   (toM (fun p => s_v (X p) r * s_pot (X p) r * s_sec2 (X p))) w')
                 (divc (toM (fun p => s_u (X p) r * s_sec2 (X p))) (toM (fun p => s_v (X p) r * s_sec2 (X p))))
                 (- ref r)).
      2:{ intros w'.
          rewrite (lin2_comb divc divc_lin (toM (sw_mass_u r)) (toM (fun p => s_u (X p) r * s_pot (X p) r * s_sec2 (X p)))
                     (toM (fun p => s_u (X p) r * s_sec2 (X p)))
                     (toM (sw_mass_v r)) (toM (fun p => s_v (X p) r * s_pot (X p) r * s_sec2 (X p)))
                     (toM (fun p => s_v (X p) r * s_sec2 (X p))) (ref r)).
          - ring.
          - intros a. apply (lin_comb toM toM_lin). intros p. unfold sw_mass_u. ring.
          - intros a. apply (lin_comb toM toM_lin). intros p. unfold sw_mass_v. ring. }
      rewrite Hdv. ring.
  Qed.
End SWRefine.

(** The concrete shallow-water operators of Model/ShallowWater.v are linear in the all-index sense of
    Thm/PrimEq.v ([linear], [linear2]): staged arrays read 0 outside the index range, inside they are the
    SHT / Deriv operators.  Both layouts ([fast] arbitrary).  Hence [sw_model_refines_spec] holds for the
    EXECUTED [sw_explicit_terms]. *)
Section SWConcreteLinear.
  Context {F : Type} {o : Ops F} {Fc : FieldC o}.
  Add Field FFswl : (field_c : FieldTh o).

  Lemma sw_stage_cases n m (g : @arr2 F) (w : Wn) :
    sw_stage n m g w = if (Nat.ltb (fst w) n && Nat.ltb (snd w) m)%bool then g (fst w) (snd w) else 0.
  Proof. apply sh_memo2_spec. Qed.

  Variables (fast : bool) (R L I J : nat).
  Variable f : nat -> nat -> F.
  Variable p : nat -> nat -> nat -> F.
  Variable wq : nat -> F.
  Variables (rad : F) (wa wb : @arr2 F).

  Theorem sw_toM_lin : linear (sw_toM R L I J f p wq).
  Proof.
    split.
    - intros x y H w. unfold sw_toM. rewrite !sw_stage_cases.
      destruct (Nat.ltb_spec (fst w) R) as [H1|H1]; cbn [andb]; [|reflexivity].
      destruct (Nat.ltb (snd w) L); [|reflexivity].
      apply analysis_ext; [assumption|]. intros i j _ _. unfold sw_un. apply H.
    - intros t x y w. unfold sw_toM. rewrite !sw_stage_cases.
      destruct (Nat.ltb_spec (fst w) R) as [H1|H1]; cbn [andb]; [|ring].
      destruct (Nat.ltb (snd w) L); [|ring].
      rewrite (analysis_ext R I J f p wq (sw_un (fun a => x a + t * y a))
                 (fun i j => t * sw_un y i j + sw_un x i j) (fst w) (snd w) H1) by (intros; unfold sw_un; ring).
      rewrite analysis_linear by assumption. ring.
  Qed.

  (** staging does not disturb linearity: outside the index range both sides read 0 *)
  Lemma sw_stage_lin2 (op : @arr2 F -> @arr2 F -> @arr2 F) :
    (forall x1 y1 x2 y2, (forall i l, x1 i l = y1 i l) -> (forall i l, x2 i l = y2 i l) ->
                         forall i l, op x1 x2 i l = op y1 y2 i l) ->
    (forall t x1 y1 x2 y2 i l, op (fun i l => x1 i l + t * y1 i l) (fun i l => x2 i l + t * y2 i l) i l
                               = op x1 x2 i l + t * op y1 y2 i l) ->
    linear2 (fun a b => sw_stage R L (op (sw_un a) (sw_un b))).
  Proof.
    intros He Hl. split.
    - intros x1 y1 x2 y2 E1 E2 w. rewrite !sw_stage_cases.
      destruct (Nat.ltb (fst w) R && Nat.ltb (snd w) L)%bool; [|reflexivity].
      apply He; intros; [apply E1|apply E2].
    - intros t x1 y1 x2 y2 w. rewrite !sw_stage_cases.
      destruct (Nat.ltb (fst w) R && Nat.ltb (snd w) L)%bool; [|ring].
      apply (Hl t (sw_un x1) (sw_un y1) (sw_un x2) (sw_un y2)).
  Qed.

  Theorem sw_divc_lin : linear2 (sw_divc fast R L rad wa wb).
  Proof.
    apply (sw_stage_lin2 (fun x y => div_cos_lat fast L R L rad wa wb true (x, y))).
    - intros x1 y1 x2 y2 E1 E2 i l. now apply div_cos_lat_ext_all.
    - intros t x1 y1 x2 y2 i l. exact (div_cos_lat_lin fast L R L rad wa wb true (x1, x2) (y1, y2) t i l).
  Qed.

  Theorem sw_curlc_lin : linear2 (sw_curlc fast R L rad wa wb).
  Proof.
    apply (sw_stage_lin2 (fun x y => curl_cos_lat fast L R L rad wa wb true (x, y))).
    - intros x1 y1 x2 y2 E1 E2 i l. now apply curl_cos_lat_ext_all.
    - intros t x1 y1 x2 y2 i l. exact (curl_cos_lat_lin fast L R L rad wa wb true (x1, x2) (y1, y2) t i l).
  Qed.

  Theorem sw_lap_lin : linear (sw_lap L rad).
  Proof.
    split.
    - intros x y H w. unfold sw_lap, laplacian, sw_un. now rewrite H.
    - intros t x y w. unfold sw_lap, laplacian, sw_un. ring.
  Qed.
  Theorem sw_clip_lin : linear (sw_clip L).
  Proof.
    split.
    - intros x y H w. unfold sw_clip, clip, sw_un. now rewrite H.
    - intros t x y w. unfold sw_clip, clip, sw_un. ring.
  Qed.
  Lemma sw_lap_diag (x : Wn -> F) (w : Wn) : sw_lap L rad x w = x w * lap_eig L rad (snd w).
  Proof. destruct w as [a l]. reflexivity. Qed.
End SWConcreteLinear.
