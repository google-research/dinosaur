(** C06: "order conditions => order" made a theorem for NONLINEAR F, by formal power
    series in the step size h with SYMBOLIC Taylor coefficients.

    The step functions of Model/Integrators.v (the ones the correspondence ties to
    dinosaur/time_integration.py) are run at the carrier "truncated power series in h
    over K" (Model/SeriesH.v) on the coefficient lists of Gen/Tableaux.v, for the scalar
    autonomous problem  u' = F(u) + g u  with u0, g and c_j = F^(j)(u0)/j! ARBITRARY
    elements of an ARBITRARY field K of characteristic 0; the result is compared
    coefficient by coefficient with the Taylor series of the exact flow.

    Proof architecture.  Each coefficient identity is a polynomial identity in
    (u0, g, c0..c4) with rational coefficients.  The series arithmetic is executed once,
    by [vm_compute], on the reified carrier [poly] = Q[x0..x11] (sparse, Model/SeriesH.v);
    the evaluation map  pev rho : poly -> K  is proved to be a ring homomorphism that
    commutes with the injection of rational constants (section PolyEval), every series
    operation and every step function is proved to commute with such a homomorphism
    (section Hom here, section StepHom of Thm/IntegratorsArk.v: one induction per
    interpreter, over all coefficient lists), so "for every field, for all values" follows
    from the one computation.  A negative result is the same symbolic defect polynomial,
    shown not to vanish at a rational point by evaluating it there in Q ([pat]).

    Why the SCALAR symbolic problem decides every order condition the property claims.
    - additive (F,G) scheme, order <= 2: the elementary differentials are f, Gu (order 1)
      and f'f, f'Gu, Gf, GGu (order 2); in the scalar problem they are the monomials
      c0, g u0, c1 c0, c1 g u0, g c0, g g u0, pairwise distinct, so the coefficient of
      each monomial is exactly one order condition (2 + 4 conditions).
    - G = 0: the elementary differentials of the rooted trees of order <= 4 are, for a
      scalar autonomous problem, the monomials c0; c1 c0; c2 c0^2, c1^2 c0;
      c3 c0^3, c2 c1 c0^2 (two trees: [t1,[t1]] and [[t1,t1]], weights 3 and 1),
      c1^3 c0.  Up to order 3 all trees give distinct monomials, so every condition is
      decided.  At order 4 the two trees [t1,[t1]] and [[t1,t1]] share the monomial
      c2 c1 c0^2: the scalar problem decides the conditions of c3 c0^3 and c1^3 c0 and the
      weighted sum of the other two; the four order-4 conditions are each decided
      separately (to 1e-13) in Thm/Integrators.v (order_cn_rk4), so nothing is hidden
      for the only scheme claimed to have order 4.
    - SIL3 "order 3 for linear F": only c1 is involved (c2 = c3 = c4 = 0).
    Not covered: vector-valued elementary differentials of order >= 5 (never claimed). *)
From Dino Require Import Base.Ops Base.Field Base.Sums Gen.Tableaux Model.Integrators Model.SeriesH
  Thm.Integrators Thm.IntegratorsArk.
From Coq Require Import Lia Qabs InitialRing.
Local Open Scope F_scope.

Definition NN : nat := 5.   (* coefficients of h^0 .. h^4 *)

Section Hom.
  Context {A B : Type} {oA : Ops A} {oB : Ops B}.
  Variables (cqA : Q -> A) (cqB : Q -> B) (N : nat) (phi : A -> B).
  Hypothesis phi0 : phi 0 = 0.
  Hypothesis phi1 : phi 1 = 1.
  Hypothesis phi_add : forall a b, phi (a + b) = phi a + phi b.
  Hypothesis phi_mul : forall a b, phi (a * b) = phi a * phi b.
  Hypothesis phi_opp : forall a, phi (- a) = - phi a.
  Hypothesis phi_cq : forall q, phi (cqA q) = cqB q.
  Notation Phi := (map phi).

  Lemma Phi_tadd a b : Phi (tadd a b) = tadd (Phi a) (Phi b).
  Proof.
    revert b. induction a as [|x a IH]; intros [|y b]; cbn [tadd map]; try reflexivity.
    now rewrite phi_add, IH.
  Qed.
  Lemma Phi_topp a : Phi (topp a) = topp (Phi a).
  Proof. unfold topp. rewrite !map_map. apply map_ext. intros x. apply phi_opp. Qed.
  Lemma Phi_tsub a b : Phi (tsub a b) = tsub (Phi a) (Phi b).
  Proof. unfold tsub. now rewrite Phi_tadd, Phi_topp. Qed.
  Lemma phi_tcoef a k : phi (tcoef a k) = tcoef (Phi a) k.
  Proof. unfold tcoef. rewrite <- (map_nth phi a 0 k). now rewrite phi0. Qed.
  Lemma phi_sumn n (f : nat -> A) : phi (sumn n f) = sumn n (fun i => phi (f i)).
  Proof. induction n as [|n IH]; cbn [sumn]; [exact phi0|]. now rewrite phi_add, IH. Qed.
  Lemma Phi_tmul a b : Phi (tmul N a b) = tmul N (Phi a) (Phi b).
  Proof.
    destruct a as [|x a]; [reflexivity|]. unfold tmul. cbn [map].
    rewrite map_map. apply map_ext. intros k. rewrite phi_sumn. apply sumn_ext. intros i _.
    rewrite phi_mul, !phi_tcoef. reflexivity.
  Qed.
  Lemma Phi_iter n (fA : list A -> list A) (fB : list B -> list B) :
    (forall x, Phi (fA x) = fB (Phi x)) -> forall x, Phi (Nat.iter n fA x) = Nat.iter n fB (Phi x).
  Proof. intros H x. induction n as [|n IH]; [reflexivity|].
    change (Phi (fA (Nat.iter n fA x)) = fB (Nat.iter n fB (Phi x))). now rewrite H, IH. Qed.
  Lemma Phi_tq q : Phi (tq cqA q) = tq cqB q.
  Proof. unfold tq. destruct (Qeq_bool q 0); cbn [map]; [reflexivity|]. now rewrite phi_cq. Qed.
  Lemma Phi_hh : Phi hh = hh.
  Proof. unfold hh. cbn [map]. now rewrite phi0, phi1. Qed.
  Lemma Phi_tint_from a : forall k, Phi (tint_from cqA k a) = tint_from cqB k (Phi a).
  Proof. induction a as [|x a IH]; intros k; cbn [tint_from map]; [reflexivity|]. now rewrite phi_mul, phi_cq, IH. Qed.
  Lemma Phi_tint a : Phi (tint cqA a) = tint cqB (Phi a).
  Proof. unfold tint. cbn [map]. now rewrite phi0, Phi_tint_from. Qed.
  Lemma Phi_tder_from a : forall k, Phi (tder_from cqA k a) = tder_from cqB k (Phi a).
  Proof. induction a as [|x a IH]; intros k; cbn [tder_from map]; [reflexivity|]. now rewrite phi_mul, phi_cq, IH. Qed.
  Lemma Phi_tderiv a : Phi (tderiv cqA a) = tderiv cqB (Phi a).
  Proof. destruct a as [|x a]; [reflexivity|]. cbn [tderiv map]. apply Phi_tder_from. Qed.
  Lemma Phi_talt a : forall s, Phi (talt s a) = talt s (Phi a).
  Proof.
    induction a as [|x a IH]; intros s; cbn [talt map]; [reflexivity|].
    rewrite IH. destruct s; [now rewrite phi_opp|reflexivity].
  Qed.

  Variables (cs : list A) (u0 g : A).
  Lemma Phi_Fser y : Phi (Fser N cs u0 y) = Fser N (Phi cs) (phi u0) (Phi y).
  Proof.
    unfold Fser. cbv zeta.
    replace (tsub (Phi y) [phi u0]) with (Phi (tsub y [u0])) by (now rewrite Phi_tsub).
    generalize (tsub y [u0]) as d. intros d.
    induction cs as [|c l IH]; cbn [fold_right map]; [reflexivity|].
    now rewrite Phi_tadd, Phi_tmul, IH.
  Qed.
  Lemma Phi_Gser y : Phi (Gser N g y) = Gser N (phi g) (Phi y).
  Proof. unfold Gser. now rewrite Phi_tmul. Qed.
  Lemma Phi_Ginvser x eta : Phi (Ginvser N g x eta) = Ginvser N (phi g) (Phi x) (Phi eta).
  Proof.
    unfold Ginvser. apply Phi_iter. intros y. now rewrite Phi_tadd, Phi_tmul, Phi_Gser.
  Qed.
  Lemma Phi_picard E : Phi (picard cqA N cs u0 g E) = picard cqB N (Phi cs) (phi u0) (phi g) (Phi E).
  Proof.
    unfold picard. rewrite <- firstn_map. now rewrite Phi_tadd, Phi_tint, Phi_tadd, Phi_Fser, Phi_Gser.
  Qed.
  Lemma Phi_exact_flow :
    Phi (exact_flow cqA N cs u0 g) = exact_flow cqB N (Phi cs) (phi u0) (phi g).
  Proof. unfold exact_flow. now rewrite (Phi_iter N _ _ Phi_picard). Qed.
  Lemma Phi_exact_flow_back :
    Phi (exact_flow_back cqA N cs u0 g) = exact_flow_back cqB N (Phi cs) (phi u0) (phi g).
  Proof. unfold exact_flow_back. now rewrite Phi_talt, Phi_exact_flow. Qed.
End Hom.

(** the two module laws (and the zero test) [imex_is_ark] needs hold on the nose *)
Section TpsLaws.
  Context {B : Type} {oB : Ops B} (cq : Q -> B) (N : nat).
  Lemma tps_nz_false (c : tps) : @nz tps (TpsOps cq N) c = false -> c = [].
  Proof. destruct c as [|x c]; [reflexivity|]. cbn. discriminate. Qed.
  Lemma tps_add_0_r (x : tps) : tadd x [] = x.
  Proof. destruct x; reflexivity. Qed.
  Lemma tps_mul_0_l (x : tps) : tmul N [] x = [].
  Proof. reflexivity. Qed.
End TpsLaws.

Definition is_some_tps (x : option (list poly)) : bool := match x with Some _ => true | None => false end.

(** the value of a polynomial at a rational point, in Q *)
Fixpoint qpow (x : Q) (n : nat) : Q := match n with O => 1 | S k => x * qpow x k end.
Fixpoint mat (q : nat -> Q) (i : nat) (m : mono) : Q :=
  match m with [] => 1 | e :: m' => qpow (q i) e * mat q (S i) m' end.
Fixpoint pat (q : nat -> Q) (p : poly) : Q :=
  match p with [] => 0 | t :: p' => snd t * mat q 0 (fst t) + pat q p' end.

Definition p0 : poly := pvar 0.     (* u0 *)
Definition p1 : poly := pvar 1.     (* g *)
Definition csV : list poly := [pvar 2; pvar 3; pvar 4; pvar 5; pvar 6].   (* c0..c4 *)
Definition csLin : list poly := [pvar 2; pvar 3; []; []; []].             (* linear F *)
Definition XP (cs : list poly) (u0 g : poly) := exact_flow (oB := POps) pconst NN cs u0 g.
Definition rk4P (cs : list poly) (u0 g : poly) :=
  run_ls (oB := POps) pconst NN cs u0 g rk4_alphas rk4_betas rk4_gammas.
Definition rho7 {K} {oK : Ops K} (u0 g c0 c1 c2 c3 c4 : K) : nat -> K :=
  fun i => nth i [u0; g; c0; c1; c2; c3; c4] 0.
(** the point u0 = 1, (c0..c4) = (1, 2, 1, 1, 1) at which the negative results are witnessed *)
Definition qW (g : Q) : nat -> Q := fun i => nth i [1; g; 1; 2; 1; 1; 1]%Q 0%Q.

Section PolyEval.
  Context {K : Type} {oK : Ops K} {Kc : FieldC oK}.
  Add Field KF : (field_c : FieldTh oK).
  Hypothesis char0 : forall p : positive, @ofZ K oK (Zpos p) <> 0.

  Let zmorph := gen_phiZ_morph (Eqsth K) (Eq_ext fadd fmul fopp) (F_R (field_c : FieldTh oK)).
  Lemma ofZ_add a b : @ofZ K oK (a + b) = ofZ a + ofZ b.
  Proof. exact (morph_add zmorph a b). Qed.
  Lemma ofZ_mul a b : @ofZ K oK (a * b) = ofZ a * ofZ b.
  Proof. exact (morph_mul zmorph a b). Qed.
  Lemma ofZ_opp a : @ofZ K oK (- a) = - ofZ a.
  Proof. exact (morph_opp zmorph a). Qed.
  Lemma ofZ_nz z : z <> 0%Z -> @ofZ K oK z <> 0.
  Proof.
    destruct z as [|p|p]; intros H; [congruence|apply char0|].
    change (- @ofZ K oK (Zpos p) <> 0). intros E. apply (char0 p).
    replace (ofZ (Zpos p)) with (- - @ofZ K oK (Zpos p)) by ring. rewrite E. ring.
  Qed.

  Lemma ofQ_Qeq a b : (a == b)%Q -> @ofQ K oK a = ofQ b.
  Proof.
    unfold Qeq, ofQ. intros H. apply (f_equal (@ofZ K oK)) in H. rewrite !ofZ_mul in H.
    transitivity ((ofZ (Qnum a) * ofZ (Zpos (Qden b))) / (ofZ (Zpos (Qden a)) * @ofZ K oK (Zpos (Qden b)))).
    - field. split; apply char0.
    - rewrite H. field. split; apply char0.
  Qed.
  Lemma ofQ_add a b : @ofQ K oK (a + b)%Q = ofQ a + ofQ b.
  Proof.
    unfold ofQ, Qplus. cbn [Qnum Qden]. rewrite Pos2Z.inj_mul, ofZ_add, !ofZ_mul.
    field. split; apply char0.
  Qed.
  Lemma ofQ_mul a b : @ofQ K oK (a * b)%Q = ofQ a * ofQ b.
  Proof.
    unfold ofQ, Qmult. cbn [Qnum Qden]. rewrite Pos2Z.inj_mul, !ofZ_mul.
    field. split; apply char0.
  Qed.
  Lemma ofQ_opp a : @ofQ K oK (- a)%Q = - ofQ a.
  Proof. unfold ofQ, Qopp. cbn [Qnum Qden]. rewrite ofZ_opp. field. apply char0. Qed.
  Lemma ofQ_red a : @ofQ K oK (Qred a) = ofQ a.
  Proof. apply ofQ_Qeq, Qred_correct. Qed.
  Lemma ofQ_0 : @ofQ K oK 0 = 0.
  Proof. unfold ofQ, ofZ. cbn. field. apply f1_nz. Qed.
  Lemma ofQ_1 : @ofQ K oK 1 = 1.
  Proof. unfold ofQ, ofZ. cbn. field. apply f1_nz. Qed.
  Lemma ofQ_2 : @ofQ K oK 2 = 1 + 1.
  Proof. unfold ofQ, ofZ. cbn. field. apply f1_nz. Qed.
  Lemma ofQ_zero a : Qeq_bool a 0 = true -> @ofQ K oK a = 0.
  Proof. intros H. apply Qeq_bool_eq in H. rewrite (ofQ_Qeq _ _ H). apply ofQ_0. Qed.
  Lemma ofQ_nz a : Qeq_bool a 0 = false -> @ofQ K oK a <> 0.
  Proof.
    intros H E. apply Qeq_bool_neq in H. apply H. unfold Qeq. cbn.
    destruct (Z.eq_dec (Qnum a) 0) as [Z0|NZ]; [rewrite Z0; reflexivity|exfalso].
    apply (ofZ_nz _ NZ). unfold ofQ in E.
    replace (ofZ (Qnum a)) with ((ofZ (Qnum a) / @ofZ K oK (Zpos (Qden a))) * ofZ (Zpos (Qden a)))
      by (field; apply char0).
    rewrite E. ring.
  Qed.
  Lemma ofQ_half : @ofQ K oK (1 # 2) = finv (1 + 1).
  Proof.
    assert (H2 : (1 + 1 : K) <> 0) by exact (char0 2).
    unfold ofQ, ofZ. cbn. field. exact H2.
  Qed.

  Variable rho : nat -> K.
  Notation pv := (pev rho).
  Notation mv := (mev rho).

  Lemma mcmp_eq : forall a b, mcmp a b = Eq -> a = b.
  Proof.
    induction a as [|x a IH]; intros [|y b]; cbn [mcmp]; try discriminate; [reflexivity|].
    destruct (Nat.compare x y) eqn:E; try discriminate.
    apply Nat.compare_eq in E. intros H. subst. f_equal. now apply IH.
  Qed.
  Lemma fpow_add x a b : fpow x (a + b) = fpow x a * fpow x b.
  Proof. induction a as [|a IH]; cbn [fpow Nat.add]; [ring|]. rewrite IH. ring. Qed.
  Lemma mev_mmul : forall a b i, mv i (mmul a b) = mv i a * mv i b.
  Proof.
    induction a as [|x a IH]; intros [|y b] i; cbn [mmul mev]; try ring.
    rewrite IH, fpow_add. ring.
  Qed.
  Lemma mev_zeros : forall m i, forallb (Nat.eqb 0) m = true -> mv i m = 1.
  Proof.
    induction m as [|e m IH]; intros i H; [reflexivity|]. cbn [forallb] in H.
    apply andb_prop in H. destruct H as [H1 H2]. apply Nat.eqb_eq in H1. subst e.
    cbn [mev fpow]. rewrite IH by assumption. ring.
  Qed.

  Lemma padd_cons_cons m c a' n d b' :
    padd ((m, c) :: a') ((n, d) :: b') =
    match mcmp m n with
    | Lt => (m, c) :: padd a' ((n, d) :: b')
    | Eq => let s := Qred (c + d) in if Qeq_bool s 0 then padd a' b' else (m, s) :: padd a' b'
    | Gt => (n, d) :: padd ((m, c) :: a') b'
    end.
  Proof. reflexivity. Qed.
  Lemma padd_nil_r a : padd a [] = a.
  Proof. destruct a as [|[m c] a]; reflexivity. Qed.

  Lemma pev_padd : forall a b, pv (padd a b) = pv a + pv b.
  Proof.
    induction a as [|[m c] a IHa]; intros b; [cbn; ring|].
    induction b as [|[n d] b IHb]; [rewrite padd_nil_r; cbn [pev]; ring|].
    rewrite padd_cons_cons. destruct (mcmp m n) eqn:E.
    - apply mcmp_eq in E. subst n. cbv zeta.
      assert (S : @ofQ K oK (Qred (c + d)) = ofQ c + ofQ d) by (now rewrite ofQ_red, ofQ_add).
      destruct (Qeq_bool (Qred (c + d)) 0) eqn:Z.
      + rewrite IHa. cbn [pev]. unfold tev. cbn [fst snd].
        apply ofQ_zero in Z. rewrite S in Z.
        replace (ofQ c * mv 0%nat m + pv a + (ofQ d * mv 0%nat m + pv b))
          with ((ofQ c + ofQ d) * mv 0%nat m + (pv a + pv b)) by ring.
        rewrite Z. ring.
      + cbn [pev]. rewrite IHa. unfold tev. cbn [fst snd]. rewrite S. ring.
    - cbn [pev]. rewrite IHa. cbn [pev]. ring.
    - cbn [pev]. rewrite IHb. cbn [pev]. ring.
  Qed.
  Lemma pev_pscale m c b : pv (pscale m c b) = ofQ c * mv 0%nat m * pv b.
  Proof.
    induction b as [|[n d] b IH]; cbn [pscale map pev]; [ring|].
    fold (pscale m c b). rewrite IH. unfold tev. cbn [fst snd].
    rewrite ofQ_red, ofQ_mul, mev_mmul. ring.
  Qed.
  Lemma pev_pmul a b : pv (pmul a b) = pv a * pv b.
  Proof.
    induction a as [|[m c] a IH]; cbn [pmul fold_right pev]; [ring|].
    fold (pmul a b). rewrite pev_padd, pev_pscale, IH. unfold tev. cbn [fst snd]. ring.
  Qed.
  Lemma pev_popp a : pv (popp a) = - pv a.
  Proof.
    induction a as [|[m c] a IH]; cbn [popp map pev]; [ring|].
    fold (popp a). rewrite IH. unfold tev. cbn [fst snd]. rewrite ofQ_opp. ring.
  Qed.
  Lemma pev_psub a b : pv (psub a b) = pv a - pv b.
  Proof. unfold psub. rewrite pev_padd, pev_popp. ring. Qed.
  Lemma pev_pconst q : pv (pconst q) = ofQ q.
  Proof.
    unfold pconst. destruct (Qeq_bool q 0) eqn:Z.
    - cbn [pev]. symmetry. now apply ofQ_zero.
    - cbn [pev]. unfold tev. cbn [fst snd]. rewrite ofQ_red, mev_zeros by reflexivity. ring.
  Qed.
  Lemma pev_pconst1 : pv (pconst 1) = 1.
  Proof. rewrite pev_pconst. apply ofQ_1. Qed.
  Lemma pev_pvar i : (i < nv)%nat -> pv (pvar i) = rho i.
  Proof.
    intros H. unfold nv in H.
    do 12 (destruct i as [|i]; [cbn -[ofQ]; unfold tev; cbn -[ofQ]; rewrite ofQ_1; ring|]). lia.
  Qed.
  Lemma pzerob_sound p : pzerob p = true -> pv p = 0.
  Proof.
    induction p as [|[m c] p IH]; cbn [pzerob forallb pev]; [reflexivity|]. intros H.
    apply andb_prop in H. destruct H as [H1 H2]. cbn [snd] in H1.
    fold (pzerob p) in H2. rewrite (IH H2). unfold tev. cbn [fst snd]. rewrite (ofQ_zero _ H1). ring.
  Qed.
  Lemma pconst_val_sound p c : pconst_val p = Some c -> pv p = ofQ c.
  Proof.
    destruct p as [|[m d] [|t p]]; cbn [pconst_val]; try discriminate.
    - intros H. injection H as <-. cbn. symmetry. apply ofQ_0.
    - destruct (forallb (Nat.eqb 0) m) eqn:E; [|discriminate]. intros H. injection H as <-.
      cbn [pev]. unfold tev. cbn [fst snd]. rewrite (mev_zeros _ _ E). ring.
  Qed.

  (** at a rational point the value is the image of the value computed in Q *)
  Lemma fpow_ofQ x n : fpow (@ofQ K oK x) n = ofQ (qpow x n).
  Proof. induction n as [|n IH]; cbn [fpow qpow]; [symmetry; apply ofQ_1|]. now rewrite IH, ofQ_mul. Qed.
  Lemma mev_at q : (forall i, rho i = ofQ (q i)) -> forall m i, mv i m = ofQ (mat q i m).
  Proof.
    intros Hq. induction m as [|e m IH]; intros i; cbn [mev mat]; [symmetry; apply ofQ_1|].
    now rewrite Hq, fpow_ofQ, IH, ofQ_mul.
  Qed.
  Lemma pev_at q : (forall i, rho i = ofQ (q i)) -> forall p, pv p = ofQ (pat q p).
  Proof.
    intros Hq. induction p as [|t p IH]; cbn [pev pat]; [symmetry; apply ofQ_0|].
    unfold tev. now rewrite (mev_at q Hq), IH, ofQ_add, ofQ_mul.
  Qed.

  Notation PV := (map pv).
  Lemma tcoef_PV s k : tcoef (PV s) k = pv (pcoef s k).
  Proof. unfold tcoef, pcoef. exact (map_nth pv s [] k). Qed.
  Lemma defect_eq a b k : tcoef (PV a) k = tcoef (PV b) k + pv (defect a b k).
  Proof. rewrite !tcoef_PV. unfold defect. rewrite pev_psub. ring. Qed.
  Lemma agree_sound p a b : agree_upto p a b = true ->
    forall k, (k <= p)%nat -> tcoef (PV a) k = tcoef (PV b) k.
  Proof.
    unfold agree_upto. rewrite forallb_forall. intros H k Hk.
    rewrite (defect_eq a b k), (pzerob_sound _ (H k ltac:(apply in_seq; lia))). ring.
  Qed.
  Lemma differ_sound q a b k : (forall i, rho i = ofQ (q i)) ->
    Qeq_bool (pat q (defect a b k)) 0 = false -> tcoef (PV a) k <> tcoef (PV b) k.
  Proof.
    intros Hq H E. rewrite (defect_eq a b k), (pev_at q Hq) in E. apply (ofQ_nz _ H).
    set (d := @ofQ K oK (pat q (defect a b k))) in *.
    replace d with (tcoef (PV b) k + d - tcoef (PV b) k) by ring. rewrite E. ring.
  Qed.

  Local Existing Instance POps.
  (** the step functions at K-series are the images of the step functions at poly-series *)
  Let oA := TpsOps (oB := POps) pconst NN.
  Let oB' := TpsOps (oB := oK) (@ofQ K oK) NN.
  Let vA := TpsV (oB := POps) NN.
  Let vB := TpsV (oB := oK) NN.

  Ltac side := first [ reflexivity | exact pev_padd | exact pev_pmul | exact pev_popp | exact pev_pconst
                     | exact pev_pconst1 ].
  Lemma PV_tadd a b : PV (tadd a b) = tadd (PV a) (PV b).
  Proof. apply Phi_tadd; side. Qed.
  Lemma PV_tmul a b : PV (tmul NN a b) = tmul NN (PV a) (PV b).
  Proof. apply Phi_tmul; side. Qed.
  Lemma PV_tsub a b : PV (tsub a b) = tsub (PV a) (PV b).
  Proof. apply Phi_tsub; side. Qed.
  Lemma PV_half : PV (@half _ oA) = @half _ oB'.
  Proof.
    change (PV (tmul NN [pconst 1] [pinv (padd (pconst 1) (pconst 1))]) = tmul NN [1] [finv (1 + 1)]).
    rewrite PV_tmul. cbn [map]. rewrite pev_pconst1.
    replace (pinv (padd (pconst 1) (pconst 1))) with (pconst (1 # 2)) by (vm_compute; reflexivity).
    now rewrite pev_pconst, ofQ_half.
  Qed.
  Lemma PV_one : PV (@f1 _ oA) = @f1 _ oB'.
  Proof. change (PV [pconst 1] = [1]). cbn [map]. now rewrite pev_pconst1. Qed.
  Lemma PV_tq q : PV (tq pconst q) = tq (@ofQ K oK) q.
  Proof. apply Phi_tq; side. Qed.
  Lemma PV_tqs l : map (tq (@ofQ K oK)) l = map PV (map (tq pconst) l).
  Proof. rewrite map_map. apply map_ext. intros q. symmetry. apply PV_tq. Qed.
  Lemma PV_tqss l : map (map (tq (@ofQ K oK))) l = map (map PV) (map (map (tq pconst)) l).
  Proof. rewrite map_map. apply map_ext. intros r. apply PV_tqs. Qed.
  Lemma PV_hh : PV (@hh _ POps) = @hh _ oK.
  Proof. apply Phi_hh; side. Qed.
  Lemma PV_tderiv a : PV (tderiv pconst a) = tderiv (@ofQ K oK) (PV a).
  Proof. apply Phi_tderiv; side. Qed.

  (** The inputs of the scalar problem are the values [cs], [u0], [g] of reified inputs;
      the lemmas used by the theorems speak of a triple (c, u, g') that equals them, so
      that a theorem about variables or constants of K passes that one equation. *)
  Section Inputs.
    Variables (csP : list poly) (u0P gP : poly).
    Let cs := PV csP.
    Let u0 := pv u0P.
    Let g := pv gP.
    Let FA := Fser NN csP u0P.
    Let GA := Gser NN gP.
    Let GiA := Ginvser NN gP.
    Let FB := Fser NN cs u0.
    Let GB := Gser NN g.
    Let GiB := Ginvser NN g.
    Lemma HF x : PV (FA x) = FB (PV x).
    Proof. apply Phi_Fser; side. Qed.
    Lemma HG x : PV (GA x) = GB (PV x).
    Proof. apply Phi_Gser; side. Qed.
    Lemma HGi x e : PV (GiA x e) = GiB (PV x) (PV e).
    Proof. apply Phi_Ginvser; side. Qed.
    Ltac side2 := first [ reflexivity | exact PV_tadd | exact PV_tmul | exact PV_tsub | exact PV_half
                        | exact HF | exact HG | exact HGi | exact PV_one ].
    Notation EP := (XP csP u0P gP).
    Notation ins c u g' := ((cs, u0, g) = (c, u, g')).

    Lemma T_exact : exact_flow (@ofQ K oK) NN cs u0 g = PV EP.
    Proof. symmetry. apply Phi_exact_flow; side. Qed.
    Lemma T_exact_back : exact_flow_back (@ofQ K oK) NN cs u0 g = PV (exact_flow_back pconst NN csP u0P gP).
    Proof. symmetry. apply Phi_exact_flow_back; side. Qed.
    Lemma T_euler c u g' : ins c u g' -> run_euler NN c u g' = PV (run_euler NN csP u0P gP).
    Proof.
      intros E; injection E as <- <- <-.
      unfold run_euler. symmetry. rewrite <- PV_hh. change [u0] with (PV [u0P]).
      apply (euler_hom (voA := vA) (voB := vB)); side2.
    Qed.
    Lemma T_rk2 c u g' : ins c u g' -> run_rk2 (@ofQ K oK) NN c u g' = PV (run_rk2 pconst NN csP u0P gP).
    Proof.
      intros E; injection E as <- <- <-.
      unfold run_rk2. symmetry. rewrite <- PV_hh. change [u0] with (PV [u0P]).
      apply (rk2_hom (oFA := oA) (voA := vA) (oFB := oB') (voB := vB)); side2.
    Qed.
    Lemma T_ls al be ga c u g' : ins c u g' ->
      run_ls (@ofQ K oK) NN c u g' al be ga = PV (run_ls pconst NN csP u0P gP al be ga).
    Proof.
      intros E; injection E as <- <- <-.
      unfold run_ls. symmetry. rewrite <- PV_hh, !PV_tqs. change [u0] with (PV [u0P]).
      apply (ls_step_hom (oFA := oA) (voA := vA) (oFB := oB') (voB := vB)); side2.
    Qed.
    (* with [rk4P] in the statement: a theorem then meets the closed run of
       [rk4_defects_general] literally; were one of them unfolded, the kernel would
       compare the two runs by evaluating both *)
    Lemma T_rk4 c u g' : ins c u g' ->
      run_ls (@ofQ K oK) NN c u g' rk4_alphas rk4_betas rk4_gammas = PV (rk4P csP u0P gP).
    Proof. apply T_ls. Qed.
    Lemma T_ark a_ex a_im b_ex b_im :
      run_ark (@ofQ K oK) NN cs u0 g a_ex a_im b_ex b_im = PV (run_ark pconst NN csP u0P gP a_ex a_im b_ex b_im).
    Proof.
      unfold run_ark. symmetry. rewrite <- PV_hh, !PV_tqs, !PV_tqss. change [u0] with (PV [u0P]).
      apply (ark_step_hom (oFA := oA) (voA := vA) (oFB := oB') (voB := vB)); side2.
    Qed.
    Lemma T_imex a_ex a_im b_ex b_im c u g' : ins c u g' ->
      is_some_tps (run_imex pconst NN csP u0P gP a_ex a_im b_ex b_im) = true ->
      run_imex (@ofQ K oK) NN c u g' a_ex a_im b_ex b_im =
      Some (PV (some_tps (run_imex pconst NN csP u0P gP a_ex a_im b_ex b_im))).
    Proof.
      intros E; injection E as <- <- <-. unfold run_imex.
      rewrite (imex_is_ark (o := oB') (vo := vB) (tps_nz_false _ NN) tps_add_0_r (tps_mul_0_l NN)).
      rewrite (imex_is_ark (o := oA) (vo := vA) (tps_nz_false _ NN) tps_add_0_r (tps_mul_0_l NN)).
      intros _. cbn [some_tps]. f_equal. apply T_ark.
    Qed.
    Lemma T_leapfrog alpha c u g' : ins c u g' ->
      run_leapfrog (@ofQ K oK) NN c u g' alpha = PV (run_leapfrog pconst NN csP u0P gP alpha).
    Proof.
      intros E; injection E as <- <- <-.
      unfold run_leapfrog. symmetry. rewrite <- PV_hh, <- PV_tq, T_exact_back. change [u0] with (PV [u0P]).
      apply (leapfrog_hom (oFA := oA) (voA := vA) (oFB := oB') (voB := vB)); side2.
    Qed.

    (** a series [sK] that is the image of [a], against the exact flow: the h^k
        coefficients differ by the value of the defect polynomial; they agree where it
        is the zero polynomial, and differ where it does not vanish at a rational point *)
    Lemma order_near sK a c u g' : sK = PV a -> ins c u g' ->
      forall k, tcoef sK k = tcoef (exact_flow (@ofQ K oK) NN c u g') k + pv (defect a EP k).
    Proof. intros -> E k. injection E as <- <- <-. rewrite T_exact. apply defect_eq. Qed.
    Lemma order_ok sK a c u g' p : sK = PV a -> ins c u g' -> agree_upto p a EP = true ->
      forall k, (k <= p)%nat -> tcoef sK k = tcoef (exact_flow (@ofQ K oK) NN c u g') k.
    Proof. intros -> E. injection E as <- <- <-. rewrite T_exact. apply agree_sound. Qed.
    Lemma order_ne sK a c u g' q k : sK = PV a -> ins c u g' -> (forall i, rho i = ofQ (q i)) ->
      Qeq_bool (pat q (defect a EP k)) 0 = false ->
      tcoef sK k <> tcoef (exact_flow (@ofQ K oK) NN c u g') k.
    Proof. intros -> E. injection E as <- <- <-. rewrite T_exact. apply differ_sound. Qed.

    (** the comparison series IS the Taylor series of the exact solution: it starts at
        u0 and satisfies  d/dh E = F(E) + g E  modulo h^(N-1)  (all N-1 equations that
        involve only the N retained coefficients) *)
    Lemma exact_flow_ode c u g' : ins c u g' -> pcoef EP 0 = u0P ->
      agree_upto 3 (tderiv pconst EP) (tadd (FA EP) (GA EP)) = true ->
      let E := exact_flow (@ofQ K oK) NN c u g' in
      tcoef E 0 = u /\
      forall k, (k <= 3)%nat -> tcoef (tderiv (@ofQ K oK) E) k = tcoef (tadd (Fser NN c u E) (Gser NN g' E)) k.
    Proof.
      intros E H0 H. injection E as <- <- <-. cbv zeta. rewrite T_exact. split.
      - now rewrite tcoef_PV, H0.
      - rewrite <- HF, <- HG, <- PV_tadd, <- PV_tderiv. now apply agree_sound.
    Qed.
  End Inputs.
End PolyEval.
Arguments T_euler {K oK Kc} char0 {rho csP u0P gP c u g'} _.
Arguments T_rk2 {K oK Kc} char0 {rho csP u0P gP c u g'} _.
Arguments T_ls {K oK Kc} char0 {rho csP u0P gP al be ga c u g'} _.
Arguments T_rk4 {K oK Kc} char0 {rho csP u0P gP c u g'} _.
Arguments T_imex {K oK Kc} char0 {rho csP u0P gP a_ex a_im b_ex b_im c u g'} _ _.
Arguments T_leapfrog {K oK Kc} char0 {rho csP u0P gP alpha c u g'} _.
Arguments exact_flow_ode {K oK Kc} char0 {rho csP u0P gP c u g'} _ _ _.
Arguments order_near {K oK Kc} char0 {rho csP u0P gP sK a c u g'} _ _ k.
Arguments order_ok {K oK Kc} char0 {rho csP u0P gP sK a c u g' p} _ _ _ k _.
Arguments order_ne {K oK Kc} char0 {rho csP u0P gP sK a c u g' q k} _ _ _ _.

(** RK4 (13-digit decimals), general g: every coefficient of the defect polynomials of
    h^0..h^2 is <= 1e-13, some coefficient of the h^3 defect exceeds 1e-5 and the h^3
    defect does not vanish at the witness point;
    g = 0: every coefficient of the defects of h^0..h^4 is <= 1e-13. *)
Lemma rk4_defects_general :
  let a := rk4P csV p0 p1 in let b := XP csV p0 p1 in
  near_upto eps13 2 a b = true /\ near_upto (1 # 100000) 3 a b = false /\
  Qeq_bool (pat (qW 1) (defect a b 3)) 0 = false.
Proof.
  (* one boolean taken apart afterwards, for the reason given at [order_cn_rk4] in
     Thm/Integrators.v: the run [rk4P csV p0 p1] is then evaluated once *)
  assert (H : (let a := rk4P csV p0 p1 in let b := XP csV p0 p1 in
               near_upto eps13 2 a b && negb (near_upto (1 # 100000) 3 a b) &&
               negb (Qeq_bool (pat (qW 1) (defect a b 3)) 0)) = true) by (vm_compute; reflexivity).
  cbv zeta in *. apply andb_prop in H. destruct H as [H E3]. apply andb_prop in H. destruct H as [E1 E2].
  apply negb_true_iff in E2, E3. exact (conj E1 (conj E2 E3)).
Qed.
Lemma rk4_defects_G0 : near_upto eps13 4 (rk4P csV p0 []) (XP csV p0 []) = true.
Proof. vm_compute. reflexivity. Qed.

(** the theorems: every field of characteristic 0, all u0, g, c0..c4 *)
Section Main.
  Context {K : Type} {oK : Ops K} {Kc : FieldC oK}.
  Hypothesis char0 : forall p : positive, @ofZ K oK (Zpos p) <> 0.
  Notation EX := (exact_flow (@ofQ K oK) NN).
  Notation W := [1; 1 + 1; 1; 1; 1].
  Local Existing Instance POps.

  (** the three kinds of inputs: everything symbolic; g = 0; g = 0 and F linear *)
  Section Point.
    Variables u0 g c0 c1 c2 c3 c4 : K.
    Let rho := rho7 u0 g c0 c1 c2 c3 c4.
    Notation pv := (pev rho).
    Lemma in_gen : (map pv csV, pv p0, pv p1) = ([c0; c1; c2; c3; c4], u0, g).
    Proof. unfold csV, p0, p1. cbn [map]. now rewrite !(pev_pvar rho) by (unfold nv; lia). Qed.
    Lemma in_G0 : (map pv csV, pv p0, pv []) = ([c0; c1; c2; c3; c4], u0, 0).
    Proof. unfold csV, p0. cbn [map]. now rewrite !(pev_pvar rho) by (unfold nv; lia). Qed.
    Lemma in_lin : (map pv csLin, pv p0, pv []) = ([c0; c1; 0; 0; 0], u0, 0).
    Proof. unfold csLin, p0. cbn [map]. now rewrite !(pev_pvar rho) by (unfold nv; lia). Qed.
  End Point.
  Lemma at_W (gq : Q) (gK : K) : ofQ gq = gK -> forall i, rho7 1 gK 1 (1 + 1) 1 1 1 i = ofQ (qW gq i).
  Proof.
    intros <- i. unfold rho7, qW. rewrite <- (map_nth ofQ), ofQ_0. cbn [map]. now rewrite ofQ_1, ofQ_2.
  Qed.

  Variables u0 g c0 c1 c2 c3 c4 : K.
  Notation cs := [c0; c1; c2; c3; c4].
  Let Ig := in_gen u0 g c0 c1 c2 c3 c4.
  Let I0 := in_G0 u0 g c0 c1 c2 c3 c4.
  Let W1 := in_gen 1 1 1 (1 + 1) 1 1 1.
  Let W0 := in_G0 1 0 1 (1 + 1) 1 1 1.
  Let W11 := at_W 1 1 ofQ_1.
  Let W10 := at_W 0 0 ofQ_0.

  Theorem exact_flow_solves_ode :
    let E := EX cs u0 g in
    tcoef E 0 = u0 /\
    forall k, (k <= 3)%nat ->
      tcoef (tderiv (@ofQ K oK) E) k = tcoef (tadd (Fser NN cs u0 E) (Gser NN g E)) k.
  Proof. apply (exact_flow_ode char0 Ig); vm_compute; reflexivity. Qed.

  Theorem euler_order1 : forall k, (k <= 1)%nat ->
    tcoef (run_euler NN cs u0 g) k = tcoef (EX cs u0 g) k.
  Proof. apply (order_ok char0 (T_euler char0 Ig) Ig). vm_compute. reflexivity. Qed.
  Theorem euler_not_order2 : tcoef (run_euler NN W 1 1) 2 <> tcoef (EX W 1 1) 2.
  Proof. apply (order_ne char0 (T_euler char0 W1) W1 W11). vm_compute. reflexivity. Qed.

  Theorem rk2_order2 : forall k, (k <= 2)%nat ->
    tcoef (run_rk2 (@ofQ K oK) NN cs u0 g) k = tcoef (EX cs u0 g) k.
  Proof. apply (order_ok char0 (T_rk2 char0 Ig) Ig). vm_compute. reflexivity. Qed.
  Theorem rk2_not_order3 : tcoef (run_rk2 (@ofQ K oK) NN W 1 1) 3 <> tcoef (EX W 1 1) 3.
  Proof. apply (order_ne char0 (T_rk2 char0 W1) W1 W11). vm_compute. reflexivity. Qed.

  (** ** Williamson RK3 + Crank-Nicolson: order 2 for every g, not 3 in general;
      with g = 0 order 3, not 4 *)
  Notation RK3 c u g' := (run_ls (@ofQ K oK) NN c u g' rk3_alphas rk3_betas rk3_gammas).
  Theorem rk3_order2 : forall k, (k <= 2)%nat -> tcoef (RK3 cs u0 g) k = tcoef (EX cs u0 g) k.
  Proof. apply (order_ok char0 (T_ls char0 Ig) Ig). vm_compute. reflexivity. Qed.
  Theorem rk3_not_order3_general : tcoef (RK3 W 1 1) 3 <> tcoef (EX W 1 1) 3.
  Proof. apply (order_ne char0 (T_ls char0 W1) W1 W11). vm_compute. reflexivity. Qed.
  Theorem rk3_order3_G0 : forall k, (k <= 3)%nat -> tcoef (RK3 cs u0 0) k = tcoef (EX cs u0 0) k.
  Proof. apply (order_ok char0 (T_ls char0 I0) I0). vm_compute. reflexivity. Qed.
  Theorem rk3_not_order4_G0 : tcoef (RK3 W 1 0) 4 <> tcoef (EX W 1 0) 4.
  Proof. apply (order_ne char0 (T_ls char0 W0) W0 W10). vm_compute. reflexivity. Qed.

  (** ** Carpenter-Kennedy RK4 + Crank-Nicolson (13-digit decimals): the h^k coefficient
      of the step equals the exact one plus the value of the defect polynomial
      [defect (rk4P ..) (XP ..) k] in (u0, g, c0..c4), all of whose coefficients are
      <= 1e-13 in absolute value for k <= 2 (general g) resp. k <= 4 (g = 0)
      ([rk4_defects_general], [rk4_defects_G0]); the h^3 coefficients differ for g <> 0 *)
  Notation RK4 c u g' := (run_ls (@ofQ K oK) NN c u g' rk4_alphas rk4_betas rk4_gammas).
  Theorem rk4_order2_near : forall k,
    tcoef (RK4 cs u0 g) k =
    tcoef (EX cs u0 g) k + pev (rho7 u0 g c0 c1 c2 c3 c4) (defect (rk4P csV p0 p1) (XP csV p0 p1) k).
  Proof. exact (order_near char0 (T_rk4 char0 Ig) Ig). Qed.
  Theorem rk4_not_order3_general : tcoef (RK4 W 1 1) 3 <> tcoef (EX W 1 1) 3.
  Proof. exact (order_ne char0 (T_rk4 char0 W1) W1 W11 (proj2 (proj2 rk4_defects_general))). Qed.
  Theorem rk4_order4_G0_near : forall k,
    tcoef (RK4 cs u0 0) k =
    tcoef (EX cs u0 0) k + pev (rho7 u0 g c0 c1 c2 c3 c4) (defect (rk4P csV p0 []) (XP csV p0 []) k).
  Proof. exact (order_near char0 (T_rk4 char0 I0) I0). Qed.

  (** ** SIL3 through the zero-skipping interpreter [imex_step]: order 2 for every g,
      not 3 in general; g = 0: still only order 2 for nonlinear F (defect c0^2 c2 / 18 at
      h^3: the bushy tree), order 3 for linear F (c2 = c3 = c4 = 0), not 4 *)
  Notation SIL3 c u g' := (run_imex (@ofQ K oK) NN c u g' sil3_a_ex sil3_a_im sil3_b_ex sil3_b_im).
  Theorem sil3_order2 : exists s, SIL3 cs u0 g = Some s /\
    forall k, (k <= 2)%nat -> tcoef s k = tcoef (EX cs u0 g) k.
  Proof.
    eexists. split; [apply (T_imex char0 Ig); vm_compute; reflexivity|].
    apply (order_ok char0 eq_refl Ig). vm_compute. reflexivity.
  Qed.
  Theorem sil3_not_order3_general : exists s, SIL3 W 1 1 = Some s /\ tcoef s 3 <> tcoef (EX W 1 1) 3.
  Proof.
    eexists. split; [apply (T_imex char0 W1); vm_compute; reflexivity|].
    apply (order_ne char0 eq_refl W1 W11). vm_compute. reflexivity.
  Qed.
  Theorem sil3_G0_nonlinear_not_order3 : exists s, SIL3 W 1 0 = Some s /\ tcoef s 3 <> tcoef (EX W 1 0) 3.
  Proof.
    eexists. split; [apply (T_imex char0 W0); vm_compute; reflexivity|].
    apply (order_ne char0 eq_refl W0 W10). vm_compute. reflexivity.
  Qed.
  Theorem sil3_G0_linear_order3 : exists s, SIL3 [c0; c1; 0; 0; 0] u0 0 = Some s /\
    forall k, (k <= 3)%nat -> tcoef s k = tcoef (EX [c0; c1; 0; 0; 0] u0 0) k.
  Proof.
    pose proof (in_lin u0 g c0 c1 c2 c3 c4) as Il.
    eexists. split; [apply (T_imex char0 Il); vm_compute; reflexivity|].
    apply (order_ok char0 eq_refl Il). vm_compute. reflexivity.
  Qed.
  Theorem sil3_G0_linear_not_order4 : exists s, SIL3 [1; 1 + 1; 0; 0; 0] 1 0 = Some s /\
    tcoef s 4 <> tcoef (EX [1; 1 + 1; 0; 0; 0] 1 0) 4.
  Proof.
    pose proof (in_lin 1 0 1 (1 + 1) 1 1 1) as Wl.
    eexists. split; [apply (T_imex char0 Wl); vm_compute; reflexivity|].
    apply (order_ne char0 eq_refl Wl W10). vm_compute. reflexivity.
  Qed.

  (** ** semi-implicit leapfrog, nonlinear F: from the exact snapshots u(-h), u(0) = u0
      the future snapshot agrees with u(h) modulo h^3 for the default alpha = 1/2 read
      from the source (second-order consistent), not modulo h^4; for alpha = 1 only
      modulo h^2 *)
  Notation LF al c u g' := (run_leapfrog (@ofQ K oK) NN c u g' al).
  Theorem leapfrog_order2 : forall k, (k <= 2)%nat ->
    tcoef (LF leapfrog_alpha_default cs u0 g) k = tcoef (EX cs u0 g) k.
  Proof. apply (order_ok char0 (T_leapfrog char0 Ig) Ig). vm_compute. reflexivity. Qed.
  Theorem leapfrog_not_order3 : tcoef (LF leapfrog_alpha_default W 1 1) 3 <> tcoef (EX W 1 1) 3.
  Proof. apply (order_ne char0 (T_leapfrog char0 W1) W1 W11). vm_compute. reflexivity. Qed.
  Theorem leapfrog_alpha1_order1 : forall k, (k <= 1)%nat -> tcoef (LF 1%Q cs u0 g) k = tcoef (EX cs u0 g) k.
  Proof. apply (order_ok char0 (T_leapfrog char0 Ig) Ig). vm_compute. reflexivity. Qed.
  Theorem leapfrog_alpha1_not_order2 : tcoef (LF 1%Q W 1 1) 2 <> tcoef (EX W 1 1) 2.
  Proof. apply (order_ne char0 (T_leapfrog char0 W1) W1 W11). vm_compute. reflexivity. Qed.
End Main.

(** The implicit solve: the geometric series IS the inverse of 1 - eta g in the
    truncated ring.  For every x = x0 + .. + x4 h^4 and every eta = e1 h + .. + e4 h^4
    without constant term (eta = dt * coefficient in every stage), y = Ginvser g x eta
    satisfies  y - eta g y = x  (all N retained coefficients), i.e. the hypothesis
    [Ginv_solves] of C06_lowstorage_is_ark / C06_direct_schemes_are_ark holds for it. *)
Definition xP : list poly := [pvar 0; pvar 1; pvar 2; pvar 3; pvar 4].
Definition etaP : list poly := [[]; pvar 5; pvar 6; pvar 7; pvar 8].
Definition gP9 : poly := pvar 9.
Section GinvSolves.
  Context {K : Type} {oK : Ops K} {Kc : FieldC oK}.
  Hypothesis char0 : forall p : positive, @ofZ K oK (Zpos p) <> 0.
  Variables x0 x1 x2 x3 x4 e1 e2 e3 e4 g : K.
  Let rho := fun i => nth i [x0; x1; x2; x3; x4; e1; e2; e3; e4; g] 0.
  Local Existing Instance POps.
  Theorem Ginvser_solves :
    let x := [x0; x1; x2; x3; x4] in let eta := [0; e1; e2; e3; e4] in
    let y := Ginvser NN g x eta in
    forall k, (k <= 4)%nat -> tcoef (tsub y (tmul NN eta (Gser NN g y))) k = tcoef x k.
  Proof.
    cbv zeta.
    assert (H : forall k, (k <= 4)%nat ->
      tcoef (tsub (Ginvser NN (pev rho gP9) (map (pev rho) xP) (map (pev rho) etaP))
                  (tmul NN (map (pev rho) etaP)
                     (Gser NN (pev rho gP9) (Ginvser NN (pev rho gP9) (map (pev rho) xP) (map (pev rho) etaP))))) k
      = tcoef (map (pev rho) xP) k).
    { rewrite <- (HGi char0 rho), <- (HG char0 rho), <- (PV_tmul char0 rho), <- (PV_tsub char0 rho).
      apply (agree_sound char0 rho). vm_compute. reflexivity. }
    unfold xP, etaP, gP9 in H. cbn [map pev] in H.
    rewrite !(pev_pvar rho) in H by (unfold nv; lia). exact H.
  Qed.
End GinvSolves.
