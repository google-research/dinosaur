(** Discrete orthonormality of the real Fourier basis under the trapezoid rule
    (the Fourier half of C01's orthonormality).
    Stdlib Reals only (Rtrigo1): every column is amplitude * cos (k x - phase); the product-to-sum
    formula for two cosines and the finite geometric sum of cos (k x_i + c) over equispaced nodes,
    proved by telescoping, give all Gram entries. *)
From Coq Require Import Reals Lra Lia.
From Dino Require Import Base.Ops Base.Sums Base.Inst Model.SHT Model.FourierR Thm.SHT.
Local Open Scope R_scope.

Ltac rops := cbn [fadd fmul fsub fdiv fopp finv f0 f1 ROps] in *.

(** [sumn] at the carrier R, with its lemmas restated over Rplus, Rmult: rewriting with the
    generic ones does not find [fadd], [fmul] in a goal written with + and * of R *)
Notation Rsum := (@sumn R ROps).

Lemma Rsum_ext n (f g : nat -> R) : (forall i, (i < n)%nat -> f i = g i) -> Rsum n f = Rsum n g.
Proof. apply sumn_ext. Qed.
Lemma Rsum_scal n c (f : nat -> R) : Rsum n (fun i => c * f i) = c * Rsum n f.
Proof. exact (sumn_scal_l n c f). Qed.
Lemma Rsum_plus n (f g : nat -> R) : Rsum n (fun i => f i + g i) = Rsum n f + Rsum n g.
Proof. exact (sumn_add n f g). Qed.
Lemma Rsum_telescope n (g : nat -> R) : Rsum n (fun i => g (S i) - g i) = g n - g 0%nat.
Proof. exact (sumn_telescope n g). Qed.
Lemma Rsum_const n c : Rsum n (fun _ => c) = INR n * c.
Proof.
  induction n as [|n IH]; [cbn; rops; ring|].
  change (Rsum (S n) (fun _ => c)) with (Rsum n (fun _ => c) + c). rewrite IH, S_INR. ring.
Qed.

Lemma sin_step x h : sin (x + h) - sin (x - h) = 2 * sin h * cos x.
Proof. rewrite sin_plus, sin_minus. ring. Qed.
Lemma cos_cos x y : cos x * cos y = / 2 * (cos (x - y) + cos (x + y)).
Proof. rewrite cos_plus, cos_minus. field. Qed.

Lemma sin_half_step_neq0 k I : (0 < k)%nat -> (k < I)%nat -> sin (PI * INR k / INR I) <> 0.
Proof.
  intros Hk HkI. pose proof PI_RGT_0 as Hpi.
  assert (Hk' : 0 < INR k) by (apply lt_0_INR; lia).
  assert (HkI' : INR k < INR I) by (apply lt_INR; lia).
  apply Rgt_not_eq, sin_gt_0.
  - apply Rdiv_lt_0_compat; [apply Rmult_lt_0_compat|]; lra.
  - apply Rmult_lt_reg_r with (INR I); [lra|]. unfold Rdiv. rewrite Rmult_assoc, Rinv_l by lra. nra.
Qed.

Lemma sum_cos_ap t0 h n :
  Rsum n (fun i => 2 * sin h * cos (t0 + 2 * h * INR i)) = sin (t0 + 2 * h * INR n - h) - sin (t0 - h).
Proof.
  transitivity (sin (t0 + 2 * h * INR n - h) - sin (t0 + 2 * h * INR 0 - h)).
  - rewrite <- (Rsum_telescope n (fun i => sin (t0 + 2 * h * INR i - h))).
    apply Rsum_ext; intros i _. rewrite S_INR, <- sin_step.
    replace (t0 + 2 * h * (INR i + 1) - h) with (t0 + 2 * h * INR i + h) by ring. reflexivity.
  - cbn [INR]. replace (t0 + 2 * h * 0 - h) with (t0 - h) by ring. reflexivity.
Qed.

(** the finite geometric sum over the equispaced longitudes: for every offset, every phase c
    (so that sin (k x) = cos (k x - pi/2) is covered) and every wavenumber k that is not a
    multiple of I (here 0 < k < I) *)
Theorem geom_cos off c k I : (0 < k)%nat -> (k < I)%nat ->
  Rsum I (fun i => cos (INR k * lon_node off I i + c)) = 0.
Proof.
  intros Hk HkI. set (h := PI * INR k / INR I).
  assert (HI : INR I <> 0) by (apply not_0_INR; lia).
  apply Rmult_eq_reg_l with (2 * sin h).
  2:{ apply Rmult_integral_contrapositive_currified; [lra | now apply sin_half_step_neq0]. }
  rewrite Rmult_0_r, <- Rsum_scal.
  rewrite (Rsum_ext I _ (fun i => 2 * sin h * cos (INR k * off + c + 2 * h * INR i))).
  2:{ intros i _. unfold lon_node, h. do 2 f_equal. field. exact HI. }
  rewrite sum_cos_ap.
  replace (INR k * off + c + 2 * h * INR I - h) with (INR k * off + c - h + 2 * INR k * PI) by (unfold h; field; exact HI).
  rewrite sin_period. ring.
Qed.

(** differences of wavenumbers: (k - k') as a real multiplier *)
Lemma geom_cos_diff off c k k' I : (k < I)%nat -> (k' < I)%nat ->
  Rsum I (fun i => cos ((INR k - INR k') * lon_node off I i + c)) = if Nat.eqb k k' then INR I * cos c else 0.
Proof.
  intros Hk Hk'. destruct (Nat.eqb_spec k k') as [->|Hne].
  - rewrite <- Rsum_const. apply Rsum_ext. intros i _. f_equal. ring.
  - destruct (Nat.lt_ge_cases k' k) as [H|H].
    + rewrite <- (geom_cos off c (k - k') I) by lia.
      apply Rsum_ext. intros i _. rewrite minus_INR by lia. reflexivity.
    + rewrite <- (geom_cos off (- c) (k' - k) I) by lia.
      apply Rsum_ext. intros i _. rewrite minus_INR by lia. rewrite <- cos_neg. f_equal. ring.
Qed.

(** sum of the product of two oscillations with wavenumbers k, k' >= 0, k + k' < I, and any phases *)
Lemma sum_osc off I k k' c c' : (k + k' < I)%nat ->
  Rsum I (fun i => cos (INR k * lon_node off I i - c) * cos (INR k' * lon_node off I i - c'))
  = / 2 * ((if Nat.eqb k k' then INR I * cos (c' - c) else 0)
           + (if Nat.eqb (k + k') 0 then INR I * cos (c + c') else 0)).
Proof.
  intros H.
  rewrite (Rsum_ext I _ (fun i => / 2 * (cos ((INR k - INR k') * lon_node off I i + (c' - c))
                                         + cos ((INR (k + k') - INR 0) * lon_node off I i + - (c + c'))))).
  2:{ intros i _. rewrite cos_cos, plus_INR. cbn [INR]. do 2 f_equal; f_equal; ring. }
  rewrite Rsum_scal, Rsum_plus, !geom_cos_diff by lia. rewrite cos_neg. reflexivity.
Qed.

(** columns of the basis: column a is amplitude * cos (|m(a)| x - phase), the phase pi/2 making the sines *)
Lemma col_index a : a = (2 * mabs_real a - Nat.b2n (Nat.odd a))%nat.
Proof.
  unfold mabs_real. generalize (Nat.div2_odd a). generalize (Nat.div2 a). intros d E.
  destruct (Nat.odd a); cbn [Nat.b2n] in *; rewrite E.
  - replace (2 * d + 1 + 1)%nat with (2 * (d + 1))%nat by lia. rewrite div2_double. lia.
  - replace (2 * d + 0 + 1)%nat with (2 * d + 1)%nat by lia. rewrite div2_double1. lia.
Qed.

Lemma mabs_real_even_col a : Nat.odd a = false -> (a / 2 = mabs_real a)%nat.
Proof.
  intros E. pose proof (col_index a) as H. rewrite E in H. rewrite H at 1. cbn [Nat.b2n].
  rewrite Nat.sub_0_r. apply div2_double.
Qed.

Lemma mabs_real_pos a : (1 <= a)%nat -> (1 <= mabs_real a)%nat.
Proof. pose proof (col_index a). lia. Qed.

Definition col_amp (a : nat) : R := if Nat.eqb a 0 then / sqrt (2 * PI) else / sqrt PI.
Definition col_phase (a : nat) : R := match a with O => 0 | S _ => if Nat.odd a then 0 else PI / 2 end.

Lemma real_basis_R_osc off I i a :
  real_basis_R off I i a = col_amp a * cos (INR (mabs_real a) * lon_node off I i - col_phase a).
Proof.
  pose proof PI_RGT_0 as Hpi.
  assert (Hsn : sqrt PI <> 0) by (apply Rgt_not_eq, sqrt_lt_R0; lra).
  unfold real_basis_R, real_basis_g, col_amp, col_phase. rops. destruct a as [|a'].
  - cbn [Nat.eqb]. change (mabs_real 0) with 0%nat. cbn [INR]. rewrite Rmult_0_l, Rminus_0_r, cos_0.
    field. apply Rgt_not_eq, sqrt_lt_R0. lra.
  - cbn [Nat.eqb]. destruct (Nat.odd (S a')) eqn:E.
    + rewrite Rminus_0_r. unfold mabs_real. field. exact Hsn.
    + rewrite (mabs_real_even_col _ E), cos_minus, cos_PI2, sin_PI2. field. exact Hsn.
Qed.

Lemma col_amp_sq a : col_amp a * col_amp a = if Nat.eqb a 0 then / (2 * PI) else / PI.
Proof.
  pose proof PI_RGT_0 as Hpi. unfold col_amp.
  destruct (Nat.eqb a 0); rewrite <- Rinv_mult, sqrt_sqrt by lra; reflexivity.
Qed.

(** two different columns of one wavenumber are the cos and the sin of it *)
Lemma same_wavenumber a b : mabs_real a = mabs_real b -> a = b \/ cos (col_phase b - col_phase a) = 0.
Proof.
  intros E. pose proof (col_index a) as Ha. pose proof (col_index b) as Hb. rewrite E in Ha.
  unfold col_phase.
  destruct a as [|a'], b as [|b']; [now left | | |]; destruct (Nat.odd _), (Nat.odd _); cbn [Nat.b2n] in *;
  try (left; lia); right.
  - rewrite Rminus_0_r. apply cos_PI2.
  - replace (0 - PI / 2) with (- (PI / 2)) by ring. rewrite cos_neg. apply cos_PI2.
Qed.

(** H_fourier_orth for the closed form.
    Exact condition used by the algebra: for the two columns a, b the wavenumber
    sum |m(a)| + |m(b)| is < I (then all sums and non-zero differences k of the
    two wavenumbers satisfy 0 < |k| < I, i.e. are not multiples of I).
    Negative example (aliasing): I = 2, M = 2 (so I < 2M-1 = 3), a = b = 1:
    cos(x_i)^2 = 1 at x = 0, pi, hence (2 pi / 2) * (1 + 1) / pi = 2 <> 1; more
    generally cos(k x)^2 sums to I (not I/2) as soon as 2k = I. *)
Theorem fourier_orth_columns off I a b :
  (0 < I)%nat -> (mabs_real a + mabs_real b < I)%nat ->
  @fmul R ROps (fourier_weight I)
        (Rsum I (fun i => @fmul R ROps (real_basis_R off I i a) (real_basis_R off I i b)))
  = @delta R ROps a b.
Proof.
  intros HI Hsum. unfold delta, fourier_weight. rops.
  pose proof PI_RGT_0 as Hpi.
  assert (HIr : INR I <> 0) by (apply not_0_INR; lia).
  rewrite (Rsum_ext I _ (fun i => col_amp a * col_amp b *
             (cos (INR (mabs_real a) * lon_node off I i - col_phase a)
              * cos (INR (mabs_real b) * lon_node off I i - col_phase b)))).
  2:{ intros i _. rewrite !real_basis_R_osc. ring. }
  rewrite Rsum_scal, sum_osc by assumption.
  destruct (Nat.eqb_spec a b) as [<-|N].
  - rewrite Nat.eqb_refl, col_amp_sq, Rminus_eq_0, cos_0. destruct a as [|a'].
    + cbn. rewrite Rplus_0_r, cos_0. field. split; lra.
    + pose proof (mabs_real_pos (S a')).
      rewrite (proj2 (Nat.eqb_neq (_ + _) 0)) by lia. cbn [Nat.eqb]. field. split; lra.
  - pose proof (col_index a). pose proof (col_index b).
    rewrite (proj2 (Nat.eqb_neq (_ + _) 0)) by lia.
    destruct (Nat.eqb_spec (mabs_real a) (mabs_real b)) as [E|E]; [|ring].
    destruct (same_wavenumber a b E) as [E' | ->]; [contradiction|]. ring.
Qed.

(** the hypothesis of [sht_roundtrip], for the whole reference layout: I >= 2M-1 *)
Theorem fourier_orth_R off M I : (1 <= M)%nat -> (2 * M - 1 <= I)%nat ->
  H_fourier_orth (modal_rows_real M) I (real_basis_R off I) (fourier_weight I).
Proof.
  intros HM HI a b Ha Hb. apply fourier_orth_columns; [lia|].
  pose proof (mabs_real_lt M a Ha). pose proof (mabs_real_lt M b Hb). lia.
Qed.

(** H_f0 for the closed form *)
Lemma real_basis_R_col0 off I i : real_basis_R off I i 0%nat = / sqrt (2 * PI).
Proof. unfold real_basis_R, real_basis_g. rops. field. apply Rgt_not_eq, sqrt_lt_R0. pose proof PI_RGT_0; lra. Qed.

(** the fast layout's Fourier table is the reference one re-indexed (tr_f_in, tr_f_row1 of tables_related) *)
Lemma real_basis_zi_reindex {F} {o : Ops F} (sq2pi sqpi : F) c s i a :
  real_basis_zi_g sq2pi sqpi c s i (match a with O => O | S _ => S a end)
  = real_basis_g sq2pi sqpi c s i a.
Proof.
  destruct a as [|a]; [reflexivity|]. unfold real_basis_zi_g, real_basis_g.
  rewrite Nat.even_succ_succ, <- Nat.odd_succ.
  replace (S a + 1)%nat with (S (S a)) by lia.
  destruct (Nat.odd (S a)) eqn:E; [reflexivity|].
  rewrite (mabs_real_even_col _ E). unfold mabs_real. now replace (S a + 1)%nat with (S (S a)) by lia.
Qed.
