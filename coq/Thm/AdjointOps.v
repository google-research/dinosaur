(** C08, transposes of the concrete linear model operators (all sizes, every
    carrier):

    (a) the spherical-harmonic transforms of Model/SHT.v.  With the Euclidean
        inner products [dot2] on modal (K x L) and nodal (I x J) arrays,
          <synth x, z>            = <x, synthT z>          (synth_adjoint)
          synthT                  = analysis with all quadrature weights 1
          <synth x, z>_w          = <x, analysis z>        (synth_analysis_adjoint)
          <analysis z, y>         = <z, analysisT y>       (analysis_adjoint)
          analysisT y i j         = w j * synth y i j
        where <y, z>_w = sum_ij w_j y_ij z_ij is the quadrature inner product.
        So reverse mode of [to_nodal] is "[to_modal] without the weights", and
        reverse mode of [to_modal] is "weights times [to_nodal]".  No hypothesis
        on the tables f, p, w is needed.
    (b) the spectral derivative operators of Model/Deriv.v: [d_dlon] is
        skew-adjoint (both layouts), [laplacian], [inverse_laplacian], [clip]
        are self-adjoint (diagonal), [D1] / [D2] have explicit tridiagonal
        transposes, and D1^T = -D2 when the recurrence tables satisfy
        a[., l+1] = b[., l] and vanish beyond the truncation. *)
From Dino Require Import Base.Ops Base.Field Base.Sums Model.Dual Model.SHT Thm.SHT Thm.Dual Thm.Adjoint.
From Dino Require Gen.DerivExprs Model.Deriv Thm.Deriv.
Local Open Scope F_scope.

Section Defs.
  Context {F : Type} {o : Ops F}.
  (** Euclidean inner product of two 2-D arrays of shape (n, m) *)
  Definition dot2 (n m : nat) (x y : nat -> nat -> F) : F :=
    sumn n (fun i => sumn m (fun j => x i j * y i j)).
  (** nodal inner product weighted by the latitude quadrature weights *)
  Definition dot2w (I J : nat) (w : nat -> F) (y z : nat -> nat -> F) : F :=
    sumn I (fun i => sumn J (fun j => w j * (y i j * z i j))).
  Definition synthT (I J : nat) (f : nat -> nat -> F) (p : nat -> nat -> nat -> F)
             (z : nat -> nat -> F) : nat -> nat -> F :=
    fun a l => sumn I (fun i => sumn J (fun j => (f i a * p a j l) * z i j)).
  Definition analysisT (K L : nat) (f : nat -> nat -> F) (p : nat -> nat -> nat -> F)
             (w : nat -> F) (y : nat -> nat -> F) : nat -> nat -> F :=
    fun i j => w j * sumn K (fun a => sumn L (fun l => (f i a * p a j l) * y a l)).
End Defs.

Section SHTAdjoint.
  Context {F : Type} {o : Ops F} {Fc : FieldC o}.
  Add Field FFao : (field_c : FieldTh o).

  Lemma dot2_ext n m (x x' y y' : nat -> nat -> F) :
    (forall i j, (i < n)%nat -> (j < m)%nat -> x i j = x' i j) ->
    (forall i j, (i < n)%nat -> (j < m)%nat -> y i j = y' i j) -> dot2 n m x y = dot2 n m x' y'.
  Proof. intros Hx Hy. apply sumn_ext; intros i Hi. apply sumn_ext; intros j Hj. now rewrite Hx, Hy. Qed.
  Lemma dot2_comm n m (x y : nat -> nat -> F) : dot2 n m x y = dot2 n m y x.
  Proof. apply sumn_ext; intros i _. apply sumn_ext; intros j _. ring. Qed.
  Lemma dot2w_1 n m (y z : nat -> nat -> F) : dot2w n m (fun _ => 1) y z = dot2 n m y z.
  Proof. apply sumn_ext; intros i _. apply sumn_ext; intros j _. ring. Qed.
  Lemma dot2w_shift n m w (y z : nat -> nat -> F) : dot2w n m w y z = dot2 n m z (fun i j => w j * y i j).
  Proof. apply sumn_ext; intros i _. apply sumn_ext; intros j _. ring. Qed.

  Section Tables.
    Variables (K L I J : nat).
    Variable f : nat -> nat -> F.
    Variable p : nat -> nat -> nat -> F.

    (** both sides are the same four-fold sum, summed in the two orders *)
    Theorem synth_analysis_adjoint (w : nat -> F) x z :
      dot2w I J w (synth K L J f p x) z = dot2 K L x (analysis K I J f p w z).
    Proof.
      unfold dot2w, dot2.
      transitivity (sumn I (fun i => sumn J (fun j => sumn K (fun a => sumn L (fun l =>
                      x a l * ((w j * (f i a * p a j l)) * z i j)))))).
      { apply sumn_ext; intros i Hi. apply sumn_ext; intros j Hj.
        rewrite synth_eq by assumption. unfold sum2, ylm. rewrite <- sumn_scal_r, <- sumn_scal_l.
        apply sumn_ext; intros a Ha. rewrite <- sumn_scal_r, <- sumn_scal_l.
        apply sumn_ext; intros l Hl. ring. }
      rewrite sumn4_exchange.
      apply sumn_ext; intros a Ha. apply sumn_ext; intros l Hl.
      rewrite analysis_eq by assumption. unfold sum2, ylm.
      rewrite <- sumn_scal_l. apply sumn_ext; intros i Hi.
      rewrite <- sumn_scal_l. reflexivity.
    Qed.

    Theorem synthT_is_unweighted_analysis z a l : (a < K)%nat ->
      synthT I J f p z a l = analysis K I J f p (fun _ => 1) z a l.
    Proof.
      intros Ha. rewrite analysis_eq by assumption. unfold synthT, sum2, ylm.
      apply sumn_ext; intros i _. apply sumn_ext; intros j _. ring.
    Qed.

    Theorem analysisT_is_weighted_synth (w : nat -> F) y i j : (j < J)%nat ->
      analysisT K L f p w y i j = w j * synth K L J f p y i j.
    Proof. intros Hj. unfold analysisT. now rewrite synth_eq. Qed.

    (** hence the vjp of [to_nodal] ... *)
    Theorem synth_adjoint x z :
      dot2 I J (synth K L J f p x) z = dot2 K L x (synthT I J f p z).
    Proof.
      rewrite <- dot2w_1, synth_analysis_adjoint. apply dot2_ext; [reflexivity|].
      intros a l Ha _. symmetry. now apply synthT_is_unweighted_analysis.
    Qed.

    (** ... and of [to_modal] *)
    Theorem analysis_adjoint (w : nat -> F) z y :
      dot2 K L (analysis K I J f p w z) y = dot2 I J z (analysisT K L f p w y).
    Proof.
      rewrite dot2_comm, <- synth_analysis_adjoint, dot2w_shift. apply dot2_ext; [reflexivity|].
      intros i j _ Hj. symmetry. now apply analysisT_is_weighted_synth.
    Qed.

    Theorem synth_jvp_is_self (x v : nat -> nat -> F) i j : (j < J)%nat ->
      synth (o := DualOps) K L J (fun i a => dconst (f i a)) (fun a j l => dconst (p a j l))
            (fun a l => dvar (x a l) (v a l)) i j
      = mkdual (synth K L J f p x i j) (synth K L J f p v i j).
    Proof.
      intros Hj. apply sumn_dual. intros a Ha. rewrite !sh_memo2_ok by assumption.
      unfold inv_legendre.
      rewrite (sumn_dual L _ (fun l => p a j l * x a l) (fun l => p a j l * v a l))
        by (intros l _; apply dual_eq; cbn; ring).
      apply dual_eq; cbn; ring.
    Qed.
  End Tables.
End SHTAdjoint.

Section DerivDefs.
  Context {F : Type} {o : Ops F}.
  Import Gen.DerivExprs Model.Deriv.

  (** transpose of the tridiagonal column operator [Thm.Deriv.tri] *)
  Definition triT (C : nat) (wm wp : nat -> nat -> F) (y : nat -> nat -> F) : nat -> nat -> F :=
    fun i k => (if Nat.ltb (S k) C then wp i k * y i (S k) else 0) +
               (if Nat.eqb k 0 then 0 else wm i k * y i (k - 1)%nat).
  (** transposes of [Grid.cos_lat_d_dlat] (D1) and [Grid.sec_lat_d_dlat_cos2] (D2):
      the same recurrence tables [a], [b], weights of the source column *)
  Definition D1T (L C : nat) (a b : nat -> nat -> F) (y : nat -> nat -> F) : nat -> nat -> F :=
    triT C (fun i l => d1_wm (lit (laxis L l)) (a i l)) (fun i l => d1_wp (lit (laxis L l)) (b i l)) y.
  Definition D2T (L C : nat) (a b : nat -> nat -> F) (y : nat -> nat -> F) : nat -> nat -> F :=
    triT C (fun i l => d2_wm (lit (laxis L l)) (a i l)) (fun i l => d2_wp (lit (laxis L l)) (b i l)) y.
  (** the transpose of [cos_lat_grad] (without clipping) as a map from pairs to scalars *)
  Definition cos_lat_gradT (fast : bool) (L R C : nat) (r : F) (a b : nat -> nat -> F)
             (v : (nat -> nat -> F) * (nat -> nat -> F)) : nat -> nat -> F :=
    fun i l => (- d_dlon fast R (fst v) i l + D1T L C a b (snd v) i l) / r.
End DerivDefs.

Section DerivAdjoint.
  Context {F : Type} {o : Ops F} {Fc : FieldC o}.
  Add Field FFad : (field_c : FieldTh o).
  Import Gen.DerivExprs Model.Deriv Thm.Deriv.

  Lemma sumn_reindex_succ C (g : nat -> nat -> F) :
    sumn C (fun l => if Nat.ltb (S l) C then g (S l) l else 0)
    = sumn C (fun k => if Nat.eqb k 0 then 0 else g k (k - 1)%nat).
  Proof.
    destruct C as [|n]; [reflexivity|].
    rewrite (sumn_S_first n (fun k => if Nat.eqb k 0 then 0 else g k (k - 1)%nat)).
    cbn [sumn Nat.eqb].
    rewrite (sumn_ext n (fun l => if Nat.ltb (S l) (S n) then g (S l) l else 0) (fun l => g (S l) l)).
    2:{ intros l Hl. destruct (Nat.ltb_spec (S l) (S n)); [reflexivity|lia]. }
    rewrite (sumn_ext n (fun i => if Nat.eqb (S i) 0 then 0 else g (S i) (S i - 1)%nat) (fun l => g (S l) l)).
    2:{ intros l Hl. cbn [Nat.eqb]. replace (S l - 1)%nat with l by lia. reflexivity. }
    destruct (Nat.ltb_spec (S n) (S n)); [lia|]. ring.
  Qed.

  Theorem tri_adjoint C (wm wp : nat -> nat -> F) (x y : nat -> nat -> F) i :
    sumn C (fun l => tri C wm wp x i l * y i l) = sumn C (fun l => x i l * triT C wm wp y i l).
  Proof.
    unfold tri, triT.
    transitivity (sumn C (fun l => if Nat.ltb (S l) C then wm i (S l) * x i (S l) * y i l else 0)
                  + sumn C (fun l => if Nat.eqb l 0 then 0 else wp i (l - 1)%nat * x i (l - 1)%nat * y i l)).
    { rewrite <- sumn_add. apply sumn_ext; intros l Hl.
      destruct (Nat.ltb (S l) C), (Nat.eqb l 0); ring. }
    rewrite (sumn_reindex_succ C (fun k l => wm i k * x i k * y i l)).
    rewrite <- (sumn_reindex_succ C (fun k l => wp i l * x i l * y i k)).
    rewrite <- sumn_add. apply sumn_ext; intros l Hl.
    destruct (Nat.ltb (S l) C), (Nat.eqb l 0); ring.
  Qed.

  Theorem D1_adjoint L C (a b x y : nat -> nat -> F) i :
    sumn C (fun l => D1 L C a b x i l * y i l) = sumn C (fun l => x i l * D1T L C a b y i l).
  Proof.
    unfold D1T, d1_wm, d1_wp. rewrite <- tri_adjoint. apply sumn_ext; intros l Hl.
    rewrite D1_entries by assumption. unfold tri. cbn [lit].
    destruct (Nat.ltb (S l) C), (Nat.eqb l 0); ring.
  Qed.

  Theorem D2_adjoint L C (a b x y : nat -> nat -> F) i :
    sumn C (fun l => D2 L C a b x i l * y i l) = sumn C (fun l => x i l * D2T L C a b y i l).
  Proof.
    unfold D2T, d2_wm, d2_wp. rewrite <- tri_adjoint. apply sumn_ext; intros l Hl.
    rewrite D2_entries by assumption. unfold tri. cbn [lit].
    destruct (Nat.ltb (S l) C), (Nat.eqb l 0); ring.
  Qed.

  (** the recurrence tables of the code satisfy a[., l+1] = b[., l] (both are
      sqrt(((l+1)^2 - m^2) / (4 (l+1)^2 - 1)) inside the mask) and vanish at and beyond
      the truncation; then cos_lat_d_dlat and sec_lat_d_dlat_cos2 are negative transposes *)
  Definition H_ab_shift (C : nat) (a b : nat -> nat -> F) : Prop :=
    forall i l, (S l < C)%nat -> a i (S l) = b i l.
  Definition H_b_trunc (L C : nat) (b : nat -> nat -> F) : Prop :=
    forall i l, (S l < C)%nat -> (L <= S l)%nat -> b i l = 0.

  Theorem D1T_is_neg_D2 L C (a b y : nat -> nat -> F) i l :
    H_ab_shift C a b -> H_b_trunc L C b -> (l < C)%nat ->
    D1T L C a b y i l = - D2 L C a b y i l.
  Proof.
    intros Hab Hb Hl. rewrite D2_entries by assumption. unfold D1T, triT, tri.
    (* the weights that meet across columns k, k+1 are opposite: inside the
       truncation l+1 - 1 = l and l+1 + 1 = l + 2, beyond it b vanishes *)
    assert (W : forall k, (S k < C)%nat ->
              d1_wp (lit (laxis L k)) (b i k) = - ((lit (laxis L (S k)) - 1) * a i (S k)) /\
              d1_wm (lit (laxis L (S k))) (a i (S k)) = - (- (lit (laxis L k) + (1 + 1)) * b i k)).
    { intros k Hk. rewrite (Hab i k Hk). unfold d1_wp, d1_wm. cbn [lit].
      destruct (Nat.ltb_spec (S k) L) as [H|H].
      - rewrite !laxis_lt by lia. rewrite lit_S. split; ring.
      - rewrite (Hb i k Hk H). split; ring. }
    destruct l as [|l]; cbn [Nat.eqb].
    - destruct (Nat.ltb_spec 1 C) as [H|H]; [rewrite (proj1 (W 0%nat H))|]; ring.
    - replace (S l - 1)%nat with l by lia. rewrite (proj2 (W l Hl)).
      destruct (Nat.ltb_spec (S (S l)) C) as [H|H]; [rewrite (proj1 (W (S l) H))|]; ring.
  Qed.

  Theorem d_dlon_skew fast R (x y : nat -> nat -> F) l :
    layout_ok fast R ->
    sumn R (fun i => d_dlon fast R x i l * y i l) = - sumn R (fun i => x i l * d_dlon fast R y i l).
  Proof.
    (* the rows come in (cos, sin) pairs of one wavenumber m, on which d/dlon acts as
       (c, s) |-> (m s, - m c): the sum is taken pair by pair; the reference layout has
       the unpaired row 0 in front, where d/dlon is 0 *)
    intros HR. unfold layout_ok in HR. pose proof (Nat.div_mod_eq R 2) as HD.
    rewrite <- sumn_opp. destruct fast; unfold d_dlon.
    - assert (ER : R = (2 * (R / 2))%nat) by lia.
      assert (HS : forall g : nat -> F, sumn R g = sumn (2 * (R / 2)) g) by (intros g; f_equal; exact ER).
      rewrite !HS. rewrite !sumn_pairs_even. apply sumn_ext; intros j Hj.
      assert (Hlt : (2 * j + 1 < R)%nat) by lia.
      destruct (dlon_pairs_fast R 0 x j l Hlt) as [X0 X1].
      destruct (dlon_pairs_fast R 0 y j l Hlt) as [Y0 Y1].
      rewrite X0, X1, Y0, Y1. ring.
    - assert (ER : R = S (2 * (R / 2))) by lia.
      assert (HS : forall g : nat -> F, sumn R g = sumn (S (2 * (R / 2))) g) by (intros g; f_equal; exact ER).
      rewrite !HS. rewrite !sumn_S_first, !sumn_pairs_even.
      assert (Z0 : forall z : nat -> nat -> F, dlon_ref R z 0%nat l = 0).
      { intros z. rewrite dlon_ref_unfold by lia. cbn. ring. }
      rewrite !Z0.
      transitivity (sumn (R / 2) (fun j =>
                      - (x (S (2 * j)) l * dlon_ref R y (S (2 * j)) l)
                      + - (x (S (2 * j + 1)) l * dlon_ref R y (S (2 * j + 1)) l))).
      2:{ ring. }
      transitivity (sumn (R / 2) (fun j =>
                      dlon_ref R x (S (2 * j)) l * y (S (2 * j)) l
                      + dlon_ref R x (S (2 * j + 1)) l * y (S (2 * j + 1)) l)).
      { ring. }
      apply sumn_ext; intros j Hj.
      assert (H1 : (1 <= S j)%nat) by lia. assert (H2 : (2 * S j < R)%nat) by lia.
      destruct (dlon_pairs_ref R x (S j) l H1 H2) as (X0 & X1 & _).
      destruct (dlon_pairs_ref R y (S j) l H1 H2) as (Y0 & Y1 & _).
      replace (2 * S j - 1)%nat with (S (2 * j)) in * by lia.
      replace (2 * S j)%nat with (S (2 * j + 1)) in * by lia.
      rewrite X0, X1, Y0, Y1. ring.
  Qed.

  Theorem laplacian_self_adjoint L r (x y : nat -> nat -> F) i l :
    laplacian L r x i l * y i l = x i l * laplacian L r y i l.
  Proof. unfold laplacian. ring. Qed.
  Theorem inverse_laplacian_self_adjoint L r (x y : nat -> nat -> F) i l :
    inverse_laplacian L r x i l * y i l = x i l * inverse_laplacian L r y i l.
  Proof. unfold inverse_laplacian. ring. Qed.
  Theorem clip_self_adjoint L C n (x y : nat -> nat -> F) i l :
    clip L C n x i l * y i l = x i l * clip L C n y i l.
  Proof. unfold clip. ring. Qed.

  Lemma dot2_div_l n m r (x y : nat -> nat -> F) : dot2 n m (fun i l => x i l / r) y = dot2 n m x y / r.
  Proof.
    unfold dot2. rewrite fdiv_mul, <- sumn_scal_r. apply sumn_ext; intros i _.
    rewrite <- sumn_scal_r. apply sumn_ext; intros l _. rewrite fdiv_mul. ring.
  Qed.
  Lemma dot2_div_adjoint n m r (Ax ATu x u : nat -> nat -> F) :
    dot2 n m Ax u = dot2 n m x ATu ->
    dot2 n m (fun i l => Ax i l / r) u = dot2 n m x (fun i l => ATu i l / r).
  Proof.
    intros H. rewrite (dot2_comm n m x), !dot2_div_l, H. now rewrite (dot2_comm n m x).
  Qed.

  Lemma dlon_div_adjoint fast R C r (x u : nat -> nat -> F) :
    layout_ok fast R ->
    dot2 R C (fun i l => d_dlon fast R x i l / r) u = dot2 R C x (fun i l => - d_dlon fast R u i l / r).
  Proof.
    intros HR. apply (dot2_div_adjoint R C r _ (fun i l => - d_dlon fast R u i l)). unfold dot2.
    rewrite (sumn_exchange R C (fun i l => d_dlon fast R x i l * u i l)).
    rewrite (sumn_exchange R C (fun i l => x i l * - d_dlon fast R u i l)).
    apply sumn_ext; intros l _. rewrite (d_dlon_skew fast R x u l HR), <- sumn_opp.
    apply sumn_ext; intros i _. ring.
  Qed.

  Lemma D1_div_adjoint L R C r (a b x v : nat -> nat -> F) :
    dot2 R C (fun i l => D1 L C a b x i l / r) v = dot2 R C x (fun i l => D1T L C a b v i l / r).
  Proof. apply dot2_div_adjoint. apply sumn_ext; intros i _. apply D1_adjoint. Qed.

  Theorem cos_lat_grad_adjoint fast L R C r (a b x u v : nat -> nat -> F) :
    layout_ok fast R ->
    dot2 R C (fst (cos_lat_grad fast L R C r a b false x)) u
    + dot2 R C (snd (cos_lat_grad fast L R C r a b false x)) v
    = dot2 R C x (cos_lat_gradT fast L R C r a b (u, v)).
  Proof.
    intros HR.
    unfold cos_lat_grad, cos_lat_gradT, clip_if. cbn [fst snd].
    rewrite (dlon_div_adjoint fast R C r x u HR), (D1_div_adjoint L R C r a b x v).
    unfold dot2. rewrite <- sumn_add. apply sumn_ext; intros i Hi.
    rewrite <- sumn_add. apply sumn_ext; intros l Hl. rewrite !fdiv_mul. ring.
  Qed.

  Theorem grad_div_adjoint fast L R C r (a b x u v : nat -> nat -> F) :
    layout_ok fast R -> H_ab_shift C a b -> H_b_trunc L C b ->
    dot2 R C (fst (cos_lat_grad fast L R C r a b false x)) u
    + dot2 R C (snd (cos_lat_grad fast L R C r a b false x)) v
    = - dot2 R C x (div_cos_lat fast L R C r a b false (u, v)).
  Proof.
    intros HR Hab Hb.
    rewrite cos_lat_grad_adjoint by assumption.
    unfold dot2, cos_lat_gradT, div_cos_lat, clip_if. cbn [fst snd].
    rewrite <- sumn_opp. apply sumn_ext; intros i Hi.
    rewrite <- sumn_opp. apply sumn_ext; intros l Hl.
    rewrite (D1T_is_neg_D2 L C a b v i l Hab Hb Hl). rewrite !fdiv_mul. ring.
  Qed.
End DerivAdjoint.
