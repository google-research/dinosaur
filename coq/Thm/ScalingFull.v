(** C12 for the executable whole-state model (Model/PrimEqFull.v).

    Thm/ScalingColumn.v proves the covariance of the modal tendencies over abstract horizontal
    operators assumed homogeneous in the radius, and of the implicit terms and the implicit solve
    for one coefficient column.  Here the concrete operators of Model/SHT.v / Model/Deriv.v are
    shown to meet those assumptions (to_nodal / to_modal / clip do not see the radius; laplacian
    scales with radius^-2, cos_lat_grad / div_cos_lat / curl_cos_lat with radius^-1,
    inverse_laplacian with radius^2, get_cos_lat_vector with radius; gradient and laplacian
    annihilate the (0,0) coefficient, where the log-pressure shift lives);
    compute_diagnostic_state maps the rescaled state to the rescaled nodal columns; hence
    explicit_terms_full, implicit_terms_full and implicit_inverse_full (method 'split') of the
    rescaled problem (grid with rescaled radius and rotation rate, rescaled constants, rescaled
    state) give the rescaled results on every in-range coefficient.  The step theorems of
    Thm/Scaling.v want a vector space whose laws are Leibniz equalities: the in-range part of
    State is made one ([StOps]: normal forms and functional extensionality; the tracer list is
    dropped), the model functions being shown to read the index range only.

    Change of scale, in the convention of [scale_ncol] / [scale_cfg] (Model/Scaling.v):
    multipliers ku (velocity), kr (rates), kT (temperature), kg (inverse length),
    kR (gas constant), kL (length) with ku*kg = kr, kR*kT*kg = ku*kr, kL*kg = 1 - all true
    for [factor s d] of any non-zero scale (see Prop/C12.v). *)
From Dino Require Import Base.Ops Base.Field Base.Sums Base.Ord Model.Sigma Model.Implicit Model.PrimEq Model.SHT Model.Deriv
     Model.PrimEqFull Model.Integrators Model.Scaling Gen.DerivExprs
     Thm.SHT Thm.Deriv Thm.Implicit Thm.PrimEq Thm.PrimEqFull Thm.Scaling Thm.ScalingColumn.
From Coq Require Import FunctionalExtensionality.
Local Open Scope F_scope.

(** the same grid seen through another scale: only the (non-dimensional) radius and the
    rotation rate change; every table is dimensionless *)
Definition rescale_grid {F : Type} {o : Ops F} (kL kr : F) (g : @HGrid F) : @HGrid F :=
  mkHG (hM g) (hL g) (hI g) (hJ g) (kL * hr g) (hf g) (hp g) (hw g) (ha g) (hb g) (hsec2 g) (hsin g) (kr * homega g).

(** the (0,0) coefficient: where the log-surface-pressure shift lives *)
Definition e00 {F : Type} {o : Ops F} : nat -> nat -> F :=
  fun a l => if (Nat.eqb a 0 && Nat.eqb l 0)%bool then 1 else 0.

(** the state of the same physical problem under the second scale *)
Definition scale_state {F : Type} {o : Ops F} (kr kT shift : F) (s : @State F) : @State F :=
  mkState (fun k a l => kr * s_vort s k a l) (fun k a l => kr * s_div s k a l) (fun k a l => kT * s_temp s k a l)
          (fun a l => s_lnps s a l + shift * e00 a l) (s_tr s).

(** the executable whole-state functions read their argument on the index range only *)
Section StateExt.
  Context {F : Type} {o : Ops F} {Fc : FieldC o}.
  Add Field FFsf3 : (field_c : FieldTh o).

  Definition agree (K R L : nat) (s1 s2 : @State F) : Prop :=
    (forall k a l, (k < K)%nat -> (a < R)%nat -> (l < L)%nat ->
       s_vort s1 k a l = s_vort s2 k a l /\ s_div s1 k a l = s_div s2 k a l /\ s_temp s1 k a l = s_temp s2 k a l) /\
    (forall a l, (a < R)%nat -> (l < L)%nat -> s_lnps s1 a l = s_lnps s2 a l).

  Variable g : @HGrid F.
  Notation R := (hR g).
  Notation L := (hL g).

  Lemma uvm_ext (vo dv vo' dv' : nat -> nat -> F) a l :
    (a < R)%nat -> (l < L)%nat ->
    (forall a l, (a < R)%nat -> (l < L)%nat -> vo a l = vo' a l) ->
    (forall a l, (a < R)%nat -> (l < L)%nat -> dv a l = dv' a l) ->
    fst (uvm g vo dv) a l = fst (uvm g vo' dv') a l /\ snd (uvm g vo dv) a l = snd (uvm g vo' dv') a l.
  Proof.
    intros Ha Hl Hv Hd. destruct (uvm_comb g 1 0 vo dv vo' dv' vo' dv' a l) as [-> ->]; [|split; ring].
    intros a' l' Ha' Hl'. rewrite Hv, Hd by auto. split; ring.
  Qed.

  Lemma gradm_ext (x x' : nat -> nat -> F) a l :
    (a < R)%nat -> (l < L)%nat -> (forall a l, (a < R)%nat -> (l < L)%nat -> x a l = x' a l) ->
    fst (gradm g x) a l = fst (gradm g x') a l /\ snd (gradm g x) a l = snd (gradm g x') a l.
  Proof.
    intros Ha Hl H. now apply cos_lat_grad_ext.
  Qed.

  Lemma to_nodal3_ext K (x y : nat -> nat -> nat -> F) k i j :
    (forall k a l, (k < K)%nat -> (a < R)%nat -> (l < L)%nat -> x k a l = y k a l) ->
    to_nodal3 g K x k i j = to_nodal3 g K y k i j.
  Proof.
    intros H. rewrite (to_nodal3_scal g K 1 y x) by (intros; rewrite H by assumption; ring). ring.
  Qed.

  Lemma nodal2_ext (x y : nat -> nat -> F) i j :
    (forall a l, (a < R)%nat -> (l < L)%nat -> x a l = y a l) ->
    sh_memo2 (hI g) (hJ g) (to_nodal g x) i j = sh_memo2 (hI g) (hJ g) (to_nodal g y) i j.
  Proof.
    intros H. rewrite (nodal2_scal g 1 y x) by (intros; rewrite H by assumption; ring). ring.
  Qed.

  Lemma diag_ext K (s1 s2 : @State F) :
    agree K R L s1 s2 -> X_of g (diagnostic_state g K s1) = X_of g (diagnostic_state g K s2).
  Proof.
    intros [A3 A2]. apply functional_extensionality. intros [i j].
    unfold X_of, diagnostic_state.
    cbn [fst snd d_u d_v d_vort d_div d_temp d_gx d_gy].
    f_equal.
    - apply functional_extensionality; intro k. apply to_nodal3_ext. intros k0 a l Hk Ha Hl.
      apply uvm_ext; try assumption; intros a0 l0 Ha0 Hl0; now apply A3.
    - apply functional_extensionality; intro k. apply to_nodal3_ext. intros k0 a l Hk Ha Hl.
      apply uvm_ext; try assumption; intros a0 l0 Ha0 Hl0; now apply A3.
    - apply functional_extensionality; intro k. apply to_nodal3_ext. intros; now apply A3.
    - apply functional_extensionality; intro k. apply to_nodal3_ext. intros; now apply A3.
    - apply functional_extensionality; intro k. apply to_nodal3_ext. intros; now apply A3.
    - apply nodal2_ext. intros a l Ha Hl. now apply gradm_ext.
    - apply nodal2_ext. intros a l Ha Hl. now apply gradm_ext.
  Qed.

  Variable c : @PEcfg F.

  Theorem explicit_terms_full_ext grav orog (s1 s2 : @State F) k a l :
    agree (cK c) R L s1 s2 -> (k < cK c)%nat -> (a < R)%nat -> (l < L)%nat ->
    let E1 := explicit_terms_full g c grav orog s1 in let E2 := explicit_terms_full g c grav orog s2 in
    s_vort E1 k a l = s_vort E2 k a l /\ s_div E1 k a l = s_div E2 k a l /\
    s_temp E1 k a l = s_temp E2 k a l /\ s_lnps E1 a l = s_lnps E2 a l.
  Proof.
    intros Hag Hk Ha Hl.
    destruct (explicit_terms_full_is_assembly g c grav orog s1 k a l Hk Ha Hl) as (V & D & T & P).
    destruct (explicit_terms_full_is_assembly g c grav orog s2 k a l Hk Ha Hl) as (V' & D' & T' & P').
    cbv zeta in *. rewrite V, D, T, P, V', D', T', P', (diag_ext (cK c) s1 s2 Hag). repeat split.
  Qed.

  Lemma col_of_agree (s1 s2 : @State F) a l :
    agree (cK c) R L s1 s2 -> (a < R)%nat -> (l < L)%nat -> col_eq (cK c) (col_of s1 a l) (col_of s2 a l).
  Proof.
    intros [A3 A2] Ha Hl. repeat split; cbn [col_of c_div c_temp c_lnps]; intros; try (now apply A3). now apply A2.
  Qed.

  Theorem implicit_terms_full_ext (s1 s2 : @State F) a l :
    agree (cK c) R L s1 s2 -> (a < R)%nat -> (l < L)%nat ->
    col_eq (cK c) (col_of (implicit_terms_full g c s1) a l) (col_of (implicit_terms_full g c s2) a l).
  Proof.
    intros Hag Ha Hl.
    eapply col_eq_trans; [apply implicit_terms_full_column|].
    eapply col_eq_trans; [apply implicit_terms_respects; apply (col_of_agree s1 s2 a l Hag Ha Hl)|].
    apply col_eq_sym. apply implicit_terms_full_column.
  Qed.

  Theorem implicit_inverse_full_ext eta invt (s1 s2 : @State F) a l :
    agree (cK c) R L s1 s2 -> (a < R)%nat -> (l < L)%nat ->
    col_eq (cK c) (col_of (implicit_inverse_full g c eta invt s1) a l) (col_of (implicit_inverse_full g c eta invt s2) a l).
  Proof.
    intros Hag Ha Hl.
    pose proof (inverse_split_respects (fun _ _ => invt l) c eta (Deriv.lap_eig L (hr g) l) _ _ (col_of_agree s1 s2 a l Hag Ha Hl)) as (A & B & C).
    repeat split; cbn [col_of implicit_inverse_full s_div s_temp s_lnps c_div c_temp c_lnps]; intros.
    - now apply A.
    - now apply B.
    - exact C.
  Qed.
End StateExt.

Section WholeState.
  Context {F : Type} {o : Ops F} {Fc : FieldC o}.
  Add Field FFsf2 : (field_c : FieldTh o).
  Variables (ku kr kT kg kR kL : F).
  Hypothesis H_rate : ku * kg = kr.
  Hypothesis H_accel : kR * kT * kg = ku * kr.
  Hypothesis H_len : kL * kg = 1.
  Variable g : @HGrid F.
  Hypothesis r_nz : hr g <> 0.
  (** the characteristic of the field does not divide l (l + 1) for the wavenumbers in use
      (the inverse Laplacian divides by it); true in Qc and R *)
  Hypothesis lit_nz : forall l, (1 <= l < hL g)%nat -> lit l <> (0 : F) /\ lit l + 1 <> (0 : F).
  Notation g' := (rescale_grid kL kr g).

  Lemma kL_nz : kL <> 0.
  Proof. exact (fmul_eq1_nz kL kg H_len). Qed.
  Lemma kg_eq : kg = 1 / kL.
  Proof. symmetry. exact (fmul_eq1_inv kL kg H_len). Qed.
  Lemma ku_eq : ku = kL * kr.
  Proof. rewrite <- H_rate. transitivity (ku * (kL * kg)); [rewrite H_len; ring | ring]. Qed.

  Theorem lapm_radius x a l : lapm g' x a l = kg * kg * lapm g x a l.
  Proof.
    change (lapm g' x a l) with (Deriv.laplacian (hL g) (kL * hr g) x a l). unfold lapm.
    rewrite (laplacian_radius _ _ _ _ _ _ r_nz kL_nz), kg_eq. field. exact kL_nz.
  Qed.
  Theorem divm_radius x y a l : divm g' x y a l = kg * divm g x y a l.
  Proof.
    change (divm g' x y a l) with (div_cos_lat false (hL g) (hR g) (hL g) (kL * hr g) (ha g) (hb g) false (x, y) a l).
    unfold divm. rewrite (div_cos_lat_radius _ _ _ _ _ _ _ _ _ _ _ _ r_nz kL_nz), kg_eq. field. exact kL_nz.
  Qed.
  Theorem curlm_radius x y a l : curlm g' x y a l = kg * curlm g x y a l.
  Proof.
    change (curlm g' x y a l) with (curl_cos_lat false (hL g) (hR g) (hL g) (kL * hr g) (ha g) (hb g) false (x, y) a l).
    unfold curlm. rewrite (curl_cos_lat_radius _ _ _ _ _ _ _ _ _ _ _ _ r_nz kL_nz), kg_eq. field. exact kL_nz.
  Qed.
  Theorem gradm_radius x a l :
    fst (gradm g' x) a l = kg * fst (gradm g x) a l /\ snd (gradm g' x) a l = kg * snd (gradm g x) a l.
  Proof.
    change (gradm g' x) with (cos_lat_grad false (hL g) (hR g) (hL g) (kL * hr g) (ha g) (hb g) false x).
    unfold gradm. destruct (cos_lat_grad_radius false (hL g) (hR g) (hL g) (hr g) kL (ha g) (hb g) x false a l r_nz kL_nz) as [-> ->].
    rewrite kg_eq. split; field; exact kL_nz.
  Qed.
  Theorem invlap_radius x a l :
    inverse_laplacian (hL g) (kL * hr g) x a l = kL * kL * inverse_laplacian (hL g) (hr g) x a l.
  Proof.
    destruct (Nat.eq_dec l 0) as [Z|NZ]; [rewrite !inverse_laplacian_zero by (left; exact Z); ring|].
    destruct (le_lt_dec (hL g) l) as [Hge|Hlt]; [rewrite !inverse_laplacian_zero by (right; exact Hge); ring|].
    assert (Hl : (1 <= l < hL g)%nat) by lia.
    destruct (lit_nz l Hl) as [N0 N1].
    rewrite (inverse_laplacian_radius _ _ _ x a l r_nz kL_nz Hl N0 N1). ring.
  Qed.

  Lemma divc_c_radius x y w : divc_c g' x y w = kg * divc_c g x y w.
  Proof. destruct w. apply divm_radius. Qed.

  (** the operator laws that Section ModalCov (Thm/ScalingColumn.v) assumes hold of the concrete operators *)
  Definition concrete_ops : @ModalOps F Wi Wi :=
    mkModalOps Wi Wi (toM_c g) (divc_c g) (curlc_c g) (lap_c g) (clip_c g) (divc_c g') (curlc_c g') (lap_c g').
  Theorem concrete_operators_homogeneous : ModalLaws kg concrete_ops.
  Proof.
    constructor; cbn [concrete_ops mo_toM mo_divc mo_curlc mo_lap mo_clip mo_divc' mo_curlc' mo_lap'].
    - apply lin_homog1, toM_c_lin.
    - apply lin2_homog2, divc_c_lin.
    - apply lin2_homog2, curlc_c_lin.
    - apply lin_homog1, lap_c_lin.
    - apply lin_homog1, clip_c_lin.
    - exact divc_c_radius.
    - intros x y [a l]. apply curlm_radius.
    - intros x [a l]. apply lapm_radius.
  Qed.

  (** get_cos_lat_vector: velocities from rates, one power of the radius *)
  Lemma invlap_cov c (x : nat -> nat -> F) a l :
    inverse_laplacian (hL g) (kL * hr g) (fun a l => c * x a l) a l
    = c * (kL * kL) * inverse_laplacian (hL g) (hr g) x a l.
  Proof. rewrite invlap_radius. unfold inverse_laplacian. ring. Qed.

  Theorem uvm_covariant (vo dv : nat -> nat -> F) a l :
    fst (uvm g' (fun a l => kr * vo a l) (fun a l => kr * dv a l)) a l = ku * fst (uvm g vo dv) a l /\
    snd (uvm g' (fun a l => kr * vo a l) (fun a l => kr * dv a l)) a l = ku * snd (uvm g vo dv) a l.
  Proof.
    assert (G : forall x, fst (gradm g' (inverse_laplacian (hL g') (hr g') (fun a l => kr * x a l))) a l
                          = kg * (kr * (kL * kL)) * fst (gradm g (inverse_laplacian (hL g) (hr g) x)) a l /\
                          snd (gradm g' (inverse_laplacian (hL g') (hr g') (fun a l => kr * x a l))) a l
                          = kg * (kr * (kL * kL)) * snd (gradm g (inverse_laplacian (hL g) (hr g) x)) a l).
    { intros x. destruct (gradm_radius (inverse_laplacian (hL g') (hr g') (fun a l => kr * x a l)) a l) as [-> ->].
      destruct (cos_lat_grad_comb false (hL g) (hR g) (hL g) (hr g) (ha g) (hb g) false
                  (inverse_laplacian (hL g) (kL * hr g) (fun a l => kr * x a l))
                  (inverse_laplacian (hL g) (hr g) x) (inverse_laplacian (hL g) (hr g) x) (kr * (kL * kL)) 0 a l) as [E1 E2].
      - intros a' l' _ _. rewrite invlap_cov. ring.
      - change (gradm g (inverse_laplacian (hL g') (hr g') (fun a l => kr * x a l)))
          with (cos_lat_grad false (hL g) (hR g) (hL g) (hr g) (ha g) (hb g) false
                  (inverse_laplacian (hL g) (kL * hr g) (fun a l => kr * x a l))).
        rewrite E1, E2. unfold gradm. split; ring. }
    destruct (uvm_grad g' (fun a l => kr * vo a l) (fun a l => kr * dv a l) a l) as [-> ->], (uvm_grad g vo dv a l) as [-> ->].
    destruct (G vo) as [-> ->], (G dv) as [-> ->].
    rewrite ku_eq, kg_eq. split; field; exact kL_nz.
  Qed.

  (** the gradient annihilates the (0,0) coefficient, so it does not see the shift *)
  Theorem gradm_shift_covariant (x : nat -> nat -> F) shift a l :
    (a < hR g)%nat -> (l < hL g)%nat ->
    fst (gradm g' (fun a l => x a l + shift * e00 a l)) a l = kg * fst (gradm g x) a l /\
    snd (gradm g' (fun a l => x a l + shift * e00 a l)) a l = kg * snd (gradm g x) a l.
  Proof.
    intros Ha Hl.
    destruct (gradm_radius (fun a l => x a l + shift * e00 a l) a l) as [-> ->].
    destruct (cos_lat_grad_comb false (hL g) (hR g) (hL g) (hr g) (ha g) (hb g) false
                (fun a l => x a l + shift * e00 a l) x e00 1 shift a l) as [E1 E2]; [intros; ring|].
    destruct (cos_lat_grad_const (hL g) (hR g) (hL g) (hr g) (ha g) (hb g) false e00 a l) as [Z1 Z2]; try assumption.
    { intros a' l' N. unfold e00. destruct N as [N|N]; apply Nat.eqb_neq in N; rewrite N, ?Bool.andb_false_r; reflexivity. }
    unfold gradm. rewrite E1, E2, Z1, Z2. split; ring.
  Qed.

  Lemma to_nodal3_cov K c (x y : nat -> nat -> nat -> F) k i j :
    (forall k a l, (a < hR g)%nat -> (l < hL g)%nat -> y k a l = c * x k a l) ->
    to_nodal3 g' K y k i j = c * to_nodal3 g K x k i j.
  Proof.
    intros H. change (to_nodal3 g' K y k i j) with (to_nodal3 g K y k i j). apply to_nodal3_scal. intros; now apply H.
  Qed.

  Lemma nodal2_cov c (x y : nat -> nat -> F) i j :
    (forall a l, (a < hR g)%nat -> (l < hL g)%nat -> y a l = c * x a l) ->
    sh_memo2 (hI g) (hJ g) (to_nodal g' y) i j = c * sh_memo2 (hI g) (hJ g) (to_nodal g x) i j.
  Proof.
    intros H. change (to_nodal g' y) with (to_nodal g y). now apply nodal2_scal.
  Qed.

  Variable shift : F.
  Notation Sst := (scale_state kr kT shift).

  Theorem diag_covariant K (s : @State F) p :
    X_of g' (diagnostic_state g' K (Sst s)) p = scale_ncol ku kr kT kg (X_of g (diagnostic_state g K s) p).
  Proof.
    destruct p as [i j]. unfold X_of, scale_ncol, scol, diagnostic_state.
    cbn [fst snd n_u n_v n_vort n_div n_temp n_gx n_gy n_sec2 n_f d_u d_v d_vort d_div d_temp d_gx d_gy
         scale_state s_vort s_div s_temp s_lnps].
    change (hI g') with (hI g). change (hJ g') with (hJ g).
    f_equal.
    - apply functional_extensionality; intro k.
      apply (to_nodal3_cov K ku (fun k => fst (uvm g (s_vort s k) (s_div s k)))). intros k0 a l _ _.
      exact (proj1 (uvm_covariant (s_vort s k0) (s_div s k0) a l)).
    - apply functional_extensionality; intro k.
      apply (to_nodal3_cov K ku (fun k => snd (uvm g (s_vort s k) (s_div s k)))). intros k0 a l _ _.
      exact (proj2 (uvm_covariant (s_vort s k0) (s_div s k0) a l)).
    - apply functional_extensionality; intro k. apply (to_nodal3_cov K kr (s_vort s)). reflexivity.
    - apply functional_extensionality; intro k. apply (to_nodal3_cov K kr (s_div s)). reflexivity.
    - apply functional_extensionality; intro k. apply (to_nodal3_cov K kT (s_temp s)). reflexivity.
    - apply (nodal2_cov kg (fst (gradm g (s_lnps s)))). intros a l Ha Hl.
      exact (proj1 (gradm_shift_covariant (s_lnps s) shift a l Ha Hl)).
    - apply (nodal2_cov kg (snd (gradm g (s_lnps s)))). intros a l Ha Hl.
      exact (proj2 (gradm_shift_covariant (s_lnps s) shift a l Ha Hl)).
    - unfold coriolis. cbn [rescale_grid homega hsin]. ring.
  Qed.

  Lemma diag_covariant_fun K (s : @State F) :
    X_of g' (diagnostic_state g' K (Sst s)) = fun p => scale_ncol ku kr kT kg (X_of g (diagnostic_state g K s) p).
  Proof. apply functional_extensionality; intro p; apply diag_covariant. Qed.

  Hypothesis feqb_iff : forall a b : F, feqb a b = true <-> a = b.
  Hypothesis kT_nz : kT <> 0.
  Hypothesis kR_nz : kR <> 0.
  Variable c : @PEcfg F.
  Hypothesis R_nz : cR c <> 0.
  Variable grav : F.
  Variable orog : nat -> nat -> F.
  Notation c' := (scale_cfg kT kR c).
  Notation grav' := (ku * kr * grav).
  Notation orog' := (fun a l => kL * orog a l).

  Theorem whole_state_lnps_explicit_covariant (s : @State F) a l :
    (a < hR g)%nat -> (l < hL g)%nat ->
    s_lnps (explicit_terms_full g' c' grav' orog' (Sst s)) a l = kr * s_lnps (explicit_terms_full g c grav orog s) a l.
  Proof.
    intros Ha Hl. rewrite !explicit_lnps_is_assembly by assumption. cbn [scale_cfg cK]. rewrite diag_covariant_fun.
    unfold lnps_tendency_explicit_c. change (toM_c g') with (toM_c g). change (clip_c g') with (clip_c g).
    apply (lin_scal (clip_c g) (clip_c_lin g)). intros w.
    apply (lin_scal (toM_c g) (toM_c_lin g)). intros p.
    exact (log_pressure_tendency_homogeneous ku kr kT kg kR H_rate c _).
  Qed.

  Theorem whole_state_explicit_covariant (s : @State F) k a l :
    (k < cK c)%nat -> (a < hR g)%nat -> (l < hL g)%nat ->
    let E := explicit_terms_full g c grav orog s in
    let E' := explicit_terms_full g' c' grav' orog' (Sst s) in
    s_vort E' k a l = kr * kr * s_vort E k a l /\
    s_div E' k a l = kr * kr * s_div E k a l /\
    s_temp E' k a l = kT * kr * s_temp E k a l /\
    s_lnps E' a l = kr * s_lnps E a l.
  Proof.
    intros Hk Ha Hl E E'. unfold E, E'.
    destruct (explicit_terms_full_is_assembly g c grav orog s k a l Hk Ha Hl) as (V & D & T & _).
    destruct (explicit_terms_full_is_assembly g' c' grav' orog' (Sst s) k a l Hk Ha Hl) as (V' & D' & T' & _).
    cbv zeta in V, D, T, V', D', T'.
    rewrite V, D, T, V', D', T'. clear V D T V' D' T'.
    cbn [scale_cfg cK]. rewrite diag_covariant_fun.
    set (X := X_of g (diagnostic_state g (cK c) s)).
    change (toM_c g') with (toM_c g). change (clip_c g') with (clip_c g).
    assert (Hrt : forall p j, rt_dry c' (scale_ncol ku kr kT kg (X p)) j = kR * kT * rt_dry c (X p) j).
    { intros p j. apply rt_dry_homogeneous. }
    split; [|split; [|split]].
    - apply (vort_tendency_explicit_covariant ku kr kT kg kR H_rate H_accel Wi Wi concrete_ops concrete_operators_homogeneous
               c X (fun p => rt_dry c (X p)) _ (fun _ => 0) (fun _ => 0) k (a, l) Hrt).
      intros v. ring.
    - apply (div_tendency_explicit_covariant ku kr kT kg kR H_rate H_accel Wi Wi concrete_ops concrete_operators_homogeneous
               c X (fun p => rt_dry c (X p)) _ (unc orog) _ (fun _ => 0) (fun _ => 0) grav kL k (a, l) H_len Hrt).
      + intros v. reflexivity.
      + intros v. ring.
    - apply (temp_tendency_explicit_covariant ku kr kT kg kR H_rate feqb_iff kT_nz Wi Wi concrete_ops
               concrete_operators_homogeneous c X k (a, l)).
    - now apply whole_state_lnps_explicit_covariant.
  Qed.

  (** the column of one coefficient: the whole-state change of scale is the column one of
      Thm/ScalingColumn.v, with the Laplacian eigenvalue multiplied by kg^2 and the shift confined to
      the (0,0) coefficient, whose eigenvalue is 0 *)
  Notation ScC a l := (Sc (vo := ScalingColumn.vo) (col_L (cK c) kr kT) (col_shift (shift * e00 a l))).
  Notation lam l := (Deriv.lap_eig (hL g) (hr g) l).

  Lemma geo_relation : kR * kT * (kg * kg) = kr * kr.
  Proof. transitivity (kR * kT * kg * kg); [ring|]. rewrite H_accel, <- H_rate. ring. Qed.

  Lemma lap_eig_radius l : Deriv.lap_eig (hL g') (hr g') l = kg * kg * lam l.
  Proof. cbn [rescale_grid hL hr]. rewrite !lap_eig_val, kg_eq. field. split; first [exact kL_nz | exact r_nz]. Qed.

  Lemma shift_eig a l : shift * e00 a l * lam l = 0.
  Proof.
    pose proof (lap_c_const g shift (a, l)) as H.
    unfold lap_c, unc, lapm, Deriv.laplacian, cur, onem00 in H. cbn [fst snd] in H.
    unfold e00. destruct (Nat.eqb a 0 && Nat.eqb l 0)%bool; [rewrite <- H|]; ring.
  Qed.

  Lemma col_of_scale_state (s : @State F) a l : col_eq (cK c) (col_of (Sst s) a l) (ScC a l (col_of s a l)).
  Proof.
    split; [|split]; [intros k Hk; now rewrite Sc_div | intros k Hk; now rewrite Sc_temp | reflexivity].
  Qed.

  (** the rate [kr] times the rescaled terms, as in [implicit_terms_scaled] *)
  Theorem whole_state_implicit_covariant (s : @State F) a l :
    let G := implicit_terms_full g c s in
    let G' := implicit_terms_full g' c' (Sst s) in
    (forall k, (k < cK c)%nat -> s_div G' k a l = kr * (kr * s_div G k a l)) /\
    (forall k, (k < cK c)%nat -> s_temp G' k a l = kr * (kT * s_temp G k a l)) /\
    s_lnps G' a l = kr * s_lnps G a l.
  Proof.
    pose proof (implicit_terms_scaled kr kT kR (kg * kg) (shift * e00 a l) c (lam l) geo_relation (shift_eig a l)
                  (col_of s a l) (col_of (Sst s) a l) (col_of_scale_state s a l)) as H.
    rewrite <- lap_eig_radius in H. exact H.
  Qed.

  (** the property-level statement: explicit and implicit tendencies of the rescaled problem are the
      rescaled tendencies, every in-range coefficient of every field (tracers: see below) *)
  Theorem whole_state_tendencies_covariant (s : @State F) k a l :
    (k < cK c)%nat -> (a < hR g)%nat -> (l < hL g)%nat ->
    let E := explicit_terms_full g c grav orog s in
    let E' := explicit_terms_full g' c' grav' orog' (Sst s) in
    let G := implicit_terms_full g c s in
    let G' := implicit_terms_full g' c' (Sst s) in
    (s_vort E' k a l = kr * kr * s_vort E k a l /\ s_div E' k a l = kr * kr * s_div E k a l /\
     s_temp E' k a l = kT * kr * s_temp E k a l /\ s_lnps E' a l = kr * s_lnps E a l) /\
    (s_vort G' k a l = kr * kr * s_vort G k a l /\ s_div G' k a l = kr * kr * s_div G k a l /\
     s_temp G' k a l = kT * kr * s_temp G k a l /\ s_lnps G' a l = kr * s_lnps G a l).
  Proof.
    intros Hk Ha Hl. split; [exact (whole_state_explicit_covariant s k a l Hk Ha Hl)|].
    destruct (whole_state_implicit_covariant s a l) as (Gd & Gt & Gl). cbv zeta in *.
    rewrite (Gd k Hk), (Gt k Hk), Gl. cbn [implicit_terms_full s_vort]. unfold zero3. repeat split; ring.
  Qed.

  (** tracers (dimensionless: specific humidity etc.; passive in the dry equations): the n-th tracer
      tendency of explicit_terms_full is the assembly [tracer_tendency_explicit_c] and scales with kr;
      implicit_terms_full returns zero tracers *)
  Theorem whole_state_tracers_covariant (s : @State F) n k a l :
    (n < length (s_tr s))%nat -> (k < cK c)%nat -> (a < hR g)%nat -> (l < hL g)%nat ->
    nth n (s_tr (explicit_terms_full g' c' grav' orog' (Sst s))) zero3 k a l
    = kr * nth n (s_tr (explicit_terms_full g c grav orog s)) zero3 k a l /\
    s_tr (implicit_terms_full g' c' (Sst s)) = s_tr (implicit_terms_full g c s) /\
    (forall t, In t (s_tr (implicit_terms_full g c s)) -> t = zero3).
  Proof.
    intros Hn Hk Ha Hl. split; [|split].
    - rewrite (tracer_entry_is_assembly g c grav orog s n k a l Hn Hk Ha Hl).
      rewrite (tracer_entry_is_assembly g' c' grav' orog' (Sst s) n k a l Hn Hk Ha Hl).
      cbn [scale_cfg cK scale_state s_tr].
      rewrite diag_covariant_fun.
      set (X := X_of g (diagnostic_state g (cK c) s)).
      change (to_nodal3 g' (cK c) (nth n (s_tr s) zero3)) with (to_nodal3 g (cK c) (nth n (s_tr s) zero3)).
      set (q := tr_of (to_nodal3 g (cK c) (nth n (s_tr s) zero3))).
      unfold tracer_tendency_explicit_c.
      change (toM_c g') with (toM_c g). change (clip_c g') with (clip_c g).
      apply (lin_scal (clip_c g) (clip_c_lin g)). intros w.
      rewrite divc_c_radius.
      rewrite (lin_scal (toM_c g) (toM_c_lin g) _ (fun p => tracer_nodal_total c true (X p) (q p) k) kr)
        by (intros p; exact (tracer_nodal_total_dimensionless ku kr kT kg kR H_rate c true (X p) (q p) k)).
      rewrite (lin2_scal_ext (divc_c g) (divc_c_lin g) ku
                 (toM_c g (fun p => hsa_mu (X p) (q p) k)) (toM_c g (fun p => hsa_mv (X p) (q p) k))).
      + rewrite <- H_rate. ring.
      + intros v. apply (lin_scal (toM_c g) (toM_c_lin g)). intros p.
        unfold hsa_mu, scale_ncol, scol. cbn [n_u n_sec2]. ring.
      + intros v. apply (lin_scal (toM_c g) (toM_c_lin g)). intros p.
        unfold hsa_mv, scale_ncol, scol. cbn [n_v n_sec2]. ring.
    - reflexivity.
    - intros t Ht. cbn [implicit_terms_full s_tr] in Ht. apply in_map_iff in Ht. destruct Ht as (x & E & _). now symmetry.
  Qed.

  (** Time stepping.  [steps_covariant] / [trajectory_covariant] (Thm/Scaling.v) need, for a
      vector space V with change of scale S u = L u + c0 and time factor tau:
        HF : F' (S u) = (1/tau) L (F u),   HG : G' (S u) = (1/tau) L (G u),
        HGinv : Ginv' (S u) (tau * eta) = S (Ginv u eta).
      With tau * kr = 1 and L = (kr, kr, kT, 1) field by field, c0 = shift at (0,0) of lnps,
      [whole_state_tendencies_covariant] IS HF and HG coefficient by coefficient, and the explicit
      (forward) update u + dt (F u + G u) commutes with the change of scale. *)
  Variable tau : F.
  Hypothesis H_time : tau * kr = 1.

  Lemma inv_tau_kr : 1 / tau = kr.
  Proof. exact (fmul_eq1_inv tau kr H_time). Qed.

  (** the explicit update of the four dynamical fields *)
  Definition forward_update (E G u : @State F) (dt : F) : @State F :=
    mkState (fun k a l => s_vort u k a l + dt * (s_vort E k a l + s_vort G k a l))
            (fun k a l => s_div u k a l + dt * (s_div E k a l + s_div G k a l))
            (fun k a l => s_temp u k a l + dt * (s_temp E k a l + s_temp G k a l))
            (fun a l => s_lnps u a l + dt * (s_lnps E a l + s_lnps G a l))
            (s_tr u).

  Theorem whole_state_step_covariant_partial (s : @State F) dt k a l :
    (k < cK c)%nat -> (a < hR g)%nat -> (l < hL g)%nat ->
    let u1 := forward_update (explicit_terms_full g c grav orog s) (implicit_terms_full g c s) s dt in
    let u1' := forward_update (explicit_terms_full g' c' grav' orog' (Sst s)) (implicit_terms_full g' c' (Sst s))
                              (Sst s) (tau * dt) in
    s_vort u1' k a l = s_vort (Sst u1) k a l /\ s_div u1' k a l = s_div (Sst u1) k a l /\
    s_temp u1' k a l = s_temp (Sst u1) k a l /\ s_lnps u1' a l = s_lnps (Sst u1) a l.
  Proof.
    intros Hk Ha Hl. cbv zeta.
    destruct (whole_state_tendencies_covariant s k a l Hk Ha Hl) as ((A1 & A2 & A3 & A4) & (B1 & B2 & B3 & B4)).
    cbv zeta in *. unfold forward_update. cbn [scale_state s_vort s_div s_temp s_lnps].
    rewrite A1, A2, A3, A4, B1, B2, B3, B4.
    set (ev := s_vort (explicit_terms_full g c grav orog s) k a l).
    set (ed := s_div (explicit_terms_full g c grav orog s) k a l).
    set (et := s_temp (explicit_terms_full g c grav orog s) k a l).
    set (ep := s_lnps (explicit_terms_full g c grav orog s) a l).
    set (gv := s_vort (implicit_terms_full g c s) k a l).
    set (gd := s_div (implicit_terms_full g c s) k a l).
    set (gt := s_temp (implicit_terms_full g c s) k a l).
    set (gp := s_lnps (implicit_terms_full g c s) a l).
    split; [|split; [|split]].
    - transitivity (kr * s_vort s k a l + (tau * kr) * dt * (kr * (ev + gv))); [ring | rewrite H_time; ring].
    - transitivity (kr * s_div s k a l + (tau * kr) * dt * (kr * (ed + gd))); [ring | rewrite H_time; ring].
    - transitivity (kT * s_temp s k a l + (tau * kr) * dt * (kT * (et + gt))); [ring | rewrite H_time; ring].
    - transitivity (s_lnps s a l + shift * e00 a l + (tau * kr) * dt * (ep + gp)); [ring | rewrite H_time; ring].
  Qed.

  (** The implicit solve.  [invt l] / [invt' l] are the tables np.linalg.inv(implicit_matrix)[l]
      under the two scales; the first has to be a RIGHT inverse (M X = I), the second a LEFT inverse
      (X' M' = I) - for square matrices both say "np.linalg.inv worked" (table obligation, checked
      two-sided by the plugin). *)
  Lemma feqb_sound_of_iff : forall x y : F, feqb x y = true -> x = y.
  Proof. intros x y H. now apply feqb_iff. Qed.
  Hypothesis th0_nz : thickness (cb c) 0%nat <> 0.
  Hypothesis thK_nz : thickness (cb c) (cK c - 1)%nat <> 0.
  Notation nn := (2 * cK c + 1)%nat.

  Theorem whole_state_inverse_covariant (eta : F) (invt invt' : nat -> @Mat F) (y : @State F) k a l :
    is_left_inverse nn (implicit_matrix c eta (Deriv.lap_eig (hL g) (hr g) l)) (invt l) ->
    is_left_inverse nn (invt' l) (implicit_matrix c' (tau * eta) (Deriv.lap_eig (hL g') (hr g') l)) ->
    let Z := implicit_inverse_full g c eta invt y in
    let Z' := implicit_inverse_full g' c' (tau * eta) invt' (Sst y) in
    col_eq (cK c) (col_of Z' a l) (col_of (Sst Z) a l) /\ s_vort Z' k a l = s_vort (Sst Z) k a l.
  Proof.
    intros Hr Hl Z Z'. split; [|reflexivity].
    assert (E' : col_eq (cK c) (col_of Z' a l)
                   (inverse_split (fun _ _ => invt' l) c' (tau * eta) (Deriv.lap_eig (hL g') (hr g') l) (col_of (Sst y) a l)))
      by (repeat split).
    assert (E : col_eq (cK c) (inverse_stacked (fun _ _ => invt l) c eta (lam l) (col_of y a l)) (col_of Z a l)).
    { eapply col_eq_trans; [apply col_eq_sym, split_eq_stacked|]. repeat split. }
    rewrite lap_eig_radius in E', Hl.
    eapply col_eq_trans; [exact E'|]. eapply col_eq_trans; [exact (split_eq_stacked _ c' _ _ _)|].
    eapply col_eq_trans.
    - exact (resolvent_scaled kr kT kR (kg * kg) tau (shift * e00 a l) c (lam l) H_time geo_relation (shift_eig a l)
               (fun _ _ => invt l) feqb_sound_of_iff th0_nz thK_nz (fun _ _ => invt' l) eta (col_of y a l) _
               Hr Hl (col_of_scale_state y a l)).
    - eapply col_eq_trans; [exact (Sc_col_eq kr kT (shift * e00 a l) c _ _ E)|]. apply col_eq_sym, col_of_scale_state.
  Qed.

  (** The in-range part of [State] as a vector space with Leibniz laws: every operation
      returns the normal form [mk4] (entries outside the index range forced to 0, tracer list dropped -
      tracers are passive in the dry equations), so that in-range pointwise equality IS equality
      (functional extensionality).  The executable model functions are composed with [norm] on the
      output side only; on the input side they are applied to the states as they are, and
      [explicit_terms_full_ext] etc. show that they only read the index range. *)
  Definition inr3 (k a l : nat) : bool := (Nat.ltb k (cK c) && Nat.ltb a (hR g) && Nat.ltb l (hL g))%bool.
  Definition inr2 (a l : nat) : bool := (Nat.ltb a (hR g) && Nat.ltb l (hL g))%bool.
  Definition cl3 (x : nat -> nat -> nat -> F) : nat -> nat -> nat -> F := fun k a l => if inr3 k a l then x k a l else 0.
  Definition cl2 (x : nat -> nat -> F) : nat -> nat -> F := fun a l => if inr2 a l then x a l else 0.
  Definition mk4 (v d t : nat -> nat -> nat -> F) (p : nat -> nat -> F) : @State F := mkState (cl3 v) (cl3 d) (cl3 t) (cl2 p) [].
  Definition norm (s : @State F) : @State F := mk4 (s_vort s) (s_div s) (s_temp s) (s_lnps s).
  Definition StOps : VOps F (@State F) :=
    mkVOps F (@State F) (mk4 zero3 zero3 zero3 (fun _ _ => 0))
      (fun x y => mk4 (fun k a l => s_vort x k a l + s_vort y k a l) (fun k a l => s_div x k a l + s_div y k a l)
                      (fun k a l => s_temp x k a l + s_temp y k a l) (fun a l => s_lnps x a l + s_lnps y a l))
      (fun t x => mk4 (fun k a l => t * s_vort x k a l) (fun k a l => t * s_div x k a l)
                      (fun k a l => t * s_temp x k a l) (fun a l => t * s_lnps x a l)).
  Definition Lst (u : @State F) : @State F :=
    mk4 (fun k a l => kr * s_vort u k a l) (fun k a l => kr * s_div u k a l) (fun k a l => kT * s_temp u k a l) (s_lnps u).
  Definition c0st : @State F := mk4 zero3 zero3 zero3 (fun a l => shift * e00 a l).

  Lemma inr3_true k a l : (k < cK c)%nat -> (a < hR g)%nat -> (l < hL g)%nat -> inr3 k a l = true.
  Proof. intros Hk Ha Hl. unfold inr3. apply Nat.ltb_lt in Hk, Ha, Hl. now rewrite Hk, Ha, Hl. Qed.
  Lemma inr3_elim k a l : inr3 k a l = true -> (k < cK c)%nat /\ (a < hR g)%nat /\ (l < hL g)%nat.
  Proof.
    unfold inr3. intros H. apply andb_prop in H. destruct H as [H Hl]. apply andb_prop in H. destruct H as [Hk Ha].
    apply Nat.ltb_lt in Hk, Ha, Hl. auto.
  Qed.
  Lemma inr2_true a l : (a < hR g)%nat -> (l < hL g)%nat -> inr2 a l = true.
  Proof. intros Ha Hl. unfold inr2. apply Nat.ltb_lt in Ha, Hl. now rewrite Ha, Hl. Qed.
  Lemma inr2_elim a l : inr2 a l = true -> (a < hR g)%nat /\ (l < hL g)%nat.
  Proof. unfold inr2. intros H. apply andb_prop in H. destruct H as [Ha Hl]. apply Nat.ltb_lt in Ha, Hl. auto. Qed.

  Lemma mk4_ext v d t p v' d' t' p' :
    (forall k a l, inr3 k a l = true -> v k a l = v' k a l) ->
    (forall k a l, inr3 k a l = true -> d k a l = d' k a l) ->
    (forall k a l, inr3 k a l = true -> t k a l = t' k a l) ->
    (forall a l, inr2 a l = true -> p a l = p' a l) ->
    mk4 v d t p = mk4 v' d' t' p'.
  Proof.
    intros Hv Hd Ht Hp. unfold mk4. f_equal.
    - do 3 (apply functional_extensionality; intro). unfold cl3. destruct (inr3 x x0 x1) eqn:E; auto.
    - do 3 (apply functional_extensionality; intro). unfold cl3. destruct (inr3 x x0 x1) eqn:E; auto.
    - do 3 (apply functional_extensionality; intro). unfold cl3. destruct (inr3 x x0 x1) eqn:E; auto.
    - do 2 (apply functional_extensionality; intro). unfold cl2. destruct (inr2 x x0) eqn:E; auto.
  Qed.

  (** a law of the state space: by [mk4_ext], entry by entry on the index range *)
  Ltac st_tac :=
    apply mk4_ext; intros;
    cbn [vadd vscal vzero StOps Lst c0st mk4 norm s_vort s_div s_temp s_lnps]; unfold cl3, cl2, zero3;
    match goal with HH : _ = true |- _ => rewrite ?HH end; try ring.

  Notation vaddS := (@vadd F (@State F) StOps).
  Notation vscalS := (@vscal F (@State F) StOps).
  Notation vzeroS := (@vzero F (@State F) StOps).

  Lemma st_vadd_assoc (u v w : @State F) : vaddS u (vaddS v w) = vaddS (vaddS u v) w.
  Proof. cbn [vadd StOps]. st_tac. Qed.
  Lemma st_vadd_comm (u v : @State F) : vaddS u v = vaddS v u.
  Proof. cbn [vadd StOps]. st_tac. Qed.
  Lemma st_vscal_add (t : F) (u v : @State F) : vscalS t (vaddS u v) = vaddS (vscalS t u) (vscalS t v).
  Proof. cbn [vadd vscal StOps]. st_tac. Qed.
  Lemma st_vscal_mul (s t : F) (u : @State F) : vscalS s (vscalS t u) = vscalS (s * t) u.
  Proof. cbn [vadd vscal StOps]. st_tac. Qed.
  Lemma st_vscal_zero (t : F) : vscalS t vzeroS = vzeroS.
  Proof. cbn [vzero vscal StOps]. st_tac. Qed.
  Lemma Lst_add u v : Lst (vaddS u v) = vaddS (Lst u) (Lst v).
  Proof. cbn [vadd StOps]. unfold Lst at 1. st_tac. Qed.
  Lemma Lst_scal t u : Lst (vscalS t u) = vscalS t (Lst u).
  Proof. cbn [vscal StOps]. unfold Lst at 1. st_tac. Qed.
  Lemma Lst_zero : Lst vzeroS = vzeroS.
  Proof. cbn [vzero StOps]. unfold Lst at 1. st_tac. Qed.
  Lemma tau_nz_st : tau <> 0.
  Proof. exact (fmul_eq1_nz tau kr H_time). Qed.

  Notation ScS := (Sc (vo := StOps) Lst c0st).
  Notation TnS := (Tn (vo := StOps) Lst tau).

  (** the change of scale of the state space agrees on the index range with [scale_state] *)
  Lemma ScS_agrees (u : @State F) : agree (cK c) (hR g) (hL g) (ScS u) (Sst u).
  Proof.
    split.
    - intros k a l Hk Ha Hl. unfold Sc. cbn [vadd StOps Lst c0st mk4 s_vort s_div s_temp scale_state].
      unfold cl3, zero3. rewrite (inr3_true k a l Hk Ha Hl). repeat split; ring.
    - intros a l Ha Hl. unfold Sc. cbn [vadd StOps Lst c0st mk4 s_lnps scale_state].
      unfold cl2. rewrite (inr2_true a l Ha Hl). ring.
  Qed.

  (** the executable model as operators on the state space *)
  Variables invt invt' : F -> nat -> @Mat F.
  Definition FxS (u : @State F) : @State F := norm (explicit_terms_full g c grav orog u).
  Definition FxS' (u : @State F) : @State F := norm (explicit_terms_full g' c' grav' orog' u).
  Definition GS (u : @State F) : @State F := norm (implicit_terms_full g c u).
  Definition GS' (u : @State F) : @State F := norm (implicit_terms_full g' c' u).
  Definition GinvS (u : @State F) (eta : F) : @State F := norm (implicit_inverse_full g c eta (invt eta) u).
  Definition GinvS' (u : @State F) (eta : F) : @State F := norm (implicit_inverse_full g' c' eta (invt' eta) u).
  (** np.linalg.inv worked for step size [eta] under the first and [tau * eta] under the second scale *)
  Definition okS (eta : F) : Prop :=
    forall l, (l < hL g)%nat ->
      is_left_inverse nn (implicit_matrix c eta (Deriv.lap_eig (hL g) (hr g) l)) (invt eta l) /\
      is_left_inverse nn (invt' (tau * eta) l) (implicit_matrix c' (tau * eta) (Deriv.lap_eig (hL g') (hr g') l)).

  Lemma st_HF u : FxS' (ScS u) = TnS (FxS u).
  Proof.
    unfold FxS', FxS, Tn, norm. cbn [vscal StOps]. rewrite inv_tau_kr.
    apply mk4_ext; [intros k a l H | intros k a l H | intros k a l H | intros a l H].
    1-3: destruct (inr3_elim k a l H) as (Hk & Ha & Hl);
      destruct (explicit_terms_full_ext g' c' grav' orog' (ScS u) (Sst u) k a l (ScS_agrees u) Hk Ha Hl) as (X1 & X2 & X3 & X4);
      destruct (whole_state_explicit_covariant u k a l Hk Ha Hl) as (A1 & A2 & A3 & A4);
      cbv zeta in *; cbn [Lst mk4 s_vort s_div s_temp]; unfold cl3; rewrite H.
    - rewrite X1, A1. ring.
    - rewrite X2, A2. ring.
    - rewrite X3, A3. ring.
    - destruct (inr2_elim a l H) as (Ha & Hl). cbn [Lst mk4 s_lnps]. unfold cl2. rewrite H.
      rewrite <- (whole_state_lnps_explicit_covariant u a l Ha Hl), !explicit_lnps_is_assembly by assumption.
      now rewrite (diag_ext g' (cK c) (ScS u) (Sst u) (ScS_agrees u)).
  Qed.

  Lemma st_HG u : GS' (ScS u) = TnS (GS u).
  Proof.
    unfold GS', GS, Tn, norm. cbn [vscal StOps]. rewrite inv_tau_kr.
    apply mk4_ext; [intros k a l H | intros k a l H | intros k a l H | intros a l H].
    1-3: destruct (inr3_elim k a l H) as (Hk & Ha & Hl);
      destruct (implicit_terms_full_ext g' c' (ScS u) (Sst u) a l (ScS_agrees u) Ha Hl) as (X2 & X3 & X4);
      destruct (whole_state_implicit_covariant u a l) as (A2 & A3 & A4);
      cbv zeta in *; cbn [Lst mk4 s_vort s_div s_temp]; unfold cl3; rewrite H.
    - cbn [implicit_terms_full s_vort]. unfold zero3. ring.
    - cbn [col_of c_div] in X2. now rewrite (X2 k Hk), (A2 k Hk).
    - cbn [col_of c_temp] in X3. now rewrite (X3 k Hk), (A3 k Hk).
    - destruct (inr2_elim a l H) as (Ha & Hl).
      destruct (implicit_terms_full_ext g' c' (ScS u) (Sst u) a l (ScS_agrees u) Ha Hl) as (_ & _ & X4).
      destruct (whole_state_implicit_covariant u a l) as (_ & _ & A4).
      cbv zeta in *. cbn [Lst mk4 s_lnps]. unfold cl2. rewrite H.
      cbn [col_of c_lnps] in X4. rewrite X4, A4. ring.
  Qed.

  Lemma st_HGinv u eta : okS eta -> GinvS' (ScS u) (tau * eta) = ScS (GinvS u eta).
  Proof.
    intros Hok. unfold GinvS', GinvS, norm. set (Su := ScS u). unfold Sc. cbn [vadd StOps].
    apply mk4_ext; [intros k a l H | intros k a l H | intros k a l H | intros a l H].
    1-3: destruct (inr3_elim k a l H) as (Hk & Ha & Hl); destruct (Hok l Hl) as [Hr Hli];
      destruct (implicit_inverse_full_ext g' c' (tau * eta) (invt' (tau * eta)) Su (Sst u) a l (ScS_agrees u) Ha Hl) as (X2 & X3 & X4);
      destruct (whole_state_inverse_covariant eta (invt eta) (invt' (tau * eta)) u k a l Hr Hli) as ((B2 & B3 & B4) & B1);
      cbv zeta in *; cbn [Lst c0st mk4 s_vort s_div s_temp]; unfold cl3, zero3; rewrite ?H.
    - cbn [implicit_inverse_full s_vort]. subst Su. destruct (ScS_agrees u) as [A _]. rewrite (proj1 (A k a l Hk Ha Hl)).
      cbn [scale_state s_vort]. ring.
    - cbn [col_of c_div] in X2, B2. rewrite (X2 k Hk), (B2 k Hk). cbn [scale_state s_div]. ring.
    - cbn [col_of c_temp] in X3, B3. rewrite (X3 k Hk), (B3 k Hk). cbn [scale_state s_temp]. ring.
    - destruct (inr2_elim a l H) as (Ha & Hl). destruct (Hok l Hl) as [Hr Hli].
      destruct (implicit_inverse_full_ext g' c' (tau * eta) (invt' (tau * eta)) Su (Sst u) a l (ScS_agrees u) Ha Hl) as (_ & _ & X4).
      destruct (whole_state_inverse_covariant eta (invt eta) (invt' (tau * eta)) u 0 a l Hr Hli) as ((_ & _ & B4) & _).
      cbv zeta in *. cbn [Lst c0st mk4 s_lnps]. unfold cl2. rewrite ?H.
      cbn [col_of c_lnps] in X4, B4. rewrite X4, B4. cbn [scale_state s_lnps]. ring.
  Qed.

  Theorem whole_state_step_covariant dt alpha al be ga a_ex a_im b_ex b_im u p q :
    (okS dt -> euler_step (vo := StOps) FxS' GinvS' (tau * dt) (ScS u) = ScS (euler_step (vo := StOps) FxS GinvS dt u)) /\
    (okS (half * dt) ->
       cn_rk2_step (vo := StOps) FxS' GS' GinvS' (tau * dt) (ScS u) = ScS (cn_rk2_step (vo := StOps) FxS GS GinvS dt u)) /\
    (ls_ok okS dt al ->
       ls_step (vo := StOps) FxS' GS' GinvS' (tau * dt) al be ga (ScS u) = ScS (ls_step (vo := StOps) FxS GS GinvS dt al be ga u)) /\
    (imex_ok okS dt 1 a_im ->
       imex_step (vo := StOps) FxS' GS' GinvS' (tau * dt) a_ex a_im b_ex b_im (ScS u)
       = option_map ScS (imex_step (vo := StOps) FxS GS GinvS dt a_ex a_im b_ex b_im u)) /\
    (okS (two * dt * alpha) ->
       leapfrog_step (vo := StOps) FxS' GS' GinvS' (tau * dt) alpha (ScS p, ScS q)
       = (ScS (fst (leapfrog_step (vo := StOps) FxS GS GinvS dt alpha (p, q))),
          ScS (snd (leapfrog_step (vo := StOps) FxS GS GinvS dt alpha (p, q))))).
  Proof.
    apply (steps_covariant (vo := StOps)); try assumption.
    - exact st_vadd_assoc. - exact st_vadd_comm. - exact st_vscal_add. - exact st_vscal_mul. - exact st_vscal_zero.
    - exact Lst_add. - exact Lst_scal. - exact Lst_zero. - exact tau_nz_st.
    - exact st_HF. - exact st_HG. - exact st_HGinv.
  Qed.

  Theorem whole_state_trajectory_covariant (step step' : @State F -> @State F) (fl fl' : list (@State F -> @State F -> @State F)) :
    (forall u, step' (ScS u) = ScS (step u)) ->
    Forall2 (fun f' f => forall u w, f' (ScS u) (ScS w) = ScS (f u w)) fl' fl ->
    forall n u, Nat.iter n (step_with_filters step' fl') (ScS u) = ScS (Nat.iter n (step_with_filters step fl) u).
  Proof. exact (trajectory_covariant (vo := StOps) Lst c0st step step' fl fl'). Qed.
End WholeState.
