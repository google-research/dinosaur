(** Property C12: the hypotheses of the step-covariance theorems (Thm/Scaling.v,
    Section StepCovariance) on the implicit terms and on the resolvent are
    theorems for the implicit column model of the primitive equations
    (Model/Implicit.v): one spectral coefficient with Laplacian eigenvalue
    [lam], state (divergence[K], temperature[K], lnps).

    Change of scale: divergence * kr, temperature * kT, lnps + shift;
    R * kR, T_ref * kT, kappa and sigma unchanged, lam * kl (1/L^2),
    step sizes * tau.  Dimensional consistency of the implicit system is the
    three relations  tau * kr = 1  (time x rate),  kR * kT * kl = kr * kr
    (geopotential / L^2 = rate^2)  and  shift * lam = 0  (the log-pressure
    shift lives in the mean mode, whose eigenvalue is 0).

    The covariance of the implicit terms and of the resolvent is proved on the
    K + K + 1 active entries ([col_eq]), for any two columns related by the
    change of scale there; the whole-state model (Thm/ScalingFull.v) uses it in
    that form.  Leibniz equality of columns (records of functions) is obtained
    with functional extensionality on the clipped representation.

    Section ModalCov is about the explicit terms: the tendencies assembled over
    abstract horizontal operators that are homogeneous in the radius. *)
From Dino Require Import Base.Ops Base.Field Base.Sums Model.Sigma Model.Implicit Model.PrimEq Model.Integrators Model.Scaling
  Thm.Sigma Thm.Implicit Thm.PrimEq Thm.Scaling.
From Coq Require Import FunctionalExtensionality.
Local Open Scope F_scope.

Section ColumnBlocks.
  Context {F : Type} {o : Ops F} {Fc : FieldC o}.
  Add Field FFcb : (field_c : FieldTh o).

  Lemma col_ext (d1 d2 t1 t2 : nat -> F) (l1 l2 : F) :
    (forall k, d1 k = d2 k) -> (forall k, t1 k = t2 k) -> l1 = l2 -> mkCol d1 t1 l1 = mkCol d2 t2 l2.
  Proof.
    intros Hd Ht ->. f_equal; apply functional_extensionality; assumption.
  Qed.

  Lemma clipv_lt K (v : nat -> F) k : (k < K)%nat -> clipv K v k = v k.
  Proof. intros H. unfold clipv. destruct (Nat.ltb_spec k K); [reflexivity|lia]. Qed.
  Lemma clipv_ge K (v : nat -> F) k : (K <= k)%nat -> clipv K v k = 0.
  Proof. intros H. unfold clipv. destruct (Nat.ltb_spec k K); [lia|reflexivity]. Qed.

  Lemma clipK_col_eq K (x : @Col F) : col_eq K (clipK K x) x.
  Proof. repeat split; cbn [clipK c_div c_temp c_lnps]; intros; now apply clipv_lt. Qed.

  Lemma clipK_ext K (x y : @Col F) : col_eq K x y -> clipK K x = clipK K y.
  Proof.
    intros (Hd & Ht & Hl). unfold clipK. apply col_ext; [| |exact Hl];
      intros k; unfold clipv; destruct (Nat.ltb_spec k K); auto.
  Qed.

  Lemma matvec_scaled n (A A' : @Mat F) a k (v v' : nat -> F) i :
    (forall h, (h < n)%nat -> A' i h = a * A i h) -> (forall h, (h < n)%nat -> v' h = k * v h) ->
    matvec n A' v' i = a * k * matvec n A v i.
  Proof.
    intros HA Hv. unfold matvec. rewrite <- sumn_scal_l. apply sumn_ext. intros h Hh.
    rewrite HA, Hv by exact Hh. ring.
  Qed.

  Lemma geo_diff_dense_scaled K R (ls T T' : nat -> F) cR cT j :
    (forall k, (k < K)%nat -> T' k = cT * T k) ->
    geo_diff_dense K (cR * R) ls T' j = cR * cT * geo_diff_dense K R ls T j.
  Proof.
    intros H. rewrite <- geo_diff_dense_homogeneous. unfold geo_diff_dense. apply sumn_ext.
    intros k Hk. unfold scol. now rewrite H.
  Qed.

  (** the matrix H of the temperature equation is linear in T_ref *)
  Lemma temp_weights_homogeneous kT kR (c : @PEcfg F) r s :
    temp_weights (scale_cfg kT kR c) r s = kT * temp_weights c r s.
  Proof.
    unfold temp_weights. cbv zeta. cbn [scale_cfg cK cb cls ckappa cTref].
    unfold roll1_zero, scol. rewrite !fdiv_mul.
    repeat match goal with |- context [if ?b then _ else _] => destruct b end; ring.
  Qed.
End ColumnBlocks.

Section ColumnCov.
  Context {F : Type} {o : Ops F} {Fc : FieldC o}.
  Add Field FFcc : (field_c : FieldTh o).

  Variables (kr kT kR kl tau shift : F).
  Variable c : @PEcfg F.
  Variable lam : F.
  Hypothesis H_time : tau * kr = 1.
  Hypothesis H_geo : kR * kT * kl = kr * kr.
  Hypothesis H_shift : shift * lam = 0.

  Notation K := (cK c).
  Notation c' := (scale_cfg kT kR c).
  Notation lam' := (kl * lam).
  Notation Lc := (col_L K kr kT).
  Notation c0 := (col_shift shift).
  Local Instance vo : VOps F (@Col F) := ColOps.
  Notation Scc := (Sc Lc c0).
  Notation Tnc := (Tn Lc tau).

  Lemma col_vadd_assoc (u v w : @Col F) : vadd u (vadd v w) = vadd (vadd u v) w.
  Proof. destruct u, v, w; cbn. apply col_ext; intros; ring. Qed.
  Lemma col_vadd_comm (u v : @Col F) : vadd u v = vadd v u.
  Proof. destruct u, v; cbn. apply col_ext; intros; ring. Qed.
  Lemma col_vscal_add (a : F) (u v : @Col F) : vscal a (vadd u v) = vadd (vscal a u) (vscal a v).
  Proof. destruct u, v; cbn. apply col_ext; intros; ring. Qed.
  Lemma col_vscal_mul (a b : F) (u : @Col F) : vscal a (vscal b u) = vscal (a * b) u.
  Proof. destruct u; cbn. apply col_ext; intros; ring. Qed.
  Lemma col_vscal_zero (a : F) : vscal a vzero = (vzero : @Col F).
  Proof. cbn. apply col_ext; intros; ring. Qed.
  Lemma col_L_add u v : Lc (vadd u v) = vadd (Lc u) (Lc v).
  Proof.
    destruct u, v; cbn. unfold col_L; cbn. apply col_ext; try reflexivity;
      intros k; unfold clipv, scol; destruct (Nat.ltb k K); ring.
  Qed.
  Lemma col_L_scal a u : Lc (vscal a u) = vscal a (Lc u).
  Proof.
    destruct u; cbn. unfold col_L; cbn. apply col_ext; try reflexivity;
      intros k; unfold clipv, scol; destruct (Nat.ltb k K); ring.
  Qed.
  Lemma col_L_zero : Lc vzero = vzero.
  Proof.
    cbn. unfold col_L; cbn. apply col_ext; try reflexivity;
      intros k; unfold clipv, scol; destruct (Nat.ltb k K); ring.
  Qed.

  Lemma Sc_div u k : (k < K)%nat -> c_div (Scc u) k = kr * c_div u k.
  Proof. intros Hk. unfold Sc, col_L, col_shift; cbn. rewrite clipv_lt by exact Hk. unfold scol. ring. Qed.
  Lemma Sc_temp u k : (k < K)%nat -> c_temp (Scc u) k = kT * c_temp u k.
  Proof. intros Hk. unfold Sc, col_L, col_shift; cbn. rewrite clipv_lt by exact Hk. unfold scol. ring. Qed.
  Lemma Sc_lnps u : c_lnps (Scc u) = c_lnps u + shift.
  Proof. reflexivity. Qed.

  (** it is already clipped, and reads the active entries only *)
  Lemma Sc_clipK u : clipK K (Scc u) = Scc u.
  Proof.
    unfold Sc, col_L, col_shift, clipK; cbn. apply col_ext; try reflexivity;
      intros k; unfold clipv; destruct (Nat.ltb k K); ring.
  Qed.
  Lemma Sc_col_eq u v : col_eq K u v -> col_eq K (Scc u) (Scc v).
  Proof.
    intros (Hd & Ht & Hl). split; [|split]; [intros k Hk; now rewrite !Sc_div, Hd | intros k Hk; now rewrite !Sc_temp, Ht |].
    now rewrite !Sc_lnps, Hl.
  Qed.
  Lemma Sc_ext u v : col_eq K u v -> Scc u = Scc v.
  Proof.
    intros (Hd & Ht & Hl). unfold Sc, col_L, col_shift; cbn. apply col_ext; [| |now rewrite Hl];
      intros k; unfold clipv, scol; destruct (Nat.ltb_spec k K); try reflexivity; now rewrite ?Hd, ?Ht.
  Qed.

  Lemma tau_kr_cancel eta x : tau * eta * (kr * x) = eta * x.
  Proof. transitivity (tau * kr * (eta * x)); [ring | rewrite H_time; ring]. Qed.

  (** the implicit terms of a rescaled column are the rate [kr] times the rescaled terms *)
  Theorem implicit_terms_scaled (x x' : @Col F) :
    col_eq K x' (Scc x) ->
    let G := implicit_terms false c lam x in let G' := implicit_terms false c' lam' x' in
    (forall k, (k < K)%nat -> c_div G' k = kr * (kr * c_div G k)) /\
    (forall k, (k < K)%nat -> c_temp G' k = kr * (kT * c_temp G k)) /\
    c_lnps G' = kr * c_lnps G.
  Proof.
    intros (Hd & Ht & Hl). unfold implicit_terms. cbv zeta. cbn [c_div c_temp c_lnps].
    assert (Hd' : forall h, (h < K)%nat -> c_div x' h = kr * c_div x h) by (intros h Hh; now rewrite Hd, Sc_div).
    repeat split.
    - intros k Hk. unfold geo_diff. cbn [Scaling.scale_cfg cK cR cls cTref].
      rewrite (geo_diff_dense_scaled K (cR c) (cls c) (c_temp x) (c_temp x') kR kT k)
        by (intros j Hj; now rewrite Ht, Sc_temp).
      rewrite Hl, Sc_lnps. unfold scol.
      set (g := geo_diff_dense K (cR c) (cls c) (c_temp x) k).
      transitivity (kR * kT * kl * (- ((g + cR c * cTref c k * c_lnps x) * lam))
                    + shift * lam * (- (kR * cR c * (kT * cTref c k) * kl))); [ring|].
      rewrite H_geo, H_shift. ring.
    - intros k Hk. unfold temp_implicit, temp_implicit_dense. cbn [Scaling.scale_cfg cK].
      rewrite (matvec_scaled K (neg_temp_weights c) _ kT kr (c_div x) (c_div x') k); [ring| |exact Hd'].
      intros h _. unfold neg_temp_weights. rewrite temp_weights_homogeneous. ring.
    - cbn [Scaling.scale_cfg cK cb].
      rewrite (matvec_scaled K (fun _ h => thickness (cb c) h) _ 1 kr (c_div x) (c_div x') 0%nat); [ring| |exact Hd'].
      intros h _. ring.
  Qed.

  Theorem column_implicit_terms_covariant u :
    col_G c' lam' (Scc u) = Tnc (col_G c lam u).
  Proof.
    destruct (implicit_terms_scaled u (Scc u) (col_eq_refl _ _)) as (Gd & Gt & Gl). cbv zeta in Gd, Gt, Gl.
    unfold col_G, Tn, clipK. cbn [c_div c_temp c_lnps vscal vo ColOps col_L Scaling.scale_cfg cK].
    rewrite (fmul_eq1_inv tau kr H_time).
    apply col_ext; [| |exact Gl]; intros k; unfold scol;
      (destruct (Nat.ltb_spec k K) as [Hk|Hk]; [rewrite !(clipv_lt K _ k Hk) | rewrite !(clipv_ge K _ k Hk); ring]).
    - now apply Gd.
    - now apply Gt.
  Qed.

  Variable inv : nat -> @Mat F -> @Mat F.
  Hypothesis feqb_sound : forall x y : F, feqb x y = true -> x = y.
  Hypothesis th0_nz : thickness (cb c) 0%nat <> 0.
  Hypothesis thK_nz : thickness (cb c) (K - 1)%nat <> 0.
  Notation n := (2 * K + 1)%nat.

  (** [inv] inverts the implicit matrix of the first scale at step size [eta]
      (as a right inverse) and the one of the second scale at [tau * eta] (as a
      left inverse) - for square matrices both just say "np.linalg.inv worked" *)
  Definition col_ok (eta : F) : Prop :=
    is_left_inverse n (implicit_matrix c eta lam) (inv n (implicit_matrix c eta lam)) /\
    is_left_inverse n (inv n (implicit_matrix c' (tau * eta) lam')) (implicit_matrix c' (tau * eta) lam').

  (** The first solve is undone by [1 - eta G] (right inverse), the change of
      scale carries [1 - eta G] to [1 - tau eta G'], and the second solve undoes
      that (left inverse).  [inv'] may differ from [inv]: the whole-state model
      reads its inverses from two tables. *)
  Theorem resolvent_scaled inv' eta (y y' : @Col F) :
    is_left_inverse n (implicit_matrix c eta lam) (inv n (implicit_matrix c eta lam)) ->
    is_left_inverse n (inv' n (implicit_matrix c' (tau * eta) lam')) (implicit_matrix c' (tau * eta) lam') ->
    col_eq K y' (Scc y) ->
    col_eq K (inverse_stacked inv' c' (tau * eta) lam' y') (Scc (inverse_stacked inv c eta lam y)).
  Proof.
    intros Hr Hl (Yd & Yt & Yl).
    apply (stacked_resolvent_gen feqb_sound inv' c' (tau * eta) lam' _ y' false Hl th0_nz thK_nz).
    destruct (stacked_right_resolvent inv c eta lam y Hr) as (Wd & Wt & Wl).
    set (z := inverse_stacked inv c eta lam y) in *.
    destruct (implicit_terms_scaled z (Scc z) (col_eq_refl _ _)) as (Gd & Gt & Gl). cbv zeta in Gd, Gt, Gl.
    cbn [col_minus_scaled c_div c_temp c_lnps] in Wd, Wt, Wl.
    repeat split; cbn [col_minus_scaled c_div c_temp c_lnps Scaling.scale_cfg cK].
    - intros k Hk. rewrite (Yd k Hk), (Gd k Hk), !Sc_div, tau_kr_cancel, <- (Wd k Hk) by exact Hk. ring.
    - intros k Hk. rewrite (Yt k Hk), (Gt k Hk), !Sc_temp, tau_kr_cancel, <- (Wt k Hk) by exact Hk. ring.
    - rewrite Yl, Gl, !Sc_lnps, tau_kr_cancel, <- Wl. ring.
  Qed.

  (** the resolvent hypothesis of the step theorems, discharged *)
  Theorem column_resolvent_covariant u eta :
    col_ok eta ->
    col_Ginv inv c' lam' (Scc u) (tau * eta) = Scc (col_Ginv inv c lam u eta).
  Proof.
    intros [Hr Hl]. unfold col_Ginv. cbn [Scaling.scale_cfg cK].
    rewrite (clipK_ext K _ _ (resolvent_scaled inv eta u (Scc u) Hr Hl (col_eq_refl _ _))), Sc_clipK.
    apply Sc_ext, col_eq_sym, clipK_col_eq.
  Qed.

  (** every integrator on the column model: only the explicit terms [Fx] stay
      abstract (they involve the horizontal transforms) *)
  Variables Fx Fx' : @Col F -> @Col F.
  Hypothesis HF : forall u, Fx' (Scc u) = Tnc (Fx u).
  Notation G0 := (col_G c lam).
  Notation G1 := (col_G c' lam').
  Notation Gi0 := (col_Ginv inv c lam).
  Notation Gi1 := (col_Ginv inv c' lam').

  Theorem column_steps_covariant dt alpha al be ga a_ex a_im b_ex b_im u p q :
    (col_ok dt -> euler_step Fx' Gi1 (tau * dt) (Scc u) = Scc (euler_step Fx Gi0 dt u)) /\
    (col_ok (half * dt) -> cn_rk2_step Fx' G1 Gi1 (tau * dt) (Scc u) = Scc (cn_rk2_step Fx G0 Gi0 dt u)) /\
    (ls_ok col_ok dt al -> ls_step Fx' G1 Gi1 (tau * dt) al be ga (Scc u) = Scc (ls_step Fx G0 Gi0 dt al be ga u)) /\
    (imex_ok col_ok dt 1 a_im ->
       imex_step Fx' G1 Gi1 (tau * dt) a_ex a_im b_ex b_im (Scc u)
       = option_map Scc (imex_step Fx G0 Gi0 dt a_ex a_im b_ex b_im u)) /\
    (col_ok (two * dt * alpha) ->
       leapfrog_step Fx' G1 Gi1 (tau * dt) alpha (Scc p, Scc q)
       = (Scc (fst (leapfrog_step Fx G0 Gi0 dt alpha (p, q))), Scc (snd (leapfrog_step Fx G0 Gi0 dt alpha (p, q))))).
  Proof.
    apply steps_covariant; try assumption.
    - exact col_vadd_assoc. - exact col_vadd_comm. - exact col_vscal_add. - exact col_vscal_mul. - exact col_vscal_zero.
    - exact col_L_add. - exact col_L_scal. - exact col_L_zero. - exact (fmul_eq1_nz tau kr H_time).
    - exact column_implicit_terms_covariant. - exact column_resolvent_covariant.
  Qed.
End ColumnCov.

(** Explicit and implicit tendencies assembled over abstract horizontal
    operators (Model/PrimEq.v, Section ModalAssembly), all four classes.
    The horizontal operators of the second scale live on a sphere whose
    non-dimensional radius differs: div', curl' = kg * div, curl and
    lap' = kg^2 * lap; to_modal and clip do not depend on the radius.  Only
    homogeneity / extensionality of the operators is assumed (they are linear
    maps in the code), plus "lap kills the constant mode" for the log-pressure
    shift.  This discharges the hypothesis [HF] of the step theorems up to
    these operator laws. *)

(** the abstract horizontal operators of the modal assembly: analysis, divergence, curl, Laplacian and clip under the
    first scale, and the three that see the radius under the second *)
Record ModalOps {F : Type} (W P : Type) : Type := mkModalOps {
  mo_toM : (P -> F) -> W -> F;
  mo_divc : (W -> F) -> (W -> F) -> W -> F;
  mo_curlc : (W -> F) -> (W -> F) -> W -> F;
  mo_lap : (W -> F) -> W -> F;
  mo_clip : (W -> F) -> W -> F;
  mo_divc' : (W -> F) -> (W -> F) -> W -> F;
  mo_curlc' : (W -> F) -> (W -> F) -> W -> F;
  mo_lap' : (W -> F) -> W -> F }.
Arguments mkModalOps {F} W P.
Arguments mo_toM {F W P}. Arguments mo_divc {F W P}. Arguments mo_curlc {F W P}. Arguments mo_lap {F W P}.
Arguments mo_clip {F W P}. Arguments mo_divc' {F W P}. Arguments mo_curlc' {F W P}. Arguments mo_lap' {F W P}.

Section ModalLaws.
  Context {F : Type} {o : Ops F} {Fc : FieldC o}.
  Add Field FFml : (field_c : FieldTh o).

  (** homogeneous of degree one and extensional: what the covariance of the tendencies asks of an operator
      (additivity is not needed) *)
  Record homog1 {A B : Type} (T : (A -> F) -> B -> F) : Prop := mkHomog1 {
    h1_scal : forall k a w, T (fun v => k * a v) w = k * T a w;
    h1_ext : forall a a', (forall v, a v = a' v) -> forall w, T a w = T a' w }.
  Record homog2 {A B : Type} (D : (A -> F) -> (A -> F) -> B -> F) : Prop := mkHomog2 {
    h2_scal : forall k a b w, D (fun v => k * a v) (fun v => k * b v) w = k * D a b w;
    h2_ext : forall a a' b b', (forall v, a v = a' v) -> (forall v, b v = b' v) -> forall w, D a b w = D a' b' w }.

  Lemma homog1_scaled {A B} (T : (A -> F) -> B -> F) (HT : homog1 T) k (a a' : A -> F) w :
    (forall v, a' v = k * a v) -> T a' w = k * T a w.
  Proof. intros H. rewrite (h1_ext T HT a' _ H). apply (h1_scal T HT). Qed.
  Lemma homog2_scaled {A B} (D : (A -> F) -> (A -> F) -> B -> F) (HD : homog2 D) k (a a' b b' : A -> F) w :
    (forall v, a' v = k * a v) -> (forall v, b' v = k * b v) -> D a' b' w = k * D a b w.
  Proof. intros Ha Hb. rewrite (h2_ext D HD a' _ b' _ Ha Hb). apply (h2_scal D HD). Qed.

  Lemma lin_homog1 {A B} (T : (A -> F) -> B -> F) : linear T -> homog1 T.
  Proof. intros HT. split; [intros k a w; now apply (lin_scal T HT)|apply (lin_ext T HT)]. Qed.
  Lemma lin2_homog2 {A B} (D : (A -> F) -> (A -> F) -> B -> F) : linear2 D -> homog2 D.
  Proof. intros HD. split; [intros k a b w; now apply lin2_scal|exact (proj1 HD)]. Qed.

  (** the second-scale operators are the first-scale ones times [kg] per derivative *)
  Record ModalLaws {W P : Type} (kg : F) (O : @ModalOps F W P) : Prop := mkModalLaws {
    ml_toM : homog1 (mo_toM O);
    ml_divc : homog2 (mo_divc O);
    ml_curlc : homog2 (mo_curlc O);
    ml_lap : homog1 (mo_lap O);
    ml_clip : homog1 (mo_clip O);
    ml_divc' : forall a b w, mo_divc' O a b w = kg * mo_divc O a b w;
    ml_curlc' : forall a b w, mo_curlc' O a b w = kg * mo_curlc O a b w;
    ml_lap' : forall a w, mo_lap' O a w = kg * kg * mo_lap O a w }.
End ModalLaws.

Section ModalCov.
  Context {F : Type} {o : Ops F} {Fc : FieldC o}.
  Add Field FFmc : (field_c : FieldTh o).
  Variables (ku kr kT kg kR : F).
  Hypothesis H_rate : ku * kg = kr.
  Hypothesis H_accel : kR * kT * kg = ku * kr.
  Hypothesis feqb_iff : forall a b : F, feqb a b = true <-> a = b.
  Hypothesis kT_nz : kT <> 0.
  Hypothesis kR_nz : kR <> 0.

  Variables W P : Type.
  Variable O : @ModalOps F W P.
  Hypothesis OL : ModalLaws kg O.
  Notation toM := (mo_toM O).
  Notation divc := (mo_divc O).
  Notation curlc := (mo_curlc O).
  Notation lap := (mo_lap O).
  Notation clip := (mo_clip O).
  Notation divc' := (mo_divc' O).
  Notation curlc' := (mo_curlc' O).
  Notation lap' := (mo_lap' O).

  Variable c : @PEcfg F.
  Hypothesis R_nz : cR c <> 0.
  Notation c' := (scale_cfg kT kR c).
  Variable X : P -> @NCol F.
  Notation X' := (fun p => scale_ncol ku kr kT kg (X p)).

  Lemma toM_scaled k (f f' : P -> F) w : (forall p, f' p = k * f p) -> toM f' w = k * toM f w.
  Proof. apply (homog1_scaled _ (ml_toM _ _ OL)). Qed.
  Lemma divc'_scaled k (a a' b b' : W -> F) w :
    (forall v, a' v = k * a v) -> (forall v, b' v = k * b v) -> divc' a' b' w = kg * k * divc a b w.
  Proof. intros Ha Hb. rewrite (ml_divc' _ _ OL), (homog2_scaled _ (ml_divc _ _ OL) k a a' b b' w Ha Hb). ring. Qed.
  Lemma curlc'_scaled k (a a' b b' : W -> F) w :
    (forall v, a' v = k * a v) -> (forall v, b' v = k * b v) -> curlc' a' b' w = kg * k * curlc a b w.
  Proof. intros Ha Hb. rewrite (ml_curlc' _ _ OL), (homog2_scaled _ (ml_curlc _ _ OL) k a a' b b' w Ha Hb). ring. Qed.
  Lemma lap'_scaled k (a a' : W -> F) w : (forall v, a' v = k * a v) -> lap' a' w = kg * kg * k * lap a w.
  Proof. intros Ha. rewrite (ml_lap' _ _ OL), (homog1_scaled _ (ml_lap _ _ OL) k a a' w Ha). ring. Qed.
  Lemma clip_scaled k (a a' : W -> F) w : (forall v, a' v = k * a v) -> clip a' w = k * clip a w.
  Proof. apply (homog1_scaled _ (ml_clip _ _ OL)). Qed.

  (** temperature, dry: Theta / T *)
  Theorem temp_tendency_explicit_covariant r w :
    temp_tendency_explicit W P toM divc' clip c' X' r w = kT * kr * temp_tendency_explicit W P toM divc clip c X r w.
  Proof.
    unfold temp_tendency_explicit. apply clip_scaled. intros v.
    rewrite (toM_scaled (kT * kr) (fun p => temp_nodal_total c true (X p) r)).
    2:{ intros p. now apply temp_nodal_total_homogeneous. }
    rewrite (divc'_scaled (ku * kT) (toM (fun p => hsa_mu (X p) (n_temp (X p)) r)) _ (toM (fun p => hsa_mv (X p) (n_temp (X p)) r))).
    2: intros v'; apply toM_scaled; intros p; apply hsa_mu_homogeneous.
    2: intros v'; apply toM_scaled; intros p; apply hsa_mv_homogeneous.
    rewrite <- H_rate. ring.
  Qed.

  (** divergence (any [rt] of dimension L^2/T^2, orography in L, g in L/T^2, humidity correction in 1/T^2): 1 / T^2 *)
  Theorem div_tendency_explicit_covariant (rt rt' : P -> nat -> F) (orog orog' hum hum' : W -> F) (grav kL : F) r w :
    kL * kg = 1 ->
    (forall p j, rt' p j = kR * kT * rt p j) -> (forall v, orog' v = kL * orog v) -> (forall v, hum' v = kr * kr * hum v) ->
    div_tendency_explicit W P toM divc' lap' clip c' (ku * kr * grav) X' rt' orog' hum' r w
      = kr * kr * div_tendency_explicit W P toM divc lap clip c grav X rt orog hum r w.
  Proof.
    intros HL Hrt Horo Hhum. unfold div_tendency_explicit. apply clip_scaled. intros v.
    rewrite (divc'_scaled (ku * kr) (toM (fun p => combined_u c true (X p) (rt p) r)) _ (toM (fun p => combined_v c true (X p) (rt p) r))).
    2: intros v'; apply toM_scaled; intros p; now apply combined_uv_scal.
    2: intros v'; apply toM_scaled; intros p; now apply combined_uv_scal.
    rewrite (lap'_scaled (ku * ku) (toM (fun p => kinetic (X p) r))).
    2:{ intros v'; apply toM_scaled; intros p. apply kinetic_homogeneous. }
    rewrite (lap'_scaled kL orog orog' v Horo), Hhum.
    transitivity ((ku * kg) * kr * (- divc (toM (fun p => combined_u c true (X p) (rt p) r)) (toM (fun p => combined_v c true (X p) (rt p) r)) v)
                  + (ku * kg) * (ku * kg) * (- lap (toM (fun p => kinetic (X p) r)) v)
                  + (ku * kg) * kr * (kL * kg) * (- grav * lap orog v) + kr * kr * hum v); [ring|].
    rewrite H_rate, HL. ring.
  Qed.

  (** vorticity: 1 / T^2 *)
  Theorem vort_tendency_explicit_covariant (rt rt' : P -> nat -> F) (hum hum' : W -> F) r w :
    (forall p j, rt' p j = kR * kT * rt p j) -> (forall v, hum' v = kr * kr * hum v) ->
    vort_tendency_explicit W P toM curlc' clip c' X' rt' hum' r w
      = kr * kr * vort_tendency_explicit W P toM curlc clip c X rt hum r w.
  Proof.
    intros Hrt Hhum. unfold vort_tendency_explicit. apply clip_scaled. intros v.
    rewrite (curlc'_scaled (ku * kr) (toM (fun p => combined_u c true (X p) (rt p) r)) _ (toM (fun p => combined_v c true (X p) (rt p) r))).
    2: intros v'; apply toM_scaled; intros p; now apply combined_uv_scal.
    2: intros v'; apply toM_scaled; intros p; now apply combined_uv_scal.
    rewrite Hhum. rewrite <- H_rate. ring.
  Qed.

  Variable m : @Moist F.
  Notation m' := (scale_moist kR m).
  Hypothesis kappa_nz : ckappa c <> 0.

  Theorem temp_tendency_explicit_moist_covariant (q : P -> nat -> F) r w :
    temp_tendency_explicit_moist W P toM divc' clip c' m' X' q r w
      = kT * kr * temp_tendency_explicit_moist W P toM divc clip c m X q r w.
  Proof.
    unfold temp_tendency_explicit_moist. apply clip_scaled. intros v.
    rewrite (toM_scaled (kT * kr) (fun p => temp_nodal_total_moist c true m (X p) (q p) r)).
    2:{ intros p. now apply temp_nodal_total_moist_homogeneous. }
    rewrite (divc'_scaled (ku * kT) (toM (fun p => hsa_mu (X p) (n_temp (X p)) r)) _ (toM (fun p => hsa_mv (X p) (n_temp (X p)) r))).
    2: intros v'; apply toM_scaled; intros p; apply hsa_mu_homogeneous.
    2: intros v'; apply toM_scaled; intros p; apply hsa_mv_homogeneous.
    rewrite <- H_rate. ring.
  Qed.

  (** divergence_tendency_due_to_humidity and vorticity_tendency_due_to_humidity: 1 / T^2 *)
  Theorem humidity_modal_covariant (q gqx gqy : P -> nat -> F) (lapn : P -> F) r w :
    (r < cK c)%nat ->
    humidity_div_modal W P toM lap' c' m' X' q (fun p => scol kg (gqx p)) (fun p => scol kg (gqy p)) (fun p => kg * kg * lapn p) r w
      = kr * kr * humidity_div_modal W P toM lap c m X q gqx gqy lapn r w /\
    humidity_curl_modal W P toM c' m' X' (fun p => scol kg (gqx p)) (fun p => scol kg (gqy p)) r w
      = kr * kr * humidity_curl_modal W P toM c m X gqx gqy r w.
  Proof.
    intros Hr.
    assert (E : kT * kR * (kg * kg) = kr * kr).
    { transitivity (kR * kT * kg * kg); [ring|]. rewrite H_accel, <- H_rate. ring. }
    assert (E2 : kg * kg * (kR * kT) = kr * kr) by (rewrite <- E; ring).
    split.
    - unfold humidity_div_modal.
      rewrite (lap'_scaled (kR * kT) (toM (fun p => humidity_geo_nodal c false m (X p) (q p) r))).
      2:{ intros v; apply toM_scaled; intros p. now apply humidity_geo_nodal_homogeneous. }
      rewrite (toM_scaled (kT * kR * (kg * kg)) (fun p => humidity_div_nodal c m (X p) (q p) (gqx p) (gqy p) (lapn p) r)).
      2:{ intros p. apply humidity_div_nodal_homogeneous. }
      rewrite E, E2. ring.
    - unfold humidity_curl_modal.
      rewrite (toM_scaled (kT * kR * (kg * kg)) (fun p => humidity_curl_nodal c m (X p) (gqx p) (gqy p) r)).
      2:{ intros p. apply humidity_curl_nodal_homogeneous. }
      now rewrite E.
  Qed.

  (** implicit terms at the modal layer: Theta / T and 1 / T^2; the log-pressure
      shift [shift * e] ([e] = the constant mode) is annihilated by the Laplacian *)
  Hypothesis lap_add : forall a b w, lap (fun v => a v + b v) w = lap a w + lap b w.

  Theorem implicit_tendencies_covariant (dv dv' Tm Tm' : nat -> W -> F) (lnps lnps' e : W -> F) shift r w :
    (forall k v, dv' k v = kr * dv k v) -> (forall k v, Tm' k v = kT * Tm k v) ->
    (forall v, lnps' v = lnps v + shift * e v) -> (forall v, lap e v = 0) ->
    temp_tendency_implicit W c' dv' r w = kT * kr * temp_tendency_implicit W c dv r w /\
    div_tendency_implicit W lap' c' Tm' lnps' r w = kr * kr * div_tendency_implicit W lap c Tm lnps r w.
  Proof.
    intros Hdv HTm Hl He. split.
    - unfold temp_tendency_implicit, temp_implicit_col, temp_implicit_dense. cbn [Scaling.scale_cfg cK].
      apply matvec_scaled; intros h _; [|apply Hdv].
      unfold neg_temp_weights. rewrite temp_weights_homogeneous. ring.
    - unfold div_tendency_implicit.
      assert (E : kg * kg * (kR * kT) = kr * kr).
      { transitivity (kR * kT * kg * kg); [ring|]. rewrite H_accel, <- H_rate. ring. }
      set (pot := fun v => div_implicit_potential c false (fun k => Tm k v) (lnps v) r).
      rewrite (ml_lap' _ _ OL).
      rewrite (h1_ext lap (ml_lap _ _ OL) _ (fun v => kR * kT * pot v + (kR * cR c * (kT * cTref c r) * shift) * e v)).
      2:{ intros v. unfold pot, div_implicit_potential, geo_diff. cbn [Scaling.scale_cfg cK cR cls cTref]. unfold scol.
          rewrite (geo_diff_dense_scaled _ _ _ (fun k => Tm k v) _ kR kT r) by (intros k _; apply HTm). rewrite Hl. ring. }
      rewrite lap_add, !(h1_scal lap (ml_lap _ _ OL)), He. fold pot. rewrite <- E. ring.
  Qed.
End ModalCov.
