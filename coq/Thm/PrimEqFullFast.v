(** C09, "hence the same model tendencies": the whole-state primitive-equation model on the
    FAST layout (Model/PrimEqFullFast.v) computes, on every in-range coefficient, the
    re-indexed result of the whole-state model on the reference layout (Model/PrimEqFull.v).
    (0) [RealInstance]: the operator-parametric composition at [real_ops g] IS Model/PrimEqFull.v;
    (1) [OpsRel]: per-operator equivalences under the re-indexing phi:
        d_dlon, D1, D2, cos_lat_grad, div_cos_lat, curl_cos_lat, laplacian,
        inverse_laplacian, clip, get_cos_lat_vector  (fast = true, padded  vs  fast = false);
    (2) [Transfer]: any two operator records related by (1) + the transform equivalences give
        related diagnostic states, explicit / implicit tendencies and implicit inverses;
    (3) [Final], the instance: reference grid [g] vs fast grid under [tables_related] (Thm/SHTFast.v)
        and [dtables_related] (the derivative recurrence weights re-indexed; the fast [a] is zero
        in the padded columns);
    (4) [StepHom]: every integrator of Model/Integrators.v commutes with a homomorphism of the
        vector operations that intertwines the three operators;
    (5) [WholeStateSteps]: the embedding E of whole states is one, hence the same trajectories.
    The nodal column algebra is layout independent: the nodal columns of the two diagnostic
    states are EQUAL at every resolved node (functional extensionality over the level index). *)
From Dino Require Import Model.Integrators.
From Dino Require Import Base.Ops Base.Sums Base.Ord Model.Sigma Model.Implicit Model.PrimEq Model.SHT Model.SHTFast
     Model.Deriv Model.PrimEqFull Model.PrimEqFullFast Gen.DerivExprs Thm.SHT Thm.SHTFast Thm.Deriv Thm.PrimEqFull.
(* Zify is imported again to put its switches back to their defaults.  ZifyNat, which Thm/Deriv.v loads for
   its parity arguments, makes every later [lia] eliminate div and mod; no goal here needs that, and with it
   [lia] works through the whole context, so that a section lemma comes to depend on every section hypothesis. *)
From Coq Require Import FunctionalExtensionality Zify.
Local Open Scope F_scope.

Section RealInstance.
  Context {F : Type} {o : Ops F}.
  Variable g : @HGrid F.
  Lemma diagnostic_state_o_real K s : diagnostic_state_o (real_ops g) K s = diagnostic_state g K s.
  Proof. reflexivity. Qed.
  Lemma explicit_terms_of_diag_o_real c grav orog d :
    explicit_terms_of_diag_o (real_ops g) c grav orog d = explicit_terms_of_diag g c grav orog d.
  Proof. reflexivity. Qed.
  Lemma explicit_terms_full_o_real c grav orog s :
    explicit_terms_full_o (real_ops g) c grav orog s = explicit_terms_full g c grav orog s.
  Proof. reflexivity. Qed.
  Lemma implicit_terms_full_o_real c s : implicit_terms_full_o (real_ops g) c s = implicit_terms_full g c s.
  Proof. reflexivity. Qed.
  Lemma implicit_inverse_full_o_real c eta invt s :
    implicit_inverse_full_o (real_ops g) c eta invt s = implicit_inverse_full g c eta invt s.
  Proof. reflexivity. Qed.
End RealInstance.

Section OpsRel.
  Context {F : Type} {o : Ops F} {Fc : FieldC o}.
  Add Field FFpff : (field_c : FieldTh o).
  Variables (M L Mh Lf : nat).
  Hypothesis HM : (1 <= M)%nat.
  Hypothesis HMh : (M <= Mh)%nat.
  Hypothesis HLf : (L <= Lf)%nat.

  (** a fast modal array represents a reference modal array: equal on every in-range
      coefficient (whatever sits in the extra row / in the padding) *)
  Definition mrel (y x : nat -> nat -> F) : Prop :=
    forall a l, (a < 2 * M - 1)%nat -> (l < L)%nat -> y (phi a) l = x a l.

  Lemma mrel_embed x : mrel (embed M L x) x.
  Proof. intros a l Ha Hl. now apply embed_phi. Qed.

  Lemma dlon_rel y x : mrel y x -> mrel (d_dlon true (2 * Mh) y) (d_dlon false (2 * M - 1) x).
  Proof.
    intros H a l Ha Hl. pose proof (phi_lt a M Ha) as Hp.
    rewrite !d_dlon_unfold by lia.
    unfold jmul, dcond, dfast_j, dref_j, dfast_cond, dref_cond.
    destruct a as [|a'].
    - cbn [phi]. change (0 + 0 / 2)%nat with 0%nat. change ((0 + 1) / 2)%nat with 0%nat. cbn [lit]. ring.
    - cbn [phi]. replace (0 + S (S a') / 2)%nat with ((S a' + 1) / 2)%nat by lia. f_equal.
      replace ((S (S a') + 1) mod 2)%nat with (S a' mod 2)%nat
        by (replace (S (S a') + 1)%nat with (S a' + 1 * 2)%nat by lia; now rewrite Nat.mod_add).
      pose proof (Nat.div_mod (S a') 2 ltac:(lia)) as D. pose proof (Nat.mod_upper_bound (S a') 2 ltac:(lia)) as U.
      destruct (Nat.eqb_spec (S a' mod 2) 0) as [E|E]; cbn [negb].
      + f_equal.
        cbn [Nat.eqb].
        replace (S (S a') - 1)%nat with (phi a') by (destruct a'; [discriminate E|cbn [phi]; lia]).
        replace (S a' - 1)%nat with a' by lia. apply H; lia.
      + rewrite !ltb_true by lia.
        change (S (S (S a'))) with (phi (S (S a'))). apply H; lia.
  Qed.

  (** tridiagonal latitude operators: the fast weights are the re-indexed reference weights,
      and the fast "minus" weight vanishes in the padded columns *)
  Lemma tri_rel (wmf wpf wmr wpr : nat -> nat -> F) y x a l :
    mrel y x -> (a < 2 * M - 1)%nat -> (l < L)%nat ->
    (forall l', (l' < L)%nat -> wmf (phi a) l' = wmr a l') ->
    (forall l', (L <= l')%nat -> (l' < Lf)%nat -> wmf (phi a) l' = 0) ->
    (forall l', (S l' < L)%nat -> wpf (phi a) l' = wpr a l') ->
    tri Lf wmf wpf y (phi a) l = tri L wmr wpr x a l.
  Proof.
    intros H Ha Hl Hm Hm0 Hp. unfold tri. f_equal.
    - destruct (Nat.ltb_spec (S l) L) as [H1|H1].
      + rewrite (ltb_true (S l) Lf) by lia.
        rewrite Hm, H by assumption. reflexivity.
      + destruct (Nat.ltb_spec (S l) Lf) as [H2|H2]; [|reflexivity].
        rewrite Hm0 by lia. ring.
    - destruct (Nat.eqb_spec l 0) as [E|E]; [reflexivity|].
      rewrite Hp, H by lia. reflexivity.
  Qed.

  Variables (af bf ar br : nat -> nat -> F).
  (** the derivative recurrence weights of the two layouts (exact table obligation) *)
  Record dtables_related : Prop := {
    dt_a_in : forall a l, (a < 2 * M - 1)%nat -> (l < L)%nat -> af (phi a) l = ar a l;
    dt_a_out : forall a l, (a < 2 * M - 1)%nat -> (L <= l)%nat -> (l < Lf)%nat -> af (phi a) l = 0;
    dt_b_in : forall a l, (a < 2 * M - 1)%nat -> (S l < L)%nat -> bf (phi a) l = br a l }.
  Hypothesis DT : dtables_related.

  Lemma tri_rel_tables (cm cp : nat -> F) y x : mrel y x ->
    mrel (tri Lf (fun i l => cm l * af i l) (fun i l => cp l * bf i l) y)
         (tri L (fun i l => cm l * ar i l) (fun i l => cp l * br i l) x).
  Proof.
    intros H a l Ha Hl. apply tri_rel; try assumption.
    - intros l' Hl'. now rewrite (dt_a_in DT a l' Ha Hl').
    - intros l' H1 H2. rewrite (dt_a_out DT a l' Ha H1 H2). ring.
    - intros l' Hl'. now rewrite (dt_b_in DT a l' Ha Hl').
  Qed.

  Lemma D1_rel y x : mrel y x -> mrel (D1 L Lf af bf y) (D1 L L ar br x).
  Proof.
    intros H a l Ha Hl. rewrite !D1_entries by lia.
    exact (tri_rel_tables (fun l => lit (laxis L l) + 1) (fun l => - lit (laxis L l)) y x H a l Ha Hl).
  Qed.
  Lemma D2_rel y x : mrel y x -> mrel (D2 L Lf af bf y) (D2 L L ar br x).
  Proof.
    intros H a l Ha Hl. rewrite !D2_entries by lia.
    exact (tri_rel_tables (fun l => lit (laxis L l) - 1) (fun l => - (lit (laxis L l) + (1 + 1))) y x H a l Ha Hl).
  Qed.

  (** pointwise operators (functions of the total wavenumber only) *)
  Lemma laplacian_rel r y x : mrel y x -> mrel (Deriv.laplacian L r y) (Deriv.laplacian L r x).
  Proof. intros H a l Ha Hl. unfold Deriv.laplacian. now rewrite H. Qed.
  Lemma inverse_laplacian_rel r y x : mrel y x -> mrel (Deriv.inverse_laplacian L r y) (Deriv.inverse_laplacian L r x).
  Proof. intros H a l Ha Hl. unfold Deriv.inverse_laplacian. now rewrite H. Qed.
  Lemma clip_rel y x : mrel y x -> mrel (Deriv.clip L Lf 1 y) (Deriv.clip L L 1 x).
  Proof.
    intros H a l Ha Hl. unfold Deriv.clip. rewrite H by assumption.
    replace (Lf - (1 + (Lf - L)))%nat with (L - (1 + (L - L)))%nat by lia. reflexivity.
  Qed.

  Variable r : F.
  Local Notation R := (2 * Mh)%nat.
  Local Notation K := (2 * M - 1)%nat.

  Lemma grad_rel y x : mrel y x ->
    mrel (fst (cos_lat_grad true L R Lf r af bf false y)) (fst (cos_lat_grad false L K L r ar br false x)) /\
    mrel (snd (cos_lat_grad true L R Lf r af bf false y)) (snd (cos_lat_grad false L K L r ar br false x)).
  Proof.
    intros H. unfold cos_lat_grad, clip_if. cbn [fst snd]. split; intros a l Ha Hl.
    - now rewrite (dlon_rel y x H a l Ha Hl).
    - now rewrite (D1_rel y x H a l Ha Hl).
  Qed.

  Lemma div_rel y1 y2 x1 x2 : mrel y1 x1 -> mrel y2 x2 ->
    mrel (div_cos_lat true L R Lf r af bf false (y1, y2)) (div_cos_lat false L K L r ar br false (x1, x2)).
  Proof.
    intros H1 H2 a l Ha Hl. unfold div_cos_lat, clip_if. cbn [fst snd].
    now rewrite (dlon_rel y1 x1 H1 a l Ha Hl), (D2_rel y2 x2 H2 a l Ha Hl).
  Qed.
  Lemma curl_rel y1 y2 x1 x2 : mrel y1 x1 -> mrel y2 x2 ->
    mrel (curl_cos_lat true L R Lf r af bf false (y1, y2)) (curl_cos_lat false L K L r ar br false (x1, x2)).
  Proof.
    intros H1 H2 a l Ha Hl. unfold curl_cos_lat, clip_if. cbn [fst snd].
    now rewrite (dlon_rel y2 x2 H2 a l Ha Hl), (D2_rel y1 x1 H1 a l Ha Hl).
  Qed.

  Lemma uv_rel vf df v d : mrel vf v -> mrel df d ->
    mrel (fst (get_cos_lat_vector true L R Lf r af bf false vf df)) (fst (get_cos_lat_vector false L K L r ar br false v d)) /\
    mrel (snd (get_cos_lat_vector true L R Lf r af bf false vf df)) (snd (get_cos_lat_vector false L K L r ar br false v d)).
  Proof.
    intros Hv Hd. unfold get_cos_lat_vector. cbv zeta.
    destruct (grad_rel _ _ (inverse_laplacian_rel r _ _ Hd)) as [G1 G2].
    destruct (grad_rel _ _ (inverse_laplacian_rel r _ _ Hv)) as [S1 S2].
    unfold k_cross. cbn [fst snd] in *. split; intros a l Ha Hl.
    - now rewrite (G1 a l Ha Hl), (S2 a l Ha Hl).
    - now rewrite (G2 a l Ha Hl), (S1 a l Ha Hl).
  Qed.
End OpsRel.

Section Transfer.
  Context {F : Type} {o : Ops F} {Fc : FieldC o}.
  Add Field FFpft : (field_c : FieldTh o).
  Variables (A B : @HOps F) (M L I J : nat).
  Local Notation K := (2 * M - 1)%nat.
  Local Notation mrel := (mrel M L).
  Definition nrel (zf z : nat -> nat -> F) : Prop := forall i j, (i < I)%nat -> (j < J)%nat -> zf i j = z i j.

  Hypothesis HM : (1 <= M)%nat.
  Hypothesis HA_R : oR A = K.
  Hypothesis HA_C : oC A = L.
  Hypothesis HA_I : oI A = I.
  Hypothesis HA_J : oJ A = J.
  Hypothesis HB_R : (2 * M <= oR B)%nat.
  Hypothesis HB_C : (L <= oC B)%nat.
  Hypothesis HB_I : (I <= oI B)%nat.
  Hypothesis HB_J : (J <= oJ B)%nat.
  Hypothesis H_tn : forall y x, mrel y x -> nrel (o_tn B y) (o_tn A x).
  Hypothesis H_tm : forall zf z, nrel zf z -> mrel (o_tm B zf) (o_tm A z).
  Hypothesis H_grad : forall y x, mrel y x ->
    mrel (fst (o_grad B y)) (fst (o_grad A x)) /\ mrel (snd (o_grad B y)) (snd (o_grad A x)).
  Hypothesis H_uv : forall vf df v d, mrel vf v -> mrel df d ->
    mrel (fst (o_uv B vf df)) (fst (o_uv A v d)) /\ mrel (snd (o_uv B vf df)) (snd (o_uv A v d)).
  Hypothesis H_div : forall y1 y2 x1 x2, mrel y1 x1 -> mrel y2 x2 -> mrel (o_div B y1 y2) (o_div A x1 x2).
  Hypothesis H_curl : forall y1 y2 x1 x2, mrel y1 x1 -> mrel y2 x2 -> mrel (o_curl B y1 y2) (o_curl A x1 x2).
  Hypothesis H_lap : forall y x, mrel y x -> mrel (o_lap B y) (o_lap A x).
  Hypothesis H_clip : forall y x, mrel y x -> mrel (o_clip B y) (o_clip A x).
  Hypothesis H_sec2 : forall j, (j < J)%nat -> o_sec2 B j = o_sec2 A j.
  Hypothesis H_cor : forall j, (j < J)%nat -> o_cor B j = o_cor A j.
  Hypothesis H_eig : forall l, (l < L)%nat -> o_eig B l = o_eig A l.

  (** a fast state represents a reference state (all levels; tracers position by position) *)
  Definition trel (tf t : list (nat -> nat -> nat -> F)) : Prop :=
    length tf = length t /\
    forall n k, (n < length t)%nat -> mrel (nth n tf zero3 k) (nth n t zero3 k).
  Definition srel (sf s : @State F) : Prop :=
    (forall k, mrel (s_vort sf k) (s_vort s k)) /\ (forall k, mrel (s_div sf k) (s_div s k)) /\
    (forall k, mrel (s_temp sf k) (s_temp s k)) /\ mrel (s_lnps sf) (s_lnps s) /\ trel (s_tr sf) (s_tr s).
  Definition ntrel (tf t : list (nat -> nat -> nat -> F)) : Prop :=
    length tf = length t /\
    forall n k, (n < length t)%nat -> nrel (nth n tf zero3 k) (nth n t zero3 k).
  Definition drel (df d : @Diag F) : Prop :=
    (forall k, nrel (d_vort df k) (d_vort d k)) /\ (forall k, nrel (d_div df k) (d_div d k)) /\
    (forall k, nrel (d_temp df k) (d_temp d k)) /\ (forall k, nrel (d_u df k) (d_u d k)) /\
    (forall k, nrel (d_v df k) (d_v d k)) /\ nrel (d_gx df) (d_gx d) /\ nrel (d_gy df) (d_gy d) /\
    ntrel (d_tr df) (d_tr d).

  Lemma to_nodal3_rel Kc yf y : (forall k, mrel (yf k) (y k)) ->
    forall k, nrel (to_nodal3_o B Kc yf k) (to_nodal3_o A Kc y k).
  Proof.
    intros H k i j Hi Hj. unfold to_nodal3_o.
    destruct (Nat.lt_ge_cases k Kc) as [Hk|Hk].
    - rewrite !memo3_ok by lia. now apply H_tn.
    - now rewrite !memo3_out_k by assumption.
  Qed.

  Lemma nth_map_zero3 (h : (nat -> nat -> nat -> F) -> nat -> nat -> nat -> F) t n :
    (n < length t)%nat -> nth n (map h t) zero3 = h (nth n t zero3).
  Proof. intros Hn. rewrite (nth_indep _ zero3 (h zero3)) by (now rewrite map_length). apply map_nth. Qed.

  Theorem diagnostic_state_rel Kc sf s : srel sf s ->
    drel (diagnostic_state_o B Kc sf) (diagnostic_state_o A Kc s).
  Proof.
    intros (Hv & Hd & Ht & Hp & Hl & Htr). unfold diagnostic_state_o. cbv zeta.
    destruct (H_grad _ _ Hp) as [G1 G2].
    repeat split; cbn [d_vort d_div d_temp d_u d_v d_gx d_gy d_tr].
    - now apply to_nodal3_rel.
    - now apply to_nodal3_rel.
    - now apply to_nodal3_rel.
    - apply to_nodal3_rel. intros k. exact (proj1 (H_uv _ _ _ _ (Hv k) (Hd k))).
    - apply to_nodal3_rel. intros k. exact (proj2 (H_uv _ _ _ _ (Hv k) (Hd k))).
    - intros i j Hi Hj. rewrite !sh_memo2_ok by lia. now apply H_tn.
    - intros i j Hi Hj. rewrite !sh_memo2_ok by lia. now apply H_tn.
    - now rewrite !map_length.
    - intros n k Hn. rewrite map_length in Hn.
      rewrite !nth_map_zero3 by lia. apply to_nodal3_rel. intros k'. now apply Htr.
  Qed.

  (** the nodal column algebra is layout independent: equal columns at every resolved node *)
  Lemma X_rel df d i j : drel df d -> (i < I)%nat -> (j < J)%nat -> X_of_o B df (i, j) = X_of_o A d (i, j).
  Proof.
    intros (Hv & Hd & Ht & Hu & Hw & Hx & Hy & _) Hi Hj. unfold X_of_o. cbn [fst snd].
    f_equal; try (apply functional_extensionality; intro k); auto.
    - now apply Hu.
    - now apply Hw.
    - now apply Hv.
    - now apply Hd.
    - now apply Ht.
  Qed.

  Lemma tm_rel zf z : nrel zf z -> mrel (tm_o B zf) (tm_o A z).
  Proof.
    intros H a l Ha Hl. pose proof (phi_lt a M Ha). unfold tm_o.
    rewrite !sh_memo2_ok by lia. now apply H_tm.
  Qed.
  Lemma tm_rel_X df d (Phi : @NCol F -> F) : drel df d ->
    mrel (tm_o B (fun i j => Phi (X_of_o B df (i, j)))) (tm_o A (fun i j => Phi (X_of_o A d (i, j)))).
  Proof. intros H. apply tm_rel. intros i j Hi Hj. now rewrite (X_rel df d i j H Hi Hj). Qed.
  Lemma memo_rel y x : mrel y x -> mrel (sh_memo2 (oR B) (oC B) y) (sh_memo2 (oR A) (oC A) x).
  Proof.
    intros H a l Ha Hl. pose proof (phi_lt a M Ha). rewrite !sh_memo2_ok by lia. now apply H.
  Qed.

  Variable c : @PEcfg F.
  Variable grav : F.
  Variables orogf orog : nat -> nat -> F.
  Hypothesis H_orog : mrel orogf orog.

  Lemma scalar_of_rel t1 m1 v1 t2 m2 v2 : mrel t1 t2 -> mrel m1 m2 -> mrel v1 v2 ->
    mrel (scalar_of_o B t1 m1 v1) (scalar_of_o A t2 m2 v2).
  Proof.
    intros Ht Hm Hv. unfold scalar_of_o. apply H_clip. intros a l Ha Hl.
    now rewrite (Ht a l Ha Hl), (H_div _ _ _ _ Hm Hv a l Ha Hl).
  Qed.

  Lemma level_rel df d r : drel df d ->
    mrel (l_vort (explicit_level_o B c grav orogf df r)) (l_vort (explicit_level_o A c grav orog d r)) /\
    mrel (l_div (explicit_level_o B c grav orogf df r)) (l_div (explicit_level_o A c grav orog d r)) /\
    mrel (l_temp (explicit_level_o B c grav orogf df r)) (l_temp (explicit_level_o A c grav orog d r)).
  Proof.
    intros H. unfold explicit_level_o. cbv zeta. cbn [l_vort l_div l_temp].
    pose proof (tm_rel_X df d (fun X => combined_u c true X (rt_dry c X) r) H) as Hcu.
    pose proof (tm_rel_X df d (fun X => combined_v c true X (rt_dry c X) r) H) as Hcv.
    pose proof (tm_rel_X df d (fun X => kinetic X r) H) as Hke.
    pose proof (tm_rel_X df d (fun X => hsa_mu X (n_temp X) r) H) as Hmu.
    pose proof (tm_rel_X df d (fun X => hsa_mv X (n_temp X) r) H) as Hmv.
    pose proof (tm_rel_X df d (fun X => temp_nodal_total c true X r) H) as Htt.
    cbv beta in Hcu, Hcv, Hke, Hmu, Hmv, Htt.
    split; [|split]; apply memo_rel.
    - unfold vort_of_o. apply H_clip. intros a l Ha Hl.
      now rewrite (H_curl _ _ _ _ Hcu Hcv a l Ha Hl).
    - unfold div_of_o. apply H_clip. intros a l Ha Hl.
      now rewrite (H_div _ _ _ _ Hcu Hcv a l Ha Hl), (H_lap _ _ Hke a l Ha Hl), (H_lap _ _ H_orog a l Ha Hl).
    - now apply scalar_of_rel.
  Qed.

  Lemma level_tr_rel df d r n : drel df d -> (n < length (d_tr d))%nat ->
    mrel (nth n (l_tr (explicit_level_o B c grav orogf df r)) (fun _ _ => 0))
         (nth n (l_tr (explicit_level_o A c grav orog d r)) (fun _ _ => 0)).
  Proof.
    intros H Hn. pose proof H as (_ & _ & _ & _ & _ & _ & _ & Hlen & Htr).
    unfold explicit_level_o. cbv zeta. cbn [l_tr].
    set (hB := fun t : nat -> nat -> nat -> F => _). set (hA := fun t : nat -> nat -> nat -> F => _).
    rewrite (nth_indep (map hB (d_tr df)) (fun _ _ => 0) (hB zero3)) by (rewrite map_length; lia).
    rewrite (nth_indep (map hA (d_tr d)) (fun _ _ => 0) (hA zero3)) by (rewrite map_length; lia).
    rewrite !map_nth. subst hB hA. cbv beta. apply memo_rel.
    assert (Ts : forall i j, (i < I)%nat -> (j < J)%nat ->
              tr_of (nth n (d_tr df) zero3) (i, j) = tr_of (nth n (d_tr d) zero3) (i, j)).
    { intros i j Hi Hj. unfold tr_of. cbn [fst snd]. apply functional_extensionality. intro k. now apply Htr. }
    apply scalar_of_rel; apply tm_rel; intros i j Hi Hj;
      now rewrite (X_rel df d i j H Hi Hj), (Ts i j Hi Hj).
  Qed.

  (** explicit_terms: every in-range coefficient of every field *)
  Theorem explicit_terms_of_diag_rel df d : drel df d ->
    forall k, (k < cK c)%nat ->
    mrel (s_vort (explicit_terms_of_diag_o B c grav orogf df) k) (s_vort (explicit_terms_of_diag_o A c grav orog d) k) /\
    mrel (s_div (explicit_terms_of_diag_o B c grav orogf df) k) (s_div (explicit_terms_of_diag_o A c grav orog d) k) /\
    mrel (s_temp (explicit_terms_of_diag_o B c grav orogf df) k) (s_temp (explicit_terms_of_diag_o A c grav orog d) k) /\
    mrel (s_lnps (explicit_terms_of_diag_o B c grav orogf df)) (s_lnps (explicit_terms_of_diag_o A c grav orog d)) /\
    (length (s_tr (explicit_terms_of_diag_o B c grav orogf df)) = length (s_tr (explicit_terms_of_diag_o A c grav orog d)) /\
     forall n, (n < length (d_tr d))%nat ->
       mrel (nth n (s_tr (explicit_terms_of_diag_o B c grav orogf df)) zero3 k)
            (nth n (s_tr (explicit_terms_of_diag_o A c grav orog d)) zero3 k)).
  Proof.
    intros H k Hk. pose proof H as (_ & _ & _ & _ & _ & _ & _ & Hlen & _).
    unfold explicit_terms_of_diag_o. cbv zeta. cbn [s_vort s_div s_temp s_lnps s_tr].
    rewrite !(nth_map_seq _ (cK c) k lev0 Hk).
    destruct (level_rel df d k H) as (E1 & E2 & E3).
    split; [exact E1|]. split; [exact E2|]. split; [exact E3|]. split.
    - apply memo_rel. unfold lnps_explicit_o. apply H_clip.
      exact (tm_rel_X df d (fun X => log_pressure_tendency c X) H).
    - split; [now rewrite !map_length, !seq_length|].
      intros n Hn.
      rewrite (nth_map_seq _ (length (d_tr df)) n zero3) by lia.
      rewrite (nth_map_seq _ (length (d_tr d)) n zero3) by lia.
      rewrite !(nth_map_seq _ (cK c) k lev0 Hk).
      now apply level_tr_rel.
  Qed.

  Theorem explicit_terms_full_rel sf s : srel sf s ->
    forall k, (k < cK c)%nat ->
    mrel (s_vort (explicit_terms_full_o B c grav orogf sf) k) (s_vort (explicit_terms_full_o A c grav orog s) k) /\
    mrel (s_div (explicit_terms_full_o B c grav orogf sf) k) (s_div (explicit_terms_full_o A c grav orog s) k) /\
    mrel (s_temp (explicit_terms_full_o B c grav orogf sf) k) (s_temp (explicit_terms_full_o A c grav orog s) k) /\
    mrel (s_lnps (explicit_terms_full_o B c grav orogf sf)) (s_lnps (explicit_terms_full_o A c grav orog s)) /\
    (length (s_tr (explicit_terms_full_o B c grav orogf sf)) = length (s_tr (explicit_terms_full_o A c grav orog s)) /\
     forall n, (n < length (s_tr s))%nat ->
       mrel (nth n (s_tr (explicit_terms_full_o B c grav orogf sf)) zero3 k)
            (nth n (s_tr (explicit_terms_full_o A c grav orog s)) zero3 k)).
  Proof.
    intros H k Hk. unfold explicit_terms_full_o. cbv zeta.
    pose proof (diagnostic_state_rel (cK c) sf s H) as D.
    destruct (explicit_terms_of_diag_rel _ _ D k Hk) as (E1 & E2 & E3 & E4 & E5 & E6).
    repeat split; try assumption.
    intros n Hn. apply E6. unfold diagnostic_state_o. cbn [d_tr]. now rewrite map_length.
  Qed.

  (** implicit_terms and implicit_inverse: coefficient by coefficient *)
  Lemma col_rel sf s a l : srel sf s -> (a < K)%nat -> (l < L)%nat -> col_of sf (phi a) l = col_of s a l.
  Proof.
    intros (Hv & Hd & Ht & Hp & _) Ha Hl. unfold col_of.
    f_equal; try (apply functional_extensionality; intro k).
    - now apply Hd.
    - now apply Ht.
    - now apply Hp.
  Qed.

  Theorem implicit_terms_full_rel sf s : srel sf s ->
    forall k,
    mrel (s_vort (implicit_terms_full_o B c sf) k) (s_vort (implicit_terms_full_o A c s) k) /\
    mrel (s_div (implicit_terms_full_o B c sf) k) (s_div (implicit_terms_full_o A c s) k) /\
    mrel (s_temp (implicit_terms_full_o B c sf) k) (s_temp (implicit_terms_full_o A c s) k) /\
    mrel (s_lnps (implicit_terms_full_o B c sf)) (s_lnps (implicit_terms_full_o A c s)).
  Proof.
    intros H k. pose proof H as (Hv & Hd & Ht & Hp & _).
    unfold implicit_terms_full_o. cbn [s_vort s_div s_temp s_lnps].
    split; [intros a l _ _; reflexivity|]. split; [|split].
    - intros a l Ha Hl. unfold div_tendency_implicit, unc. cbn [fst snd]. f_equal.
      apply H_lap; try assumption. intros a' l' Ha' Hl'. unfold cur. cbn [fst snd].
      pose proof (col_rel sf s a' l' H Ha' Hl') as E. unfold col_of in E.
      injection E as _ E2 E3. now rewrite E2, E3.
    - intros a l Ha Hl. unfold temp_tendency_implicit, unc. cbn [fst snd].
      pose proof (col_rel sf s a l H Ha Hl) as E. unfold col_of in E.
      injection E as E1 _ _. now rewrite E1.
    - intros a l Ha Hl.
      pose proof (col_rel sf s a l H Ha Hl) as E. unfold col_of in E.
      injection E as E1 _ _. now rewrite E1.
  Qed.

  Theorem implicit_inverse_full_rel eta invt sf s : srel sf s ->
    forall k,
    mrel (s_vort (implicit_inverse_full_o B c eta invt sf) k) (s_vort (implicit_inverse_full_o A c eta invt s) k) /\
    mrel (s_div (implicit_inverse_full_o B c eta invt sf) k) (s_div (implicit_inverse_full_o A c eta invt s) k) /\
    mrel (s_temp (implicit_inverse_full_o B c eta invt sf) k) (s_temp (implicit_inverse_full_o A c eta invt s) k) /\
    mrel (s_lnps (implicit_inverse_full_o B c eta invt sf)) (s_lnps (implicit_inverse_full_o A c eta invt s)) /\
    trel (s_tr (implicit_inverse_full_o B c eta invt sf)) (s_tr (implicit_inverse_full_o A c eta invt s)).
  Proof.
    intros H k. pose proof H as (Hv & _ & _ & _ & Htr).
    unfold implicit_inverse_full_o. cbv zeta. cbn [s_vort s_div s_temp s_lnps s_tr].
    split; [apply Hv|].
    repeat split; try (intros a l Ha Hl; now rewrite (col_rel sf s a l H Ha Hl), (H_eig l Hl)); apply Htr.
  Qed.
End Transfer.

Section Final.
  Context {F : Type} {o : Ops F} {Fc : FieldC o}.
  Add Field FFpfz : (field_c : FieldTh o).
  Variable g : @HGrid F.
  Variables (Mh Lf If Jf : nat) (stacked rev : bool).
  Variable ff : nat -> nat -> F.
  Variable pf : nat -> nat -> nat -> F.
  Variable wf : nat -> F.
  Variables af bf : nat -> nat -> F.
  Variables sec2f sinf : nat -> F.
  Local Notation M := (hM g).
  Local Notation L := (hL g).
  Local Notation I := (hI g).
  Local Notation J := (hJ g).
  (** the fast grid of the same truncation, nodes, radius and rotation rate *)
  Definition fast_grid_of : @FGrid F :=
    mkFG M L I J Mh Lf If Jf stacked rev (hr g) ff pf wf af bf sec2f sinf (homega g).
  Local Notation q := fast_grid_of.

  Hypothesis HM : (1 <= M)%nat.
  Hypothesis HMh : (M <= Mh)%nat.
  Hypothesis HLf : (L <= Lf)%nat.
  Hypothesis HIf : (I <= If)%nat.
  Hypothesis HJf : (J <= Jf)%nat.
  Hypothesis T : tables_related M L I J Mh Lf If Jf (hf g) (hp g) (hw g) ff pf wf.
  Hypothesis DT : dtables_related M L Lf af bf (ha g) (hb g).
  Hypothesis H_sec2 : forall j, (j < J)%nat -> sec2f j = hsec2 g j.
  Hypothesis H_sin : forall j, (j < J)%nat -> sinf j = hsin g j.

  Lemma to_nodal_rel y x : mrel M L y x -> nrel I J (to_nodal_f q y) (to_nodal g x).
  Proof.
    intros H i j Hi Hj. unfold to_nodal_f, to_nodal. cbn [gstacked grev gMh gLf gJf gf gp fast_grid_of].
    assert (E : synth_fast_u rev Mh Lf Jf ff pf y i j = synth (hR g) L J (hf g) (hp g) x i j).
    { rewrite synth_fast_general with (M:=M) (L:=L) (I:=I) (J:=J) (If:=If) (fr:=hf g) (pr:=hp g) (wr:=hw g) (wf:=wf);
        try assumption; try lia.
      unfold pad2.
      rewrite !ltb_true by assumption. cbn [andb].
      apply synth_ext; [assumption|]. intros a l Ha Hl. unfold proj. now apply H. }
    destruct stacked; [|exact E].
    rewrite (stacked_irrelevant_synth rev rev) by lia. exact E.
  Qed.

  Lemma to_modal_rel zf z : nrel I J zf z -> mrel M L (to_modal_f q zf) (to_modal g z).
  Proof.
    intros H a l Ha Hl. pose proof (phi_lt a M Ha) as Hp.
    unfold to_modal_f, to_modal. cbn [gstacked grev gMh gIf gJf gf gp gw fast_grid_of].
    assert (E : analysis_fast_u rev Mh If Jf ff pf wf zf (phi a) l = analysis (hR g) I J (hf g) (hp g) (hw g) z a l).
    { rewrite analysis_fast_general with (M:=M) (L:=L) (I:=I) (J:=J) (Lf:=Lf) (fr:=hf g) (pr:=hp g) (wr:=hw g);
        try assumption; try lia.
      rewrite embed_phi by assumption.
      apply analysis_ext; [assumption|]. exact H. }
    destruct stacked; [|exact E].
    rewrite (stacked_irrelevant_analysis rev rev) by lia. exact E.
  Qed.

  Local Notation A := (real_ops g).
  Local Notation B := (fast_ops q).

  Section Apply.
    Variable c : @PEcfg F.
    Variable grav : F.
    Variables orogf orog : nat -> nat -> F.
    Hypothesis H_orog : mrel M L orogf orog.
    Variables (sf s : @State F).
    Hypothesis H_state : srel M L sf s.

    (** explicit_terms on the fast layout = the re-indexed explicit_terms on the reference layout *)
    Theorem explicit_terms_full_fast_equiv k : (k < cK c)%nat ->
      mrel M L (s_vort (explicit_terms_full_fast q c grav orogf sf) k) (s_vort (explicit_terms_full g c grav orog s) k) /\
      mrel M L (s_div (explicit_terms_full_fast q c grav orogf sf) k) (s_div (explicit_terms_full g c grav orog s) k) /\
      mrel M L (s_temp (explicit_terms_full_fast q c grav orogf sf) k) (s_temp (explicit_terms_full g c grav orog s) k) /\
      mrel M L (s_lnps (explicit_terms_full_fast q c grav orogf sf)) (s_lnps (explicit_terms_full g c grav orog s)) /\
      (length (s_tr (explicit_terms_full_fast q c grav orogf sf)) = length (s_tr (explicit_terms_full g c grav orog s)) /\
       forall n, (n < length (s_tr s))%nat ->
         mrel M L (nth n (s_tr (explicit_terms_full_fast q c grav orogf sf)) zero3 k)
                  (nth n (s_tr (explicit_terms_full g c grav orog s)) zero3 k)).
    Proof.
      intros Hk. unfold explicit_terms_full_fast. rewrite <- !explicit_terms_full_o_real.
      apply (explicit_terms_full_rel A B M L I J HM); try reflexivity; try assumption;
        cbn [oR oC oI oJ o_tn o_tm o_grad o_uv o_div o_curl o_lap o_clip o_sec2 o_cor o_eig fast_ops real_ops
             gM gL gI gJ gMh gLf gIf gJf gr ga gb gsec2 gsin gomega fast_grid_of]; try lia.
      - exact to_nodal_rel.
      - exact to_modal_rel.
      - intros y x H. eapply grad_rel; eauto.
      - intros vf df v d Hv Hd. eapply uv_rel; eauto.
      - intros y1 y2 x1 x2 H1 H2. eapply div_rel; eauto.
      - intros y1 y2 x1 x2 H1 H2. eapply curl_rel; eauto.
      - intros y x H. now apply laplacian_rel.
      - intros y x H. eapply clip_rel; eauto.
      - intros j Hj. unfold coriolis. now rewrite H_sin.
    Qed.

    Theorem implicit_terms_full_fast_equiv k :
      mrel M L (s_vort (implicit_terms_full_fast q c sf) k) (s_vort (implicit_terms_full g c s) k) /\
      mrel M L (s_div (implicit_terms_full_fast q c sf) k) (s_div (implicit_terms_full g c s) k) /\
      mrel M L (s_temp (implicit_terms_full_fast q c sf) k) (s_temp (implicit_terms_full g c s) k) /\
      mrel M L (s_lnps (implicit_terms_full_fast q c sf)) (s_lnps (implicit_terms_full g c s)).
    Proof.
      unfold implicit_terms_full_fast. rewrite <- !implicit_terms_full_o_real.
      apply (implicit_terms_full_rel A B M L); try assumption.
      intros y x H. now apply laplacian_rel.
    Qed.

    Theorem implicit_inverse_full_fast_equiv eta invt k :
      mrel M L (s_vort (implicit_inverse_full_fast q c eta invt sf) k) (s_vort (implicit_inverse_full g c eta invt s) k) /\
      mrel M L (s_div (implicit_inverse_full_fast q c eta invt sf) k) (s_div (implicit_inverse_full g c eta invt s) k) /\
      mrel M L (s_temp (implicit_inverse_full_fast q c eta invt sf) k) (s_temp (implicit_inverse_full g c eta invt s) k) /\
      mrel M L (s_lnps (implicit_inverse_full_fast q c eta invt sf)) (s_lnps (implicit_inverse_full g c eta invt s)) /\
      trel M L (s_tr (implicit_inverse_full_fast q c eta invt sf)) (s_tr (implicit_inverse_full g c eta invt s)).
    Proof.
      unfold implicit_inverse_full_fast. rewrite <- !implicit_inverse_full_o_real.
      apply (implicit_inverse_full_rel A B M L); try assumption.
      intros l Hl. reflexivity.
    Qed.
  End Apply.

  (** the embedded state E s represents s, so the three theorems apply to (E s, s) *)
  Lemma srel_embed_state (s : @State F) : srel M L (embed_state M L s) s.
  Proof.
    unfold srel, embed_state. cbn [s_vort s_div s_temp s_lnps s_tr].
    repeat split; try (intros; apply mrel_embed).
    - now rewrite map_length.
    - intros n k Hn. rewrite (nth_map_zero3 (fun t k0 => embed M L (t k0))) by exact Hn. apply mrel_embed.
  Qed.
End Final.

(** (4) "and trajectories": every integrator of Model/Integrators.v is a term over
    (vzero, vadd, vscal, Fx, G, Ginv), so it commutes with ANY map S between two state spaces that
    is a homomorphism of the vector operations and intertwines the three operators.  No
    vector-space law is needed.  (Thm/Scaling.v has the analogous theorems for an affine change of
    scale within ONE space; here there are two operator triples and S = the embedding E.) *)
Section StepHom.
  Context {F : Type} {o : Ops F} {V V' : Type} {vo : VOps F V} {vo' : VOps F V'}.
  Variable S : V -> V'.
  Hypothesis S_add : forall u v, S (vadd u v) = vadd (S u) (S v).
  Hypothesis S_scal : forall a u, S (vscal a u) = vscal a (S u).
  Hypothesis S_zero : S vzero = vzero.
  Variables (Fx G : V -> V) (Ginv : V -> F -> V) (Fx' G' : V' -> V') (Ginv' : V' -> F -> V').
  Hypothesis HF : forall u, Fx' (S u) = S (Fx u).
  Hypothesis HG : forall u, G' (S u) = S (G u).
  Hypothesis HGinv : forall u eta, Ginv' (S u) eta = S (Ginv u eta).

  Ltac hom := repeat (first [rewrite HF | rewrite HG | rewrite HGinv | rewrite <- S_scal | rewrite <- S_add]).

  Theorem euler_step_hom dt u : euler_step Fx' Ginv' dt (S u) = S (euler_step Fx Ginv dt u).
  Proof. unfold euler_step. cbv zeta. hom. reflexivity. Qed.

  Theorem cn_rk2_step_hom dt u : cn_rk2_step Fx' G' Ginv' dt (S u) = S (cn_rk2_step Fx G Ginv dt u).
  Proof. unfold cn_rk2_step. cbv zeta. hom. reflexivity. Qed.

  Theorem leapfrog_step_hom dt alpha p q :
    leapfrog_step Fx' G' Ginv' dt alpha (S p, S q)
    = (S (fst (leapfrog_step Fx G Ginv dt alpha (p, q))), S (snd (leapfrog_step Fx G Ginv dt alpha (p, q)))).
  Proof. unfold leapfrog_step. cbn [fst snd]. hom. reflexivity. Qed.

  Theorem ls_loop_hom dt al be ga h u :
    ls_loop Fx' G' Ginv' dt al be ga (S h) (S u) = S (ls_loop Fx G Ginv dt al be ga h u).
  Proof.
    revert be ga h u. induction al as [|a0 al IH]; intros be ga h u.
    - destruct be, ga; reflexivity.
    - destruct be as [|b be]; [destruct ga; reflexivity|].
      destruct ga as [|g0 ga]; [reflexivity|].
      destruct al as [|a1 al]; [reflexivity|].
      cbn [ls_loop]. hom. apply IH.
  Qed.
  Theorem ls_step_hom dt al be ga u :
    ls_step Fx' G' Ginv' dt al be ga (S u) = S (ls_step Fx G Ginv dt al be ga u).
  Proof. unfold ls_step. rewrite <- ls_loop_hom. now rewrite S_zero. Qed.

  Definition oS (x : option V) : option V' := option_map S x.
  Lemma wsum_skip_hom cs xs acc : wsum_skip cs (map oS xs) (S acc) = option_map S (wsum_skip cs xs acc).
  Proof.
    revert xs acc. induction cs as [|c0 cs IH]; intros xs acc; cbn [wsum_skip]; [reflexivity|].
    destruct xs as [|x xs]; cbn [map wsum_skip]; [reflexivity|].
    destruct (nz c0).
    - destruct x as [v|]; cbn [oS option_map]; [|reflexivity]. hom. apply IH.
    - apply IH.
  Qed.
  Lemma wsum_skip_hom0 cs xs : wsum_skip cs (map oS xs) vzero = option_map S (wsum_skip cs xs vzero).
  Proof. rewrite <- wsum_skip_hom. now rewrite S_zero. Qed.

  Lemma imex_stages_hom dt y0 b_ex b_im i rex rim fs gs :
    imex_stages Fx' G' Ginv' dt (S y0) b_ex b_im i rex rim (map oS fs) (map oS gs)
    = option_map (fun p => (map oS (fst p), map oS (snd p))) (imex_stages Fx G Ginv dt y0 b_ex b_im i rex rim fs gs).
  Proof.
    revert i rim fs gs. induction rex as [|re rex IH]; intros i rim fs gs; cbn [imex_stages]; [reflexivity|].
    destruct rim as [|ri rim]; [reflexivity|].
    rewrite !wsum_skip_hom0.
    destruct (wsum_skip re fs vzero) as [ex|]; cbn [option_map]; [|reflexivity].
    destruct (wsum_skip ri gs vzero) as [im|]; cbn [option_map]; [|reflexivity].
    hom.
    set (Y := Ginv (vadd (vadd y0 (vscal dt ex)) (vscal dt im)) (dt * nth i ri 0)).
    replace (map oS fs ++ [if needed i rex b_ex then Some (S (Fx Y)) else None])
      with (map oS (fs ++ [if needed i rex b_ex then Some (Fx Y) else None]))
      by (rewrite map_app; cbn [map]; destruct (needed i rex b_ex); reflexivity).
    replace (map oS gs ++ [if needed i rim b_im then Some (S (G Y)) else None])
      with (map oS (gs ++ [if needed i rim b_im then Some (G Y) else None]))
      by (rewrite map_app; cbn [map]; destruct (needed i rim b_im); reflexivity).
    apply IH.
  Qed.

  Theorem imex_step_hom dt a_ex a_im b_ex b_im y0 :
    imex_step Fx' G' Ginv' dt a_ex a_im b_ex b_im (S y0) = option_map S (imex_step Fx G Ginv dt a_ex a_im b_ex b_im y0).
  Proof.
    unfold imex_step.
    pose proof (imex_stages_hom dt y0 b_ex b_im 1 a_ex a_im [Some (Fx y0)] [Some (G y0)]) as H.
    cbn [map oS option_map] in H. rewrite HF, HG, H. clear H.
    destruct (imex_stages Fx G Ginv dt y0 b_ex b_im 1 a_ex a_im [Some (Fx y0)] [Some (G y0)]) as [[fs gs]|];
      cbn [option_map fst snd]; [|reflexivity].
    rewrite !wsum_skip_hom0.
    destruct (wsum_skip b_ex fs vzero) as [ex|]; cbn [option_map]; [|reflexivity].
    destruct (wsum_skip b_im gs vzero) as [im|]; cbn [option_map]; [|reflexivity].
    hom. reflexivity.
  Qed.
End StepHom.

(** (5) the instance: whole-state primitive equations, S = E.
    The three model operators are composed with the normal forms [norm_real] / [norm_fast] on the
    OUTPUT side only (so that the in-range equalities of (3) become equalities of states); on the
    input side they are applied to the states as they are. *)
Section WholeStateSteps.
  Context {F : Type} {o : Ops F} {Fc : FieldC o}.
  Add Field FFpfs : (field_c : FieldTh o).
  Variable g : @HGrid F.
  Variables (Mh Lf If Jf : nat) (stacked rev : bool).
  Variable ff : nat -> nat -> F.
  Variable pf : nat -> nat -> nat -> F.
  Variable wf : nat -> F.
  Variables af bf : nat -> nat -> F.
  Variables sec2f sinf : nat -> F.
  Local Notation M := (hM g).
  Local Notation L := (hL g).
  Local Notation q := (fast_grid_of g Mh Lf If Jf stacked rev ff pf wf af bf sec2f sinf).
  Hypothesis HM : (1 <= M)%nat.
  Hypothesis HMh : (M <= Mh)%nat.
  Hypothesis HLf : (L <= Lf)%nat.
  Hypothesis HIf : (hI g <= If)%nat.
  Hypothesis HJf : (hJ g <= Jf)%nat.
  Hypothesis T : tables_related M L (hI g) (hJ g) Mh Lf If Jf (hf g) (hp g) (hw g) ff pf wf.
  Hypothesis DT : dtables_related M L Lf af bf (ha g) (hb g).
  Hypothesis H_sec2 : forall j, (j < hJ g)%nat -> sec2f j = hsec2 g j.
  Hypothesis H_sin : forall j, (j < hJ g)%nat -> sinf j = hsin g j.
  Variable c : @PEcfg F.
  Variable grav : F.
  Variable orog : nat -> nat -> F.
  Variable invt : F -> nat -> @Mat F.        (* np.linalg.inv(implicit_matrix) per step size *)
  Hypothesis HK : (0 < cK c)%nat.            (* at least one level *)
  Local Notation Kc := (cK c).
  Local Notation ES := (embed_state M L).

  Definition FxR (u : @State F) : @State F := norm_real Kc M L (explicit_terms_full g c grav orog u).
  Definition GR (u : @State F) : @State F := norm_real Kc M L (implicit_terms_full g c u).
  Definition GinvR (u : @State F) (eta : F) : @State F := norm_real Kc M L (implicit_inverse_full g c eta (invt eta) u).
  Definition FxF (y : @State F) : @State F := norm_fast Kc M L (explicit_terms_full_fast q c grav (embed M L orog) y).
  Definition GF (y : @State F) : @State F := norm_fast Kc M L (implicit_terms_full_fast q c y).
  Definition GinvF (y : @State F) (eta : F) : @State F := norm_fast Kc M L (implicit_inverse_full_fast q c eta (invt eta) y).

  Lemma embed_add (x y : nat -> nat -> F) k l :
    embed M L (fun a l => x a l + y a l) k l = embed M L x k l + embed M L y k l.
  Proof. unfold embed. destruct ((k <? 2 * M) && (l <? L)); [destruct k as [|[|k]]|]; ring. Qed.
  Lemma embed_scal t (x : nat -> nat -> F) k l :
    embed M L (fun a l => t * x a l) k l = t * embed M L x k l.
  Proof. unfold embed. destruct ((k <? 2 * M) && (l <? L)); [destruct k as [|[|k]]|]; ring. Qed.
  Lemma embed_zero k l : embed M L (fun _ _ => 0) k l = 0.
  Proof. unfold embed. destruct ((k <? 2 * M) && (l <? L)); [destruct k as [|[|k]]|]; reflexivity. Qed.

  Lemma ES_add u v : ES (vadd (VOps := PwOps) u v) = vadd (VOps := PwOps) (ES u) (ES v).
  Proof.
    unfold embed_state. cbn [vadd PwOps s_vort s_div s_temp s_lnps s_tr map]. f_equal;
      repeat (apply functional_extensionality; intro); apply embed_add.
  Qed.
  Lemma ES_scal t u : ES (vscal (VOps := PwOps) t u) = vscal (VOps := PwOps) t (ES u).
  Proof.
    unfold embed_state. cbn [vscal PwOps s_vort s_div s_temp s_lnps s_tr map]. f_equal;
      repeat (apply functional_extensionality; intro); apply embed_scal.
  Qed.
  Lemma ES_zero : ES (vzero (VOps := PwOps)) = vzero (VOps := PwOps).
  Proof.
    unfold embed_state. cbn [vzero PwOps s_vort s_div s_temp s_lnps s_tr map]. unfold zero3. f_equal;
      repeat (apply functional_extensionality; intro); apply embed_zero.
  Qed.

  Lemma inr3_elim K0 R0 L0 k a l : inr3 K0 R0 L0 k a l = true -> (k < K0)%nat /\ (a < R0)%nat /\ (l < L0)%nat.
  Proof.
    unfold inr3. intros H. apply andb_prop in H. destruct H as [H Hl]. apply andb_prop in H. destruct H as [Hk Ha].
    apply Nat.ltb_lt in Hk, Ha, Hl. auto.
  Qed.
  Lemma inr2_elim R0 L0 a l : inr2 R0 L0 a l = true -> (a < R0)%nat /\ (l < L0)%nat.
  Proof. unfold inr2. intros H. apply andb_prop in H. destruct H as [Ha Hl]. apply Nat.ltb_lt in Ha, Hl. auto. Qed.

  Lemma norm_real_ext (s1 s2 : @State F) :
    (forall k a l, (k < Kc)%nat -> (a < 2 * M - 1)%nat -> (l < L)%nat ->
       s_vort s1 k a l = s_vort s2 k a l /\ s_div s1 k a l = s_div s2 k a l /\ s_temp s1 k a l = s_temp s2 k a l) ->
    (forall a l, (a < 2 * M - 1)%nat -> (l < L)%nat -> s_lnps s1 a l = s_lnps s2 a l) ->
    norm_real Kc M L s1 = norm_real Kc M L s2.
  Proof.
    intros H3 H2. unfold norm_real. cbv zeta. f_equal.
    1-3: do 3 (apply functional_extensionality; intro); unfold cl3;
      destruct (inr3 Kc (2 * M - 1) L x x0 x1) eqn:E; [|reflexivity];
      destruct (inr3_elim _ _ _ _ _ _ E) as (Hk & Ha & Hl); apply (H3 x x0 x1 Hk Ha Hl).
    do 2 (apply functional_extensionality; intro). unfold cl2.
    destruct (inr2 (2 * M - 1) L x x0) eqn:E; [|reflexivity].
    destruct (inr2_elim _ _ _ _ E) as (Ha & Hl). now apply H2.
  Qed.

  (** a fast state that represents a reference state on the index ranges has E of its normal form *)
  Lemma norm_fast_rel (y x : @State F) :
    (forall k, (k < Kc)%nat ->
       mrel M L (s_vort y k) (s_vort x k) /\ mrel M L (s_div y k) (s_div x k) /\ mrel M L (s_temp y k) (s_temp x k)) ->
    mrel M L (s_lnps y) (s_lnps x) ->
    norm_fast Kc M L y = ES (norm_real Kc M L x).
  Proof.
    intros H3 H2. unfold norm_fast. f_equal. apply norm_real_ext.
    - intros k a l Hk Ha Hl. destruct (H3 k Hk) as (E1 & E2 & E3).
      cbn [proj_state s_vort s_div s_temp]. unfold proj. split; [|split]; [apply E1 | apply E2 | apply E3]; assumption.
    - intros a l Ha Hl. cbn [proj_state s_lnps]. unfold proj. now apply H2.
  Qed.

  (** the three intertwining relations = the equivalence theorems of (3) *)
  Lemma ws_HF u : FxF (ES u) = ES (FxR u).
  Proof.
    pose proof (explicit_terms_full_fast_equiv g Mh Lf If Jf stacked rev ff pf wf af bf sec2f sinf
                  HM HMh HLf HIf HJf T DT H_sec2 H_sin c grav (embed M L orog) orog (mrel_embed M L orog)
                  (ES u) u (srel_embed_state g u)) as E.
    apply norm_fast_rel; [intros k Hk; destruct (E k Hk) as (E1 & E2 & E3 & _); auto|].
    now destruct (E 0%nat HK) as (_ & _ & _ & E4 & _).
  Qed.

  Lemma ws_HG u : GF (ES u) = ES (GR u).
  Proof.
    pose proof (implicit_terms_full_fast_equiv g Mh Lf If Jf stacked rev ff pf wf af bf sec2f sinf c
                  (ES u) u (srel_embed_state g u)) as E.
    apply norm_fast_rel; [intros k _; destruct (E k) as (E1 & E2 & E3 & _); auto|].
    now destruct (E 0%nat) as (_ & _ & _ & E4).
  Qed.

  Lemma ws_HGinv u eta : GinvF (ES u) eta = ES (GinvR u eta).
  Proof.
    pose proof (implicit_inverse_full_fast_equiv g Mh Lf If Jf stacked rev ff pf wf af bf sec2f sinf c
                  (ES u) u (srel_embed_state g u) eta (invt eta)) as E.
    apply norm_fast_rel; [intros k _; destruct (E k) as (E1 & E2 & E3 & _); auto|].
    now destruct (E 0%nat) as (_ & _ & _ & E4 & _).
  Qed.

  (** one step of every integrator on the fast whole-state model, started from E u, is E of the reference step *)
  Theorem whole_state_step_equiv dt alpha al be ga a_ex a_im b_ex b_im u p0 q0 :
    euler_step (vo := PwOps) FxF GinvF dt (ES u) = ES (euler_step (vo := PwOps) FxR GinvR dt u) /\
    cn_rk2_step (vo := PwOps) FxF GF GinvF dt (ES u) = ES (cn_rk2_step (vo := PwOps) FxR GR GinvR dt u) /\
    ls_step (vo := PwOps) FxF GF GinvF dt al be ga (ES u) = ES (ls_step (vo := PwOps) FxR GR GinvR dt al be ga u) /\
    imex_step (vo := PwOps) FxF GF GinvF dt a_ex a_im b_ex b_im (ES u)
    = option_map ES (imex_step (vo := PwOps) FxR GR GinvR dt a_ex a_im b_ex b_im u) /\
    leapfrog_step (vo := PwOps) FxF GF GinvF dt alpha (ES p0, ES q0)
    = (ES (fst (leapfrog_step (vo := PwOps) FxR GR GinvR dt alpha (p0, q0))),
       ES (snd (leapfrog_step (vo := PwOps) FxR GR GinvR dt alpha (p0, q0)))).
  Proof.
    split; [|split; [|split; [|split]]].
    - exact (euler_step_hom (vo := PwOps) (vo' := PwOps) ES ES_add ES_scal FxR GinvR FxF GinvF ws_HF ws_HGinv dt u).
    - exact (cn_rk2_step_hom (vo := PwOps) (vo' := PwOps) ES ES_add ES_scal FxR GR GinvR FxF GF GinvF ws_HF ws_HG ws_HGinv dt u).
    - exact (ls_step_hom (vo := PwOps) (vo' := PwOps) ES ES_add ES_scal ES_zero FxR GR GinvR FxF GF GinvF ws_HF ws_HG ws_HGinv dt al be ga u).
    - exact (imex_step_hom (vo := PwOps) (vo' := PwOps) ES ES_add ES_scal ES_zero FxR GR GinvR FxF GF GinvF ws_HF ws_HG ws_HGinv
               dt a_ex a_im b_ex b_im u).
    - exact (leapfrog_step_hom (vo := PwOps) (vo' := PwOps) ES ES_add ES_scal FxR GR GinvR FxF GF GinvF ws_HF ws_HG ws_HGinv dt alpha p0 q0).
  Qed.

  (** spectral filters (a factor per total wavenumber) commute with E *)
  Lemma embed_lmul (sigmaf sigma : nat -> F) (x : nat -> nat -> F) k l :
    (forall l, (l < L)%nat -> sigmaf l = sigma l) ->
    sigmaf l * embed M L x k l = embed M L (fun a l => sigma l * x a l) k l.
  Proof.
    intros Hs. unfold embed. destruct (Nat.ltb_spec l L) as [Hl|Hl]; [rewrite (Hs l Hl)|];
      destruct (k <? 2 * M); cbn [andb]; [destruct k as [|[|k]]|..]; ring.
  Qed.
  Lemma lfilter_equiv (sigmaf sigma : nat -> F) u w :
    (forall l, (l < L)%nat -> sigmaf l = sigma l) ->
    lfilter sigmaf (ES u) (ES w) = ES (lfilter sigma u w).
  Proof.
    intros Hs. unfold lfilter, embed_state. cbn [s_vort s_div s_temp s_lnps s_tr map]. f_equal;
      repeat (apply functional_extensionality; intro); now apply embed_lmul.
  Qed.

  Theorem whole_state_trajectory_equiv (step step' : @State F -> @State F) (fl fl' : list (@State F -> @State F -> @State F)) :
    (forall u, step' (ES u) = ES (step u)) ->
    Forall2 (fun f' f => forall u w, f' (ES u) (ES w) = ES (f u w)) fl' fl ->
    forall n u, Nat.iter n (filtered_step step' fl') (ES u) = ES (Nat.iter n (filtered_step step fl) u).
  Proof.
    intros Hs Hf.
    assert (A : forall u, filtered_step step' fl' (ES u) = ES (filtered_step step fl u)).
    { intros u. unfold filtered_step. rewrite Hs. generalize (step u) as w.
      induction Hf as [|f' f fl' fl Hff Hf IH]; intros w; cbn [apply_filters_s]; [reflexivity|].
      rewrite Hff. apply IH. }
    induction n as [|n IH]; intros u; [reflexivity|].
    change (Nat.iter (S n) (filtered_step step' fl') (ES u)) with (filtered_step step' fl' (Nat.iter n (filtered_step step' fl') (ES u))).
    change (Nat.iter (S n) (filtered_step step fl) u) with (filtered_step step fl (Nat.iter n (filtered_step step fl) u)).
    rewrite IH. apply A.
  Qed.

  (** E is injective on normal forms: the fast trajectory determines the reference one *)
  Lemma proj_embed_state (s : @State F) : norm_real Kc M L (proj_state (ES s)) = norm_real Kc M L s.
  Proof.
    apply norm_real_ext.
    - intros k a l Hk Ha Hl. cbn [proj_state embed_state s_vort s_div s_temp]. now rewrite !proj_embed.
    - intros a l Ha Hl. cbn [proj_state embed_state s_lnps]. now apply proj_embed.
  Qed.
End WholeStateSteps.
