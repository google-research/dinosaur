(** Property C14: the stepping / scan combinators of Model/Combinators.v equal their sequential
    definitions, for every carry / input / output type, every step function, every number of steps,
    every factorisation of the scan length, every filter and weight list. *)
From Dino Require Import Base.Ops Base.Sums Model.Combinators.
Local Open Scope F_scope.

Section ScanThm.
  Context {C X Y : Type}.
  Implicit Types (f : C -> X -> C * Y).

  Lemma scan_app f init a b :
    scan f init (a ++ b)
    = (fst (scan f (fst (scan f init a)) b),
       snd (scan f init a) ++ snd (scan f (fst (scan f init a)) b)).
  Proof.
    revert init. induction a as [|x a IH]; intros init; cbn [app scan fst snd].
    - now destruct (scan f init b).
    - rewrite IH. reflexivity.
  Qed.

  Lemma scan_length f init xs : length (snd (scan f init xs)) = length xs.
  Proof. revert init. induction xs as [|x r IH]; intros init; cbn; [reflexivity|]. now rewrite IH. Qed.

  Lemma scan_carry_fold f init xs :
    fst (scan f init xs) = fold_left (fun c x => fst (f c x)) xs init.
  Proof. revert init. induction xs as [|x r IH]; intros init; cbn; [reflexivity|]. now rewrite IH. Qed.

  Lemma scan_nth f init xs k dx dy :
    (k < length xs)%nat ->
    nth k (snd (scan f init xs)) dy
    = snd (f (fold_left (fun c x => fst (f c x)) (firstn k xs) init) (nth k xs dx)).
  Proof.
    revert init k. induction xs as [|x r IH]; intros init k Hk; cbn in Hk; [lia|].
    destruct k as [|k]; cbn [scan snd nth firstn fold_left]; [reflexivity|].
    apply IH. lia.
  Qed.

  Lemma scan_ext_in f g init xs :
    (forall c x, In x xs -> f c x = g c x) -> scan f init xs = scan g init xs.
  Proof.
    revert init. induction xs as [|x r IH]; intros init H; cbn [scan]; [reflexivity|].
    rewrite (H init x) by (now left). rewrite IH; [reflexivity|].
    intros c y Hy. apply H. now right.
  Qed.
End ScanThm.

(** scans with [xs = None]: bodies of the form c -> (h c, out c) *)
Section ScanLen.
  Context {St Y : Type}.

  Lemma scan_len_iter (h : St -> St) (out : St -> Y) x n :
    fst (scan_len (fun c _ => (h c, out c)) x n) = Nat.iter n h x.
  Proof.
    unfold scan_len. revert x. induction n as [|n IH]; intros x; cbn [repeat scan fst snd]; [reflexivity|].
    rewrite IH. apply iter_shift.
  Qed.

  Lemma scan_len_length (g : St -> unit -> St * Y) x n : length (snd (scan_len g x n)) = n.
  Proof. unfold scan_len. now rewrite scan_length, repeat_length. Qed.

  Lemma scan_len_nth (h : St -> St) (out : St -> Y) x n k d :
    (k < n)%nat -> nth k (snd (scan_len (fun c _ => (h c, out c)) x n)) d = out (Nat.iter k h x).
  Proof.
    unfold scan_len. revert x k. induction n as [|n IH]; intros x k Hk; [lia|].
    cbn [repeat scan fst snd]. destruct k as [|k]; cbn [nth]; [reflexivity|].
    rewrite IH by lia. now rewrite iter_shift.
  Qed.
End ScanLen.

Section SteppingThm.
  Context {St : Type}.

  Theorem repeated_iter (f : St -> St) n x : repeated f n x = Nat.iter n f x.
  Proof.
    unfold repeated. destruct (Nat.eqb_spec n 1) as [->|_]; [reflexivity|].
    apply (scan_len_iter f (fun _ => tt)).
  Qed.

  Theorem filters_nil (f : St -> St) u : step_with_filters f [] u = f u.
  Proof. reflexivity. Qed.

  Theorem filters_snoc (f : St -> St) phis phi u :
    step_with_filters f (phis ++ [phi]) u = phi u (step_with_filters f phis u).
  Proof. unfold step_with_filters. now rewrite fold_left_app. Qed.

  (** explicit nesting: phi_r(u, ... phi_1(u, f u)) *)
  Theorem filters_in_order (f : St -> St) phis u :
    step_with_filters f phis u = fold_right (fun phi acc => phi u acc) (f u) (rev phis).
  Proof. unfold step_with_filters. now rewrite fold_left_rev_right. Qed.

  Theorem trajectory_frames {Y : Type} (f : St -> St) outer inner (swi : bool) (post : St -> Y) x :
    let r := trajectory_from_step f outer inner swi post x in
    fst r = Nat.iter (outer * inner) f x /\
    length (snd r) = outer /\
    forall k d, (k < outer)%nat ->
      nth k (snd r) d = post (Nat.iter ((if swi then k else S k) * inner) f x).
  Proof.
    cbv zeta. unfold trajectory_from_step.
    set (h := if negb (Nat.eqb inner 1) then repeated f inner else f).
    assert (Hh : forall c, h c = Nat.iter inner f c).
    { intros c. unfold h. destruct (Nat.eqb_spec inner 1) as [->|_]; cbn [negb]; [reflexivity|].
      apply repeated_iter. }
    split; [|split].
    - rewrite (scan_len_iter h (fun c => post (if swi then c else h c))).
      rewrite iter_mult. now apply iter_ext.
    - apply scan_len_length.
    - intros k d Hk.
      rewrite (scan_len_nth h (fun c => post (if swi then c else h c))) by exact Hk.
      destruct swi.
      + rewrite iter_mult. f_equal. now apply iter_ext.
      + rewrite iter_mult, iter_S, Hh. f_equal. f_equal. now apply iter_ext.
  Qed.
End SteppingThm.

Section NestedThm.
  Context {C X Y : Type}.
  Implicit Types (f : C -> X -> C * Y).

  Lemma chunks_concat n m (xs : list X) : length xs = (n * m)%nat -> concat (chunks n m xs) = xs.
  Proof.
    revert xs. induction n as [|n IH]; intros xs H; cbn [chunks concat].
    - destruct xs; [reflexivity|discriminate].
    - rewrite IH; [apply firstn_skipn|]. rewrite skipn_length. lia.
  Qed.

  Lemma chunks_lengths n m (xs : list X) :
    length xs = (n * m)%nat -> forall ch, In ch (chunks n m xs) -> length ch = m.
  Proof.
    revert xs. induction n as [|n IH]; intros xs H ch Hin; cbn [chunks] in Hin; [destruct Hin|].
    destruct Hin as [<-|Hin].
    - rewrite firstn_length. lia.
    - apply (IH (skipn m xs)); [|exact Hin]. rewrite skipn_length. lia.
  Qed.

  Lemma chunks_count n m (xs : list X) : length (chunks n m xs) = n.
  Proof. revert xs. induction n as [|n IH]; intros xs; cbn; [reflexivity|]. now rewrite IH. Qed.

  Lemma scan_chunks f init (chs : list (list X)) :
    (fst (scan (fun c ch => scan f c ch) init chs),
     concat (snd (scan (fun c ch => scan f c ch) init chs)))
    = scan f init (concat chs).
  Proof.
    revert init. induction chs as [|ch chs IH]; intros init; cbn [scan concat fst snd]; [reflexivity|].
    rewrite scan_app. rewrite <- (IH (fst (scan f init ch))). reflexivity.
  Qed.

  Lemma inner_nested_unfold f l l2 rest init xs :
    inner_nested_scan f (l :: l2 :: rest) init xs
    = (fst (scan (fun c ch => inner_nested_scan f (l2 :: rest) c ch) init
                 (chunks l (lprod (l2 :: rest)) xs)),
       concat (snd (scan (fun c ch => inner_nested_scan f (l2 :: rest) c ch) init
                         (chunks l (lprod (l2 :: rest)) xs)))).
  Proof. reflexivity. Qed.

  Theorem inner_nested_scan_eq f lengths :
    lengths <> [] -> forall init (xs : list X),
    length xs = lprod lengths -> inner_nested_scan f lengths init xs = scan f init xs.
  Proof.
    induction lengths as [|l rest IH]; [congruence|].
    intros _ init xs Hlen. destruct rest as [|l2 rest]; [reflexivity|].
    rewrite inner_nested_unfold.
    assert (Hlen' : length xs = (l * lprod (l2 :: rest))%nat) by exact Hlen.
    rewrite (scan_ext_in _ (fun c ch => scan f c ch)).
    - rewrite scan_chunks. now rewrite chunks_concat.
    - intros c ch Hin. apply IH; [discriminate|].
      now apply (chunks_lengths l _ xs).
  Qed.

  Lemma opt_eqb_spec a n : opt_eqb a n = true <-> (forall k, a = Some k -> k = n).
  Proof.
    destruct a as [k|]; cbn.
    - rewrite Nat.eqb_eq. split; [intros -> k' [= <-]; reflexivity | intros H; now apply H].
    - split; [discriminate | reflexivity].
  Qed.

  Theorem nested_accepts_spec length xs_len lengths :
    nested_accepts length xs_len lengths = true <->
    (lengths <> [] /\ (forall k, length = Some k -> k = lprod lengths) /\
     (forall k, xs_len = Some k -> k = lprod lengths) /\
     Forall (fun l => l <> 0%nat) (removelast lengths)).
  Proof.
    unfold nested_accepts. rewrite !andb_true_iff, !opt_eqb_spec, negb_true_iff, Nat.eqb_neq, forallb_forall, Forall_forall.
    split.
    - intros [[[H1 H2] H3] H4]. repeat split; auto.
      + intros ->. now apply H3.
      + intros l Hl. specialize (H4 l Hl). rewrite negb_true_iff, Nat.eqb_neq in H4. exact H4.
    - intros (H1 & H2 & H3 & H4). repeat split; auto.
      + destruct lengths; [congruence|discriminate].
      + intros l Hl. rewrite negb_true_iff, Nat.eqb_neq. now apply H4.
  Qed.

  (** [xs = None] scans copies of the leafless value [xnone] *)
  Theorem nested_scan_accepted f init (xs : X + list X) length lengths :
    let l := match xs with inl xnone => repeat xnone (lprod lengths) | inr l => l end in
    nested_accepts length (match xs with inl _ => None | inr l => Some (List.length l) end) lengths = true ->
    nested_checkpoint_scan f init xs length lengths = Some (scan f init l).
  Proof.
    intros l H. unfold nested_checkpoint_scan. rewrite H. f_equal.
    apply nested_accepts_spec in H. destruct H as (H1 & _ & H3 & _).
    apply inner_nested_scan_eq; [exact H1|].
    destruct xs as [xnone|xs]; [apply repeat_length|now apply H3].
  Qed.

  Theorem nested_scan_eq_scan f init (xs : list X) length lengths :
    nested_accepts length (Some (List.length xs)) lengths = true ->
    nested_checkpoint_scan f init (inr xs) length lengths = Some (scan f init xs).
  Proof. exact (nested_scan_accepted f init (inr xs) length lengths). Qed.

  Theorem nested_scan_rejects f init (xs : list X) length lengths :
    List.length xs <> lprod lengths \/ (exists k, length = Some k /\ k <> lprod lengths) \/ lengths = [] ->
    nested_checkpoint_scan f init (inr xs) length lengths = None.
  Proof.
    intros H. unfold nested_checkpoint_scan.
    destruct (nested_accepts length (Some (List.length xs)) lengths) eqn:E; [|reflexivity].
    apply nested_accepts_spec in E. destruct E as (H1 & H2 & H3 & _). exfalso.
    destruct H as [H|[(k & Hk & Hne)|H]].
    - apply H. now apply H3.
    - apply Hne. now apply H2.
    - now apply H1.
  Qed.
End NestedThm.

Lemma map2_length {A B D} (g : A -> B -> D) la lb :
  length lb = length la -> length (map2 g la lb) = length la.
Proof.
  revert lb. induction la as [|a la IH]; intros [|b lb] H; cbn in *; try reflexivity; try discriminate.
  rewrite IH; auto.
Qed.

Lemma nth_map2 {A B D} (g : A -> B -> D) la lb i da db dd :
  (i < length la)%nat -> length lb = length la ->
  nth i (map2 g la lb) dd = g (nth i la da) (nth i lb db).
Proof.
  revert lb i. induction la as [|a la IH]; intros [|b lb] i Hi H; cbn in *; try lia.
  destruct i as [|i]; [reflexivity|]. apply IH; lia.
Qed.

Section AccumulateThm.
  Context {F : Type} {o : Ops F} {Fc : FieldC o}.
  Add Field FFc : (field_c : FieldTh o).
  Local Notation V := (@Combinators.V F).
  Local Notation ImEx := (@Combinators.ImEx F).

  Definition acc_body (step : V -> V) : V * V -> F -> (V * V) * unit :=
    fun carry weight =>
      ((step (fst carry), map2 (fun s a => a + weight * s) (step (fst carry)) (snd carry)), tt).

  Lemma acc_scan (step : V -> V) ws : forall (s a : V),
    (forall k, length (Nat.iter k step s) = length s) -> length a = length s ->
    let r := fst (scan (acc_body step) (s, a) ws) in
    fst r = Nat.iter (length ws) step s /\ length (snd r) = length s /\
    forall i, (i < length s)%nat ->
      nth i (snd r) 0
      = nth i a 0 + sumn (length ws) (fun k => nth k ws 0 * nth i (Nat.iter (S k) step s) 0).
  Proof.
    induction ws as [|w ws IH]; intros s a Hs Ha; cbv zeta.
    - cbn. repeat split; auto. intros i _. ring.
    - cbn [scan fst snd length]. unfold acc_body at 2 4 6. cbn [fst snd].
      assert (Hs1 : length (step s) = length s) by exact (Hs 1%nat).
      destruct (IH (step s) (map2 (fun s0 a0 => a0 + w * s0) (step s) a)) as (I1 & I2 & I3).
      + intros k. rewrite iter_shift, <- iter_S. rewrite (Hs (S k)). now rewrite Hs1.
      + rewrite map2_length; congruence.
      + split; [|split].
        * eapply eq_trans; [exact I1|]. apply iter_shift.
        * eapply eq_trans; [exact I2|exact Hs1].
        * intros i Hi. eapply eq_trans; [apply I3; now rewrite Hs1|].
          rewrite (nth_map2 _ _ _ _ 0 0) by congruence.
          rewrite (sumn_ext (length ws)
                     (fun k => nth k ws 0 * nth i (Nat.iter (S k) step (step s)) 0)
                     (fun k => nth (S k) (w :: ws) 0 * nth i (Nat.iter (S (S k)) step s) 0)).
          2:{ intros k _. cbn [nth]. now rewrite iter_shift. }
          rewrite (sumn_S_first (length ws)
                     (fun k => nth k (w :: ws) 0 * nth i (Nat.iter (S k) step s) 0)).
          cbn [nth]. change (Nat.iter 1 step s) with (step s). ring.
  Qed.

  (** accumulate_repeated = sum_k w_k * step^(k+1)(x), componentwise *)
  Theorem accumulate_is_sum (step : V -> V) ws (x : V) :
    (forall k, length (Nat.iter k step x) = length x) ->
    length (accumulate_repeated step ws x) = length x /\
    forall i, (i < length x)%nat ->
      nth i (accumulate_repeated step ws x) 0
      = sumn (length ws) (fun k => nth k ws 0 * nth i (Nat.iter (S k) step x) 0).
  Proof.
    intros Hs. unfold accumulate_repeated.
    destruct (acc_scan step ws x (zeros_like x) Hs) as (_ & I2 & I3).
    { unfold zeros_like. apply map_length. }
    cbv zeta in I2, I3. split; [exact I2|].
    intros i Hi. change (fun (carry : V * V) (weight : F) => _) with (acc_body step).
    rewrite I3 by exact Hi. unfold zeros_like.
    rewrite (nth_map_in _ _ _ 0) by exact Hi. ring.
  Qed.

  Lemma sumn_nth_map (h : F -> F) ws (g : nat -> F) :
    sumn (length (map h ws)) (fun k => nth k (map h ws) 0 * g k)
    = sumn (length ws) (fun k => h (nth k ws 0) * g k).
  Proof.
    rewrite map_length. apply sumn_ext. intros k Hk. now rewrite (nth_map_in _ _ _ 0).
  Qed.

  Theorem dfi_formula solver eq filters ws dt (x : V) :
    let fwd := step_with_filters (solver eq dt) filters in
    let bwd := step_with_filters (solver (time_reversed eq) dt) filters in
    let T := 1 + two * vsum ws in
    (forall k, length (Nat.iter k fwd x) = length x) ->
    (forall k, length (Nat.iter k bwd x) = length x) ->
    length (dfi solver eq filters ws dt x) = length x /\
    forall i, (i < length x)%nat ->
      nth i (dfi solver eq filters ws dt x) 0
      = 0 + nth i x 0 * (1 / T)
        + sumn (length ws) (fun k => nth k ws 0 / T * nth i (Nat.iter (S k) fwd x) 0)
        + sumn (length ws) (fun k => nth k ws 0 / T * nth i (Nat.iter (S k) bwd x) 0).
  Proof.
    intros fwd bwd T Hf Hb. unfold dfi. fold fwd bwd T.
    set (ws' := map (fun w => w / T) ws).
    destruct (accumulate_is_sum fwd ws' x Hf) as (Lf & Nf).
    destruct (accumulate_is_sum bwd ws' x Hb) as (Lb & Nb).
    assert (L1 : length (map2 (fun a b => 0 + a + b) (map (fun x0 => x0 * (1 / T)) x)
                               (accumulate_repeated fwd ws' x)) = length x).
    { rewrite map2_length; rewrite map_length; auto. }
    split.
    - rewrite map2_length; congruence.
    - intros i Hi.
      rewrite (nth_map2 _ _ _ _ 0 0) by congruence.
      rewrite (nth_map2 _ _ _ _ 0 0) by (rewrite map_length; auto).
      rewrite (nth_map_in _ _ _ 0) by exact Hi.
      rewrite Nf, Nb by exact Hi. unfold ws'. now rewrite !sumn_nth_map.
  Qed.

  Theorem dfi_fixed_point solver eq filters ws dt (x : V) :
    1 + two * vsum ws <> 0 ->
    step_with_filters (solver eq dt) filters x = x ->
    step_with_filters (solver (time_reversed eq) dt) filters x = x ->
    dfi solver eq filters ws dt x = x.
  Proof.
    intros HT Hf Hb.
    destruct (dfi_formula solver eq filters ws dt x) as (L & N).
    { intros k. now rewrite iter_fixed. }
    { intros k. now rewrite iter_fixed. }
    apply (nth_ext _ _ 0 0 L). intros i Hi. rewrite L in Hi. rewrite N by exact Hi.
    set (T := 1 + two * vsum ws) in *.
    assert (E : forall stp : V -> V, stp x = x ->
              sumn (length ws) (fun k => nth k ws 0 / T * nth i (Nat.iter (S k) stp x) 0)
              = vsum ws * (1 / T * nth i x 0)).
    { intros stp Hstp. unfold vsum. rewrite <- sumn_scal_r. apply sumn_ext. intros k _.
      rewrite iter_fixed by exact Hstp. unfold ofl. field. exact HT. }
    rewrite (E _ Hf), (E _ Hb). unfold T, two in *. field. exact HT.
  Qed.

  Lemma vneg_vneg (v : V) : vneg (vneg v) = v.
  Proof.
    unfold vneg. rewrite map_map. rewrite <- (map_id v) at 2. apply map_ext. intros a. ring.
  Qed.

  Theorem time_reversed_involutive (e : ImEx) s h :
    explicit_terms (time_reversed (time_reversed e)) s = explicit_terms e s /\
    implicit_terms (time_reversed (time_reversed e)) s = implicit_terms e s /\
    implicit_inverse (time_reversed (time_reversed e)) s h = implicit_inverse e s h.
  Proof.
    unfold time_reversed; cbn [explicit_terms implicit_terms implicit_inverse].
    rewrite !vneg_vneg. repeat split. f_equal. ring.
  Qed.

  Theorem bfe_reversed_is_negative_dt (e : ImEx) dt u :
    backward_forward_euler (time_reversed e) dt u = backward_forward_euler e (- dt) u.
  Proof.
    unfold backward_forward_euler. cbn [time_reversed explicit_terms implicit_inverse].
    f_equal. f_equal. unfold vscal, vneg. rewrite map_map. apply map_ext. intros a. ring.
  Qed.
End AccumulateThm.
