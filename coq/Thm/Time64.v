(** Proofs about Model/Time64.v: the binary64 round trips, through Flocq's
    specification of Coq's primitive floats ([Prim2B], [Bmult_correct], ...),
    the standard model of rounding ([relative_error_N_FLT_ex]) and explicit
    magnitude bookkeeping in powers of two (no [interval]: keeps the dependency
    closure - Print Assumptions, coqchk - small). *)
From Coq Require Import ZArith Reals Lra Lia PrimFloat Uint63 FloatOps List.
From Flocq Require Import Core Relative.
From Flocq Require Import IEEE754.BinarySingleNaN IEEE754.PrimFloat.
From Dino Require Import Model.Time64.
Local Open Scope R_scope.

Notation fexp64 := (FLT_exp (-1074) 53).
Definition rnd (x : R) : R := round radix2 fexp64 ZnearestE x.
Notation pfloat := Coq.Floats.PrimFloat.float.
Definition FR (x : pfloat) : R := B2R (Prim2B x).
Definition fin (x : pfloat) : Prop := is_finite (Prim2B x) = true.
Definition BIG : R := bpow radix2 1000.

Local Instance p53 : Prec_gt_0 53.
Proof. reflexivity. Qed.

Lemma fexp_eq : FLT_exp (3 - emax - prec) prec = fexp64.
Proof. reflexivity. Qed.

Lemma BIG_format : generic_format radix2 fexp64 BIG.
Proof. apply generic_format_FLT_bpow; [reflexivity | lia]. Qed.

Lemma rnd_lt_emax z : Rabs z <= BIG -> Rlt_bool (Rabs (rnd z)) (bpow radix2 emax) = true.
Proof.
  intros H. apply Rlt_bool_true.
  apply Rle_lt_trans with BIG.
  - apply abs_round_le_generic; auto with typeclass_instances. exact BIG_format.
  - apply bpow_lt. reflexivity.
Qed.

Lemma mul_R x y : fin x -> fin y -> Rabs (FR x * FR y) <= BIG ->
  FR (x * y)%float = rnd (FR x * FR y) /\ fin (x * y)%float.
Proof.
  unfold FR, fin. intros Hx Hy Hb. rewrite mul_equiv.
  generalize (Bmult_correct prec emax Hprec Hmax mode_NE (Prim2B x) (Prim2B y)).
  change (round radix2 (SpecFloat.fexp prec emax) (round_mode mode_NE)) with rnd.
  rewrite (rnd_lt_emax _ Hb). intros (H1 & H2 & _). rewrite H1, H2, Hx, Hy. split; reflexivity.
Qed.

Lemma div_R x y : fin x -> FR y <> 0 -> Rabs (FR x / FR y) <= BIG ->
  FR (x / y)%float = rnd (FR x / FR y) /\ fin (x / y)%float.
Proof.
  unfold FR, fin. intros Hx Hy Hb. rewrite div_equiv.
  generalize (Bdiv_correct prec emax Hprec Hmax mode_NE (Prim2B x) (Prim2B y) Hy).
  change (round radix2 (SpecFloat.fexp prec emax) (round_mode mode_NE)) with rnd.
  rewrite (rnd_lt_emax _ Hb). intros (H1 & H2 & _). rewrite H1, H2, Hx. split; reflexivity.
Qed.

Lemma rint_R x : fin x -> FR (rint x) = IZR (ZnearestE (FR x)) /\ fin (rint x).
Proof.
  unfold FR, fin, rint. intros Hx. rewrite Prim2B_B2Prim.
  destruct (Bnearbyint_correct prec emax Hmax mode_NE (Prim2B x)) as (H1 & H2 & _).
  rewrite H1, H2, Hx. split; [|reflexivity]. apply round_FIX_IZR.
Qed.

Lemma trunc_R x : trunc x = Ztrunc (FR x).
Proof.
  unfold trunc, FR. apply eq_IZR. rewrite Btrunc_correct. apply round_FIX_IZR. exact Hmax.
Qed.

Lemma format_IZR s : (Z.abs s < 2 ^ 53)%Z -> generic_format radix2 fexp64 (IZR s).
Proof.
  intros H. apply generic_format_FLT. apply (FLT_spec radix2 (-1074) 53 (IZR s) (Float radix2 s 0)).
  - unfold F2R; simpl. ring.
  - exact H.
  - simpl. lia.
Qed.

Lemma rnd_IZR s : (Z.abs s < 2 ^ 53)%Z -> rnd (IZR s) = IZR s.
Proof. intros H. apply round_generic; auto with typeclass_instances. now apply format_IZR. Qed.

Lemma of_nonneg_R s : (0 <= s < 2 ^ 53)%Z -> FR (of_uint63 (Uint63.of_Z s)) = IZR s /\ fin (of_uint63 (Uint63.of_Z s)).
Proof.
  intros Hs. unfold FR, fin.
  assert (E : Uint63.to_Z (Uint63.of_Z s) = s).
  { rewrite Uint63.of_Z_spec. apply Z.mod_small. unfold Uint63.wB, Uint63.size. simpl. lia. }
  rewrite (of_int63_equiv (Uint63.of_Z s)). rewrite E.
  generalize (binary_normalize_correct prec emax Hprec Hmax mode_NE s 0 false). cbv zeta.
  change (round radix2 (SpecFloat.fexp prec emax) (round_mode mode_NE)) with rnd.
  replace (F2R (Float radix2 s 0)) with (IZR s) by (unfold F2R; simpl; ring).
  rewrite rnd_IZR by lia.
  rewrite Rlt_bool_true.
  - intros (H1 & H2 & _). split; assumption.
  - apply Rlt_le_trans with (bpow radix2 53).
    + rewrite <- abs_IZR. rewrite <- (IZR_Zpower radix2 53) by lia. apply IZR_lt. simpl. lia.
    + apply bpow_le. unfold emax. lia.
Qed.

Lemma of_Z_R s : (Z.abs s < 2 ^ 53)%Z -> FR (of_Z s) = IZR s /\ fin (of_Z s).
Proof.
  intros Hs. unfold of_Z. destruct (Z.ltb_spec s 0) as [Hn|Hp].
  - destruct (of_nonneg_R (- s)) as (H1 & H2); [lia|].
    unfold FR, fin in *. rewrite opp_equiv, B2R_Bopp, is_finite_Bopp, H1, H2. split; [|reflexivity].
    rewrite opp_IZR. ring.
  - apply of_nonneg_R. lia.
Qed.

Lemma FR_SF x : FR x = SF2R radix2 (Prim2SF x).
Proof. unfold FR, Prim2B. apply B2R_SF2B. Qed.
Lemma fin_SF x : is_finite_SF (Prim2SF x) = true -> fin x.
Proof. unfold fin, Prim2B. now rewrite is_finite_SF2B. Qed.

Ltac const_val := rewrite FR_SF; match goal with |- context [SF2R _ ?v] => let w := eval vm_compute in v in change v with w end;
  unfold SF2R, F2R; simpl; lra.

Lemma FR_1000 : FR f1000 = 1000. Proof. const_val. Qed.
Lemma fin_60 : fin f60. Proof. apply fin_SF. vm_compute. reflexivity. Qed.

Definition u53 : R := / 9007199254740992.
Lemma u53_eq : / 2 * bpow radix2 (- 53 + 1) = u53.
Proof. unfold u53. simpl. lra. Qed.

(** magnitude bookkeeping: [Bnd a b x] is 2^a <= |x| <= 2^b *)
Definition Bnd (a b : Z) (x : R) : Prop := bpow radix2 a <= Rabs x <= bpow radix2 b.
Definition UB (b : Z) (x : R) : Prop := Rabs x <= bpow radix2 b.

Lemma Bnd_nz a b x : Bnd a b x -> x <> 0.
Proof.
  intros [H _] E. rewrite E, Rabs_R0 in H. pose proof (bpow_gt_0 radix2 a). lra.
Qed.

Lemma Bnd_mul a1 b1 a2 b2 x y : Bnd a1 b1 x -> Bnd a2 b2 y -> Bnd (a1 + a2) (b1 + b2) (x * y).
Proof.
  unfold Bnd. intros [H1 H2] [H3 H4]. rewrite Rabs_mult, !bpow_plus.
  split; apply Rmult_le_compat; try apply bpow_ge_0; try apply Rabs_pos; assumption.
Qed.

Lemma Bnd_inv a b x : Bnd a b x -> Bnd (- b) (- a) (/ x).
Proof.
  intros H. pose proof (Bnd_nz a b x H) as Hx. destruct H as [H1 H2].
  unfold Bnd. rewrite Rabs_inv, !bpow_opp. split.
  - apply Rinv_le_contravar; [now apply Rabs_pos_lt | assumption].
  - apply Rinv_le_contravar; [apply bpow_gt_0 | assumption].
Qed.

Lemma Bnd_div a1 b1 a2 b2 x y : Bnd a1 b1 x -> Bnd a2 b2 y -> Bnd (a1 + - b2) (b1 + - a2) (x / y).
Proof. intros H1 H2. unfold Rdiv. apply Bnd_mul; [exact H1 | now apply Bnd_inv]. Qed.

Lemma Bnd_1pe e : Rabs e <= u53 -> Bnd (-1) 1 (1 + e).
Proof.
  intros H. apply Rabs_le_inv in H. unfold u53 in H. unfold Bnd.
  rewrite Rabs_pos_eq by lra. simpl. lra.
Qed.

Lemma Bnd_pos a b (x : R) : bpow radix2 a <= x <= bpow radix2 b -> Bnd a b x.
Proof.
  intros H. unfold Bnd. rewrite Rabs_pos_eq; [exact H|].
  apply Rle_trans with (2 := proj1 H). apply bpow_ge_0.
Qed.

Lemma UB_Z s k : (0 <= k)%Z -> (Z.abs s < 2 ^ k)%Z -> UB k (IZR s).
Proof.
  intros Hk H. unfold UB. rewrite <- abs_IZR, <- (IZR_Zpower radix2 k Hk). apply IZR_le. simpl. lia.
Qed.

(** one rounding step on an argument of the form [IZR s * y]: no overflow, the
    standard model holds (also for s = 0), and the magnitude bookkeeping of the
    new factor *)
Lemma step s y a b :
  UB 40 (IZR s) -> Bnd a b y -> (-1022 <= a)%Z -> (b <= 900)%Z ->
  Rabs (IZR s * y) <= BIG /\
  exists e, Rabs e <= u53 /\ rnd (IZR s * y) = IZR s * y * (1 + e) /\ Bnd (a + -1) (b + 1) (y * (1 + e)).
Proof.
  intros HS Hy Ha Hb. split.
  - unfold BIG. rewrite Rabs_mult. apply Rle_trans with (bpow radix2 40 * bpow radix2 b).
    + apply Rmult_le_compat; try apply Rabs_pos; [exact HS | apply Hy].
    + rewrite <- bpow_plus. apply bpow_le. lia.
  - assert (E : exists e, Rabs e <= u53 /\ rnd (IZR s * y) = IZR s * y * (1 + e)).
    { destruct (Z.eq_dec s 0) as [->|Hs].
      - exists 0. split; [unfold u53; rewrite Rabs_R0; lra|].
        rewrite Rmult_0_l. unfold rnd. rewrite round_0 by auto with typeclass_instances. ring.
      - rewrite <- u53_eq. apply (relative_error_N_FLT_ex radix2 (-1074) 53 p53 (fun x => negb (Z.even x))).
        apply Rle_trans with (bpow radix2 a); [apply bpow_le; lia|].
        apply Rle_trans with (1 := proj1 Hy).
        rewrite Rabs_mult. apply Rle_trans with (1 * Rabs y); [lra|].
        apply Rmult_le_compat_r; [apply Rabs_pos|]. rewrite <- abs_IZR. apply IZR_le. lia. }
    destruct E as (e & He & E). exists e. split; [exact He|]. split; [exact E|].
    apply Bnd_mul; [exact Hy | now apply Bnd_1pe].
Qed.

(** [k] roundings leave a factor within [eps k] of 1 *)
Definition eps (k : nat) : R := (1 + u53) ^ k - 1.

Lemma eps_mul P Q k j : Rabs (P - 1) <= eps k -> Rabs (Q - 1) <= eps j -> Rabs (P * Q - 1) <= eps (k + j).
Proof.
  intros HP HQ. replace (P * Q - 1) with ((P - 1) + (Q - 1) + (P - 1) * (Q - 1)) by ring.
  replace (eps (k + j)) with (eps k + eps j + eps k * eps j) by (unfold eps; rewrite pow_add; ring).
  apply Rle_trans with (1 := Rabs_triang _ _).
  apply Rplus_le_compat; [apply Rle_trans with (1 := Rabs_triang _ _); now apply Rplus_le_compat|].
  rewrite Rabs_mult. apply Rmult_le_compat; try apply Rabs_pos; assumption.
Qed.

(** [apx s v q k a b]: the real [v] is [s * q] up to [k] roundings, and what
    stands beside [s] (which may be 0) has magnitude in [2^a, 2^b] *)
Definition apx (s : Z) (v q : R) (k : nat) (a b : Z) : Prop :=
  exists P, v = IZR s * (q * P) /\ Rabs (P - 1) <= eps k /\ Bnd a b (q * P).

Lemma apx_exact s q a b : Bnd a b q -> apx s (IZR s * q) q 0 a b.
Proof.
  intros B. exists 1. rewrite Rmult_1_r. split; [reflexivity|]. split; [|exact B].
  unfold eps. simpl. unfold Rminus. rewrite Rplus_opp_r, Rabs_R0. lra.
Qed.

Lemma apx_mul {s v w q qc k j a b a' b'} :
  apx s v q k a b -> apx 1 w qc j a' b' -> apx s (v * w) (q * qc) (k + j) (a + a') (b + b').
Proof.
  intros (P & -> & HP & B) (Q & -> & HQ & B'). exists (P * Q).
  split; [ring|]. split; [now apply eps_mul|].
  replace (q * qc * (P * Q)) with (q * P * (qc * Q)) by ring. now apply Bnd_mul.
Qed.

(** division, by an exact operand *)
Lemma apx_div {s v w q qc k a b a' b'} :
  apx s v q k a b -> apx 1 w qc 0 a' b' -> w <> 0 /\ apx s (v / w) (q / qc) k (a + - b') (b + - a').
Proof.
  intros (P & -> & HP & B) (Q & -> & HQ & B').
  assert (Q = 1) as -> by (unfold eps in HQ; simpl in HQ; apply Rabs_le_inv in HQ; lra).
  rewrite Rmult_1_r in *. pose proof (Bnd_nz _ _ _ B') as Hq.
  split; [lra|]. exists P. split; [now field|]. split; [exact HP|].
  replace (q / qc * P) with (q * P / qc) by now field. now apply Bnd_div.
Qed.

Lemma apx_rnd {s v q k a b} :
  UB 40 (IZR s) -> apx s v q k a b -> (-1022 <= a)%Z -> (b <= 900)%Z ->
  Rabs v <= BIG /\ apx s (rnd v) q (S k) (a + -1) (b + 1).
Proof.
  intros HS (P & -> & HP & B) Ha Hb.
  destruct (step s (q * P) a b HS B Ha Hb) as (G & e & He & R & B').
  split; [exact G|]. exists (P * (1 + e)). rewrite R. split; [ring|]. split.
  - rewrite <- Nat.add_1_r. apply eps_mul; [exact HP|].
    unfold eps. simpl. now replace (1 + e - 1) with e by ring; replace ((1 + u53) * 1 - 1) with u53 by ring.
  - now replace (q * (P * (1 + e))) with (q * P * (1 + e)) by ring.
Qed.

(** the same of a finite float *)
Definition appr (s : Z) (x : pfloat) (q : R) (k : nat) (a b : Z) : Prop :=
  fin x /\ apx s (FR x) q k a b.

Lemma appr_mul {s x c q qc k j a b a' b'} :
  UB 40 (IZR s) -> appr s x q k a b -> appr 1 c qc j a' b' -> (-1022 <= a + a')%Z -> (b + b' <= 900)%Z ->
  appr s (x * c)%float (q * qc) (S (k + j)) (a + a' + -1) (b + b' + 1).
Proof.
  intros HS (Fx & Ax) (Fc & Ac) Ha Hb.
  destruct (apx_rnd HS (apx_mul Ax Ac) Ha Hb) as (G & A).
  destruct (mul_R x c Fx Fc G) as (E & Fm). split; [exact Fm | now rewrite E].
Qed.

Lemma appr_div {s x c q qc k a b a' b'} :
  UB 40 (IZR s) -> appr s x q k a b -> appr 1 c qc 0 a' b' -> (-1022 <= a + - b')%Z -> (b + - a' <= 900)%Z ->
  appr s (x / c)%float (q / qc) (S k) (a + - b' + -1) (b + - a' + 1).
Proof.
  intros HS (Fx & Ax) (Fc & Ac) Ha Hb. destruct (apx_div Ax Ac) as (Hc & Ad).
  destruct (apx_rnd HS Ad Ha Hb) as (G & A).
  destruct (div_R x c Fx Hc G) as (E & Fd). split; [exact Fd | now rewrite E].
Qed.

(** [np.round] of a float that is [n * s] up to [k] roundings is [n * s]; the
    numeral is 2^40, the bound on [s] *)
Lemma appr_rint {s x q k a b} (n : Z) :
  UB 40 (IZR s) -> appr s x q k a b -> (0 <= n)%Z -> q = IZR n -> 1099511627776 * (IZR n * eps k) < / 2 ->
  FR (rint x) = IZR (n * s) /\ fin (rint x).
Proof.
  intros HS (Fx & P & E & HP & _) Hn -> Hd. destruct (rint_R x Fx) as (Er & Fr).
  split; [|exact Fr]. rewrite Er. f_equal. apply Znearest_imp. rewrite E, mult_IZR.
  replace (IZR s * (IZR n * P) - IZR n * IZR s) with (IZR s * (IZR n * (P - 1))) by ring.
  apply Rle_lt_trans with (2 := Hd). apply IZR_le in Hn.
  rewrite !Rabs_mult, (Rabs_pos_eq (IZR n)) by exact Hn.
  apply Rmult_le_compat; try apply Rabs_pos; [apply Rmult_le_pos; [exact Hn | apply Rabs_pos] | exact HS |].
  now apply Rmult_le_compat_l.
Qed.

Lemma appr_lit c q a b : fin c -> FR c = q -> bpow radix2 a <= q <= bpow radix2 b -> appr 1 c q 0 a b.
Proof.
  intros Fc E H. split; [exact Fc|]. rewrite E, <- (Rmult_1_l q) at 1. now apply apx_exact, Bnd_pos.
Qed.

Lemma lit_1000 : appr 1 f1000 1000 0 9 10.
Proof. apply appr_lit; [apply fin_SF; vm_compute; reflexivity | exact FR_1000 | simpl; lra]. Qed.
Lemma lit_3600 : appr 1 f3600 3600 0 11 12.
Proof. apply appr_lit; [apply fin_SF; vm_compute; reflexivity | const_val | simpl; lra]. Qed.
Lemma lit_60 : appr 1 f60 60 0 5 6.
Proof. apply appr_lit; [exact fin_60 | const_val | simpl; lra]. Qed.
Lemma lit_1 : appr 1 1%float 1 0 0 0.
Proof. apply appr_lit; [apply fin_SF; vm_compute; reflexivity | const_val | simpl; lra]. Qed.

Lemma UB_1 : UB 40 1.
Proof. apply (UB_Z 1 40); [lia | reflexivity]. Qed.

Lemma appr_c_min : appr 1 c_min (1 / 60) 1 (-7) (-4).
Proof. exact (appr_div UB_1 lit_1 lit_60 ltac:(lia) ltac:(lia)). Qed.

Lemma appr_of_Z s : (Z.abs s < 2 ^ 40)%Z -> appr s (of_Z s) 1 0 0 0.
Proof.
  intros Hs. destruct (of_Z_R s) as (E & Fs); [lia|]. split; [exact Fs|].
  rewrite E, <- (Rmult_1_r (IZR s)). apply apx_exact, Bnd_pos. simpl. lra.
Qed.

(** admissible time scales: finite binary64 numbers in [2^-100, 2^100] seconds *)
Definition T_ok (T : pfloat) : Prop := fin T /\ bpow radix2 (-100) <= FR T <= bpow radix2 100.

Lemma T_ok_appr T : T_ok T -> appr 1 T (FR T) 0 (-100) 100.
Proof. intros (FT & H). now apply appr_lit. Qed.

Lemma T_ok_nz T : T_ok T -> FR T <> 0.
Proof. intros (_ & H & _). pose proof (bpow_gt_0 radix2 (-100)). lra. Qed.

Theorem timedelta_roundtrip (T : pfloat) (s : Z) :
  T_ok T -> (Z.abs s < 2 ^ 40)%Z -> td_roundtrip T s = s.
Proof.
  intros HT Hs. pose proof (T_ok_appr T HT) as AT. pose proof (T_ok_nz T HT) as Ht0.
  pose proof (UB_Z s 40 ltac:(lia) Hs) as HS.
  unfold td_roundtrip, dim_td, snap_ms, dim_s, nondim_td.
  pose proof (appr_of_Z s Hs) as A0.
  pose proof (appr_div HS A0 AT ltac:(lia) ltac:(lia)) as A1.        (* nondimensionalize: fl(s / T) *)
  pose proof (appr_mul HS A1 AT ltac:(lia) ltac:(lia)) as A2.        (* dimensionalize: fl(nd * T) *)
  pose proof (appr_mul HS A2 lit_1000 ltac:(lia) ltac:(lia)) as A3.  (* dt * 1e3 *)
  destruct (appr_rint 1000 HS A3) as (E4 & F4);
    [lia | now field | unfold eps, u53; cbn [pow Nat.add]; lra |].
  set (r := rint _) in *.
  (* / 1e3 : exact *)
  assert (A5 : FR r / FR f1000 = IZR s) by (rewrite E4, FR_1000, mult_IZR; field).
  destruct (div_R r f1000 F4) as (E5 & F5).
  { rewrite FR_1000. lra. }
  { rewrite A5. unfold BIG. apply Rle_trans with (1 := HS). apply bpow_le. lia. }
  rewrite A5, rnd_IZR in E5 by lia.
  rewrite trunc_R, E5. apply Ztrunc_IZR.
Qed.

Theorem datetime_roundtrip_minutes (T : pfloat) (M : Z) :
  T_ok T -> (Z.abs M < 2 ^ 40)%Z -> dt_roundtrip T M = M.
Proof.
  intros HT HM. pose proof (T_ok_appr T HT) as AT. pose proof (T_ok_nz T HT) as Ht0.
  pose proof (UB_Z M 40 ltac:(lia) HM) as HS.
  unfold dt_roundtrip, dim_dt, dim_min, nondim_dt, nondim_hours, hours_of_minutes.
  pose proof (appr_of_Z M HM) as A0.
  pose proof (appr_div HS A0 lit_60 ltac:(lia) ltac:(lia)) as A1.      (* hours = fl(M / 60) *)
  pose proof (appr_div HS A1 AT ltac:(lia) ltac:(lia)) as A2.          (* fl(h / T) *)
  pose proof (appr_mul HS A2 lit_3600 ltac:(lia) ltac:(lia)) as A3.    (* fl(x * 3600) *)
  pose proof (appr_mul HS A3 AT ltac:(lia) ltac:(lia)) as A4.          (* fl(nd * T) *)
  pose proof (appr_mul HS A4 appr_c_min ltac:(lia) ltac:(lia)) as A5.  (* fl(y * c_min), c_min = fl(1 / 60) *)
  destruct (appr_rint 1 HS A5) as (E6 & _);
    [lia | now field | unfold eps, u53; cbn [pow Nat.add]; lra |].
  rewrite trunc_R, E6, Z.mul_1_l. apply Ztrunc_IZR.
Qed.

(** the code before the fix (truncation without the millisecond snap) loses a second at s = 27 *)
Theorem old_code_refuted : td_roundtrip_old T_default 27 = 26%Z.
Proof. vm_compute. reflexivity. Qed.

Lemma T_default_ok : T_ok T_default.
Proof.
  split; [apply fin_SF; vm_compute; reflexivity | const_val].
Qed.

(** real-analysis core of the millisecond snap (no float rounding): a value
    within 2^-12 of a whole number of seconds is snapped onto it *)
Theorem snap_ms_R (dt : R) (s : Z) :
  Rabs (dt - IZR s) <= / 4096 -> Ztrunc (IZR (ZnearestE (dt * 1000)) / 1000) = s.
Proof.
  intros H.
  assert (N : ZnearestE (dt * 1000) = (1000 * s)%Z).
  { apply Znearest_imp. rewrite mult_IZR.
    replace (dt * 1000 - 1000 * IZR s) with (1000 * (dt - IZR s)) by ring.
    rewrite Rabs_mult, (Rabs_pos_eq 1000) by lra. lra. }
  rewrite N, mult_IZR. replace (1000 * IZR s / 1000) with (IZR s) by field. apply Ztrunc_IZR.
Qed.

(** without the snap the truncation is only safe from above: one ulp below a
    whole second already loses it *)
Theorem trunc_below_loses (s : Z) (dt : R) : (0 < s)%Z -> IZR s - 1 <= dt < IZR s -> Ztrunc dt = (s - 1)%Z.
Proof.
  intros Hs H. rewrite Ztrunc_floor.
  - apply Zfloor_imp. rewrite minus_IZR, plus_IZR, minus_IZR. simpl. lra.
  - assert (1 <= IZR s) by (apply IZR_le; lia). lra.
Qed.
