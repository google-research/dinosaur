(** Theorems about the implicit-solve model (property C03), for every field,
    every layer count K, all boundaries, reference temperatures, kappa, R,
    Laplacian eigenvalues and step sizes eta of either sign. *)
From Dino Require Import Base.Ops Base.Sums Base.Ord Model.Sigma Thm.Sigma Model.Implicit.
Local Open Scope F_scope.

Lemma add_sub_l a b : (a + b - a)%nat = b.
Proof. lia. Qed.

(** the index np.roll(a, 1, axis=0) reads in row r > 0 *)
Lemma roll_index K r : (0 < r)%nat -> (r < K)%nat -> ((r + K - 1) mod K = r - 1)%nat.
Proof.
  intros H0 H1. replace (r + K - 1)%nat with ((r - 1) + 1 * K)%nat by lia.
  rewrite Nat.mod_add by lia. apply Nat.mod_small. lia.
Qed.

(** [stack] and the rows and the columns of [implicit_matrix] choose among
    three blocks by the same two tests *)
Section Select.
  Context {A : Type} (K : nat) (a b c : A).
  Lemma sel_lo i : (i < K)%nat -> (if Nat.ltb i K then a else if Nat.ltb i (2 * K) then b else c) = a.
  Proof. intros H. destruct (Nat.ltb_spec i K); [reflexivity|lia]. Qed.
  Lemma sel_mid g :
    (g < K)%nat -> (if Nat.ltb (K + g) K then a else if Nat.ltb (K + g) (2 * K) then b else c) = b.
  Proof.
    intros H. destruct (Nat.ltb_spec (K + g) K); [lia|].
    destruct (Nat.ltb_spec (K + g) (2 * K)); [reflexivity|lia].
  Qed.
  Lemma sel_hi : (if Nat.ltb (2 * K) K then a else if Nat.ltb (2 * K) (2 * K) then b else c) = c.
  Proof.
    destruct (Nat.ltb_spec (2 * K) K); [lia|].
    destruct (Nat.ltb_spec (2 * K) (2 * K)); [lia|reflexivity].
  Qed.
End Select.

Section Matrices.
  Context {F : Type} {o : Ops F} {Fc : FieldC o}.
  Add Field FFla : (field_c : FieldTh o).

  Definition is_left_inverse (n : nat) (X M : @Mat F) : Prop :=
    forall i j, (i < n)%nat -> (j < n)%nat -> matmul n X M i j = eye i j.

  (** [is_left_inverse] as a test of the n * n entries: one evaluation settles a concrete instance *)
  Definition left_inverse_b (n : nat) (X M : @Mat F) : bool :=
    forallb (fun i => forallb (fun j => feqb (matmul n X M i j) (eye i j)) (seq 0 n)) (seq 0 n).

  Lemma left_inverse_b_sound n (X M : @Mat F) :
    (forall x y : F, feqb x y = true -> x = y) -> left_inverse_b n X M = true -> is_left_inverse n X M.
  Proof.
    intros E H i j Hi Hj. apply E. unfold left_inverse_b in H.
    rewrite forallb_forall in H. specialize (H i ltac:(apply in_seq; lia)).
    rewrite forallb_forall in H. apply H, in_seq. lia.
  Qed.

  Lemma matvec_ext n (A : @Mat F) x y i :
    (forall h, (h < n)%nat -> x h = y h) -> matvec n A x i = matvec n A y i.
  Proof. intros H. unfold matvec. apply sumn_ext. intros h Hh. now rewrite H. Qed.

  Lemma matvec_ext_mat n (A B : @Mat F) x i :
    (forall h, (h < n)%nat -> A i h = B i h) -> matvec n A x i = matvec n B x i.
  Proof. intros H. unfold matvec. apply sumn_ext. intros h Hh. now rewrite H. Qed.

  Lemma matvec_scal n (A B : @Mat F) a x i :
    (forall h, (h < n)%nat -> A i h = a * B i h) -> matvec n A x i = a * matvec n B x i.
  Proof.
    intros H. unfold matvec. rewrite <- sumn_scal_l. apply sumn_ext. intros h Hh. rewrite H by assumption. ring.
  Qed.

  Lemma matvec_lin n (A : @Mat F) a b x y i :
    matvec n A (fun h => a * x h + b * y h) i = a * matvec n A x i + b * matvec n A y i.
  Proof.
    unfold matvec. rewrite <- !sumn_scal_l, <- sumn_add. apply sumn_ext. intros; ring.
  Qed.

  Lemma matvec_add n (A : @Mat F) x y i :
    matvec n A (fun h => x h + y h) i = matvec n A x i + matvec n A y i.
  Proof. unfold matvec. rewrite <- sumn_add. apply sumn_ext. intros; ring. Qed.

  Lemma matvec_1 (A : @Mat F) x i : matvec 1 A x i = A i 0%nat * x 0%nat.
  Proof. unfold matvec. cbn [sumn]. ring. Qed.

  (** rectangular: A is p x m, B is m x n *)
  Lemma matvec_matmul n m (A B : @Mat F) x i :
    matvec n (matmul m A B) x i = matvec m A (matvec n B x) i.
  Proof.
    unfold matvec, matmul.
    rewrite (sumn_ext n _ (fun h => sumn m (fun k => A i k * (B k h * x h)))).
    2:{ intros h _. rewrite <- sumn_scal_r. apply sumn_ext. intros; cbv beta; ring. }
    rewrite sumn_exchange. apply sumn_ext. intros k _. now rewrite sumn_scal_l.
  Qed.

  Lemma matvec_eye n (x : nat -> F) i : (i < n)%nat -> matvec n eye x i = x i.
  Proof. intros Hi. unfold matvec, eye. now apply sumn_delta_l. Qed.

  Lemma left_inverse_apply n (X M : @Mat F) x i :
    is_left_inverse n X M -> (i < n)%nat -> matvec n X (matvec n M x) i = x i.
  Proof.
    intros H Hi. rewrite <- matvec_matmul.
    rewrite (matvec_ext_mat n _ eye) by (intros h Hh; now apply H).
    now apply matvec_eye.
  Qed.

  Lemma matvec_I_minus n (P : @Mat F) x i :
    (i < n)%nat -> matvec n (fun i j => eye i j - P i j) x i = x i - matvec n P x i.
  Proof.
    intros Hi. unfold matvec.
    rewrite (sumn_ext n _ (fun h => delta i h * x h - P i h * x h)) by (intros; unfold eye; ring).
    rewrite sumn_sub, sumn_delta_l by assumption. reflexivity.
  Qed.

  Lemma memo2_ok n m (f : @Mat F) i j : (i < n)%nat -> (j < m)%nat -> memo2 n m f i j = f i j.
  Proof.
    intros Hi Hj. unfold memo2.
    rewrite (nth_indep _ [] ((fun i => tab m (f i)) 0%nat)) by (rewrite map_length, seq_length; lia).
    rewrite (map_nth (fun i => tab m (f i))). rewrite seq_nth by lia. cbn [Nat.add].
    now apply tab_nth.
  Qed.

  (** The block-wise (Schur complement) solve, for arbitrary blocks
      G (n x m) and H (m x n):
        [ I G ]^-1 = [ (I-GH)^-1  0 ] [ I  -G ]
        [ H I ]      [ 0  (I-HG)^-1 ] [ -H  I ]
      used as a left inverse: applied to (u + G v, H u + v) it returns (u, v). *)
  Theorem schur_blockwise_generic n m (G H A B : @Mat F) (u v yu yv : nat -> F) :
    is_left_inverse n A (fun i j => eye i j - matmul m G H i j) ->
    is_left_inverse m B (fun i j => eye i j - matmul n H G i j) ->
    (forall i, (i < n)%nat -> yu i = u i + matvec m G v i) ->
    (forall i, (i < m)%nat -> yv i = matvec n H u i + v i) ->
    (forall i, (i < n)%nat -> matvec n A (fun g => yu g - matvec m G yv g) i = u i) /\
    (forall i, (i < m)%nat -> matvec m B (fun g => yv g - matvec n H yu g) i = v i).
  Proof.
    intros HA HB Hu Hv. split; intros i Hi.
    - rewrite <- (left_inverse_apply n A _ u i HA Hi). apply matvec_ext. intros g Hg.
      rewrite matvec_I_minus by assumption. rewrite matvec_matmul.
      rewrite Hu by assumption.
      rewrite (matvec_ext m G yv (fun h => matvec n H u h + v h)) by (intros; now apply Hv).
      rewrite matvec_add. ring.
    - rewrite <- (left_inverse_apply m B _ v i HB Hi). apply matvec_ext. intros g Hg.
      rewrite matvec_I_minus by assumption. rewrite matvec_matmul.
      rewrite Hv by assumption.
      rewrite (matvec_ext n H yu (fun h => u h + matvec m G v h)) by (intros; now apply Hu).
      rewrite matvec_add. ring.
  Qed.

  (** equality of the K + K + 1 active entries of two columns *)
  Definition col_eq (K : nat) (x y : @Col F) : Prop :=
    (forall g, (g < K)%nat -> c_div x g = c_div y g) /\
    (forall g, (g < K)%nat -> c_temp x g = c_temp y g) /\
    c_lnps x = c_lnps y.

  Lemma col_eq_refl K x : col_eq K x x.
  Proof. repeat split. Qed.
  Lemma col_eq_sym K x y : col_eq K x y -> col_eq K y x.
  Proof. intros (A & B & C). repeat split; intros; symmetry; auto. Qed.
  Lemma col_eq_trans K x y z : col_eq K x y -> col_eq K y z -> col_eq K x z.
  Proof.
    intros (A & B & C) (A' & B' & C'). repeat split; intros.
    - rewrite A by assumption. now apply A'.
    - rewrite B by assumption. now apply B'.
    - now rewrite C.
  Qed.

  Lemma col_minus_scaled_ext K (x : @Col F) eta t t' :
    col_eq K t t' -> col_eq K (col_minus_scaled x eta t) (col_minus_scaled x eta t').
  Proof.
    intros (A & B & C). repeat split; cbn [col_minus_scaled c_div c_temp c_lnps]; intros;
      rewrite ?A, ?B, ?C by assumption; reflexivity.
  Qed.

  Lemma stack_div K (x : @Col F) h : (h < K)%nat -> stack K x h = c_div x h.
  Proof. exact (sel_lo K _ _ _ h). Qed.
  Lemma stack_temp K (x : @Col F) h : (h < K)%nat -> stack K x (K + h)%nat = c_temp x h.
  Proof. intros H. unfold stack. now rewrite sel_mid, add_sub_l. Qed.
  Lemma stack_lnps K (x : @Col F) : stack K x (2 * K)%nat = c_lnps x.
  Proof. exact (sel_hi K _ _ _). Qed.

  Lemma stack_ext K (x y : @Col F) h : col_eq K x y -> (h < 2 * K + 1)%nat -> stack K x h = stack K y h.
  Proof.
    intros (A & B & C) Hh. unfold stack.
    destruct (Nat.ltb_spec h K); [now apply A|].
    destruct (Nat.ltb_spec h (2 * K)); [apply B; lia | exact C].
  Qed.

  Lemma stack_unstack K (v : nat -> F) h : (h < 2 * K + 1)%nat -> stack K (unstack K v) h = v h.
  Proof.
    intros Hh. unfold stack, unstack. cbn [c_div c_temp c_lnps].
    destruct (Nat.ltb_spec h K); [reflexivity|].
    destruct (Nat.ltb_spec h (2 * K)); f_equal; lia.
  Qed.

  Lemma stack_inj K (a b : @Col F) :
    (forall h, (h < 2 * K + 1)%nat -> stack K a h = stack K b h) -> col_eq K a b.
  Proof.
    intros H. repeat split.
    - intros g Hg. rewrite <- (stack_div K a g Hg), <- (stack_div K b g Hg). apply H. lia.
    - intros g Hg. rewrite <- (stack_temp K a g Hg), <- (stack_temp K b g Hg). apply H. lia.
    - rewrite <- (stack_lnps K a), <- (stack_lnps K b). apply H. lia.
  Qed.

  (** row r + i of a (2K+1)-column matrix applied to a stacked column, by column blocks *)
  Lemma matvec_stack K (A : @Mat F) (x : @Col F) r i :
    matvec (2 * K + 1) A (stack K x) (r + i)
    = matvec K (blk A r 0) (c_div x) i + matvec K (blk A r K) (c_temp x) i
      + matvec 1 (blk A r (2 * K)) (lnps_vec x) i.
  Proof.
    rewrite matvec_1. unfold matvec, blk, lnps_vec.
    replace (2 * K + 1)%nat with (K + (K + 1))%nat by lia.
    rewrite sumn_split, sumn_split. cbn [sumn Nat.add].
    rewrite (sumn_ext K (fun h => A (r + i)%nat h * stack K x h) (fun h => A (r + i)%nat h * c_div x h))
      by (intros h Hh; now rewrite stack_div).
    rewrite (sumn_ext K (fun h => A (r + i)%nat (K + h)%nat * stack K x (K + h)%nat)
                        (fun h => A (r + i)%nat (K + h)%nat * c_temp x h))
      by (intros h Hh; now rewrite stack_temp).
    replace (K + (K + 0))%nat with (2 * K)%nat by lia. rewrite stack_lnps, Nat.add_0_r. ring.
  Qed.

  (** the (temperature, log surface pressure) part of a column as one vector of K+1 entries *)
  Definition tlvec (K : nat) (T : nat -> F) (p : F) (h : nat) : F := if Nat.ltb h K then T h else p.

  Lemma tlvec_lt K T p h : (h < K)%nat -> tlvec K T p h = T h.
  Proof. intros H. unfold tlvec. destruct (Nat.ltb_spec h K); [reflexivity|lia]. Qed.
  Lemma tlvec_K K T p : tlvec K T p K = p.
  Proof. unfold tlvec. now rewrite Nat.ltb_irrefl. Qed.

  Lemma matvec_tlvec K (A : @Mat F) T p i :
    matvec (K + 1) A (tlvec K T p) i = matvec K A T i + A i K * p.
  Proof.
    unfold matvec. rewrite Nat.add_1_r. cbn [sumn]. rewrite tlvec_K. f_equal.
    apply sumn_ext. intros h Hh. now rewrite tlvec_lt.
  Qed.

  Lemma blk_tl K (B : @Mat F) r T p i :
    matvec K (blk B r 0) T i + matvec 1 (blk B r K) (fun _ => p) i
    = matvec (K + 1) B (tlvec K T p) (r + i)%nat.
  Proof. rewrite matvec_tlvec, matvec_1. unfold matvec, blk. cbn [Nat.add]. now rewrite Nat.add_0_r. Qed.

  Lemma blk_row_last K (A : @Mat F) n s d :
    matvec n (blk A K s) d K = matvec n (blk A (2 * K) s) d 0%nat.
  Proof. unfold matvec, blk. now replace (2 * K + 0)%nat with (K + K)%nat by lia. Qed.

  (** The assembled matrix is [[I, G], [H, I]], the second block row and column
      holding temperature and log surface pressure: its nine blocks, then what
      G (K x (K+1)) and H ((K+1) x K) do to a vector. *)
  Section Blocks.
    Variable c : @PEcfg F.
    Variables eta lam : F.
    Let K := cK c.
    Let M := implicit_matrix c eta lam.

    Lemma M00 i j : (i < K)%nat -> (j < K)%nat -> M i j = eye i j.
    Proof. intros Hi Hj. unfold M, implicit_matrix. fold K. now rewrite (sel_lo K _ _ _ i), sel_lo. Qed.
    Lemma M01 i j : (i < K)%nat -> (j < K)%nat ->
      M i (K + j)%nat = eta * lam * geo_weights K (cR c) (cls c) i j.
    Proof.
      intros Hi Hj. unfold M, implicit_matrix. fold K.
      rewrite (sel_lo K _ _ _ i), sel_mid, add_sub_l by assumption. ring.
    Qed.
    Lemma M02 i : (i < K)%nat -> M i (2 * K)%nat = eta * cR c * (lam * cTref c i).
    Proof. intros Hi. unfold M, implicit_matrix. fold K. now rewrite (sel_lo K _ _ _ i), sel_hi. Qed.
    Lemma M10 i j : (i < K)%nat -> (j < K)%nat -> M (K + i)%nat j = eta * temp_weights c i j.
    Proof.
      intros Hi Hj. unfold M, implicit_matrix. fold K.
      now rewrite (sel_mid K _ _ _ i), sel_lo, add_sub_l.
    Qed.
    Lemma M11 i j : (i < K)%nat -> (j < K)%nat -> M (K + i)%nat (K + j)%nat = eye i j.
    Proof.
      intros Hi Hj. unfold M, implicit_matrix. fold K.
      now rewrite (sel_mid K _ _ _ i), sel_mid, !add_sub_l.
    Qed.
    Lemma M12 i : (i < K)%nat -> M (K + i)%nat (2 * K)%nat = 0.
    Proof. intros Hi. unfold M, implicit_matrix. fold K. now rewrite (sel_mid K _ _ _ i), sel_hi. Qed.
    Lemma M20 j : (j < K)%nat -> M (2 * K)%nat j = eta * thickness (cb c) j.
    Proof. intros Hj. unfold M, implicit_matrix. fold K. now rewrite sel_hi, sel_lo. Qed.
    Lemma M21 j : (j < K)%nat -> M (2 * K)%nat (K + j)%nat = 0.
    Proof. intros Hj. unfold M, implicit_matrix. fold K. now rewrite sel_hi, sel_mid. Qed.
    Lemma M22 : M (2 * K)%nat (2 * K)%nat = 1.
    Proof. unfold M, implicit_matrix. fold K. now rewrite !sel_hi. Qed.

    Lemma blk00 d i : (i < K)%nat -> matvec K (blk M 0 0) d i = d i.
    Proof.
      intros Hi. rewrite (matvec_ext_mat K _ eye) by (intros h Hh; exact (M00 i h Hi Hh)).
      now apply matvec_eye.
    Qed.
    Lemma blk01 T i : (i < K)%nat ->
      matvec K (blk M 0 K) T i = eta * lam * geo_diff_dense K (cR c) (cls c) T i.
    Proof. intros Hi. apply matvec_scal. intros h Hh. exact (M01 i h Hi Hh). Qed.
    Lemma blk02 p i : (i < K)%nat -> matvec 1 (blk M 0 (2 * K)) p i = eta * cR c * (lam * cTref c i) * p 0%nat.
    Proof. intros Hi. rewrite matvec_1. unfold blk. cbn [Nat.add]. now rewrite Nat.add_0_r, M02. Qed.
    Lemma blk10 d i : (i < K)%nat -> matvec K (blk M K 0) d i = - (eta * temp_implicit_dense c d i).
    Proof.
      intros Hi. rewrite (matvec_scal K _ (neg_temp_weights c) (- eta)).
      - unfold temp_implicit_dense. fold K. ring.
      - intros h Hh. unfold blk, neg_temp_weights. cbn [Nat.add]. rewrite M10 by assumption. ring.
    Qed.
    Lemma blk11 T i : (i < K)%nat -> matvec K (blk M K K) T i = T i.
    Proof.
      intros Hi. rewrite (matvec_ext_mat K _ eye) by (intros h Hh; exact (M11 i h Hi Hh)).
      now apply matvec_eye.
    Qed.
    Lemma blk12 p i : (i < K)%nat -> matvec 1 (blk M K (2 * K)) p i = 0.
    Proof. intros Hi. rewrite matvec_1. unfold blk. rewrite Nat.add_0_r, M12 by assumption. ring. Qed.
    Lemma blk20 d : matvec K (blk M (2 * K) 0) d 0%nat = eta * matvec K (fun _ h => thickness (cb c) h) d 0%nat.
    Proof. apply matvec_scal. intros h Hh. unfold blk. rewrite Nat.add_0_r. now apply M20. Qed.
    Lemma blk21 T : matvec K (blk M (2 * K) K) T 0%nat = 0.
    Proof.
      apply sumn_zero. intros h Hh. unfold blk. rewrite Nat.add_0_r, M21 by assumption. ring.
    Qed.
    Lemma blk22 p : matvec 1 (blk M (2 * K) (2 * K)) p 0%nat = p 0%nat.
    Proof. rewrite matvec_1. unfold blk. rewrite Nat.add_0_r, M22. ring. Qed.

    (** the materialised matrix has the same blocks *)
    Let M' := implicit_matrix_tab c eta lam.

    Lemma implicit_matrix_tab_ok i j :
      (i < 2 * K + 1)%nat -> (j < 2 * K + 1)%nat -> M' i j = M i j.
    Proof. intros. unfold M', implicit_matrix_tab. now apply memo2_ok. Qed.

    Lemma blk_tab n r s x i : (r + i < 2 * K + 1)%nat -> (s + n <= 2 * K + 1)%nat ->
      matvec n (blk M' r s) x i = matvec n (blk M r s) x i.
    Proof. intros Hi Hn. apply matvec_ext_mat. intros h Hh. apply implicit_matrix_tab_ok; lia. Qed.

    Lemma G_apply T p i : (i < K)%nat ->
      matvec (K + 1) (blk M' 0 K) (tlvec K T p) i
      = eta * lam * geo_diff_dense K (cR c) (cls c) T i + eta * cR c * (lam * cTref c i) * p.
    Proof.
      intros Hi. rewrite blk_tab, matvec_tlvec, blk01 by lia. unfold blk. cbn [Nat.add].
      replace (K + K)%nat with (2 * K)%nat by lia. now rewrite M02.
    Qed.
    Lemma G_apply_lnps p i : (i < K)%nat ->
      matvec 1 (blk M' 0 (2 * K)) p i = eta * cR c * (lam * cTref c i) * p 0%nat.
    Proof. intros Hi. rewrite blk_tab by lia. now apply blk02. Qed.
    Lemma H_apply_temp d i : (i < K)%nat ->
      matvec K (blk M' K 0) d i = - (eta * temp_implicit_dense c d i).
    Proof. intros Hi. rewrite blk_tab by lia. now apply blk10. Qed.
    Lemma H_apply_lnps d :
      matvec K (blk M' K 0) d K = eta * matvec K (fun _ h => thickness (cb c) h) d 0%nat.
    Proof. rewrite blk_row_last, blk_tab by lia. apply blk20. Qed.
  End Blocks.

  Theorem matrix_is_I_minus_eta_L (c : PEcfg) (eta lam : F) (x : Col) i :
    (i < 2 * cK c + 1)%nat ->
    matvec (2 * cK c + 1) (implicit_matrix c eta lam) (stack (cK c) x) i
    = stack (cK c) (col_minus_scaled x eta (implicit_terms false c lam x)) i.
  Proof.
    intros Hi.
    destruct (Nat.lt_ge_cases i (cK c)) as [H1|H1]; [|destruct (Nat.lt_ge_cases i (2 * cK c)) as [H2|H2]].
    - rewrite (matvec_stack _ _ _ 0 i), blk00, blk01, blk02, stack_div by assumption.
      cbn [col_minus_scaled implicit_terms c_div c_temp c_lnps]. unfold geo_diff, lnps_vec. ring.
    - replace i with (cK c + (i - cK c))%nat by lia.
      rewrite matvec_stack, blk10, blk11, blk12, stack_temp by lia.
      cbn [col_minus_scaled implicit_terms c_div c_temp c_lnps]. unfold temp_implicit. ring.
    - replace i with (2 * cK c + 0)%nat by lia.
      rewrite matvec_stack, blk20, blk21, blk22, Nat.add_0_r, stack_lnps.
      cbn [col_minus_scaled implicit_terms c_div c_temp c_lnps]. unfold lnps_vec. ring.
  Qed.

  Theorem split_eq_stacked inv (c : PEcfg) (eta lam : F) (y : Col) :
    col_eq (cK c) (inverse_split inv c eta lam y) (inverse_stacked inv c eta lam y).
  Proof.
    unfold inverse_split, inverse_stacked, unstack. cbv zeta.
    repeat split; cbn [c_div c_temp c_lnps]; intros.
    - symmetry. exact (matvec_stack _ _ y 0 g).
    - symmetry. apply matvec_stack.
    - now rewrite <- matvec_stack, Nat.add_0_r.
  Qed.

  (** right inverse of the matrix => right resolvent of the operator *)
  Theorem stacked_right_resolvent inv (c : PEcfg) (eta lam : F) (y : Col) :
    let n := (2 * cK c + 1)%nat in
    let M := implicit_matrix c eta lam in
    let z := inverse_stacked inv c eta lam y in
    is_left_inverse n M (inv n M) ->
    col_eq (cK c) (col_minus_scaled z eta (implicit_terms false c lam z)) y.
  Proof.
    intros n M z Hr. apply stack_inj. intros h Hh.
    rewrite <- matrix_is_I_minus_eta_L by assumption.
    unfold z, inverse_stacked. cbv zeta.
    rewrite (matvec_ext _ _ (stack (cK c) (unstack (cK c) _)) _ h (stack_unstack (cK c) _)).
    now apply (left_inverse_apply n M (inv n M)).
  Qed.

  Lemma cumsum_dot_lin K (w x y : nat -> F) a b j :
    cumsum_dot K (fun k => w k * (a * x k + b * y k)) j
    = a * cumsum_dot K (fun k => w k * x k) j + b * cumsum_dot K (fun k => w k * y k) j.
  Proof. apply cumsum_dot_linear. intros; ring. Qed.
  Lemma revcumsum_dot_lin K (w x y : nat -> F) a b j :
    revcumsum_dot K (fun k => w k * (a * x k + b * y k)) j
    = a * revcumsum_dot K (fun k => w k * x k) j + b * revcumsum_dot K (fun k => w k * y k) j.
  Proof. apply revcumsum_dot_linear. intros; ring. Qed.

  Lemma geo_diff_lin sp (c : PEcfg) (x y : nat -> F) a b k :
    geo_diff sp c (fun h => a * x h + b * y h) k = a * geo_diff sp c x k + b * geo_diff sp c y k.
  Proof.
    unfold geo_diff. destruct sp.
    - unfold geo_diff_sparse. cbv zeta. rewrite revcumsum_dot_lin. ring.
    - apply matvec_lin.
  Qed.

  Lemma temp_implicit_lin sp (c : PEcfg) (x y : nat -> F) a b k :
    temp_implicit sp c (fun h => a * x h + b * y h) k
    = a * temp_implicit sp c x k + b * temp_implicit sp c y k.
  Proof.
    unfold temp_implicit. destruct sp.
    - unfold temp_implicit_sparse. cbv zeta.
      destruct (any_nonzero (cK c) (down_weights c));
        rewrite ?cumsum_dot_lin, ?revcumsum_dot_lin; ring.
    - apply matvec_lin.
  Qed.
End Matrices.

Section Resolvent.
  Context {F : Type} {o : Ops F} {Fc : FieldC o}.
  Add Field FFre : (field_c : FieldTh o).
  (** the boolean equality test of the carrier is sound (true for Q, Qc, R) *)
  Hypothesis feqb_sound : forall x y : F, feqb x y = true -> x = y.

  Lemma roll1_zero_pos K (a : @Mat F) r s :
    (0 < r)%nat -> (r < K)%nat -> roll1_zero K a r s = a (r - 1)%nat s.
  Proof.
    intros H0 HK. unfold roll1_zero. rewrite roll_index by assumption.
    destruct (Nat.eqb_spec r 0%nat); [lia|reflexivity].
  Qed.

  Lemma roll1_zero_0 K (a : @Mat F) s : roll1_zero K a 0%nat s = 0.
  Proof. reflexivity. Qed.

  Lemma cross_div (x y a b : F) : b <> 0 -> x * b = y * a -> - x = - y * a / b.
  Proof.
    intros Hb E. transitivity (- (x * b) / b); [field; exact Hb | rewrite E; field; exact Hb].
  Qed.

  (** H[r,s]/dsigma[s] takes one value for all s < r ... *)
  Lemma neg_temp_weights_below (c : PEcfg) r s :
    (s < r)%nat -> (r < cK c)%nat -> thickness (cb c) 0%nat <> 0 ->
    neg_temp_weights c r s = neg_temp_weights c r 0%nat * thickness (cb c) s / thickness (cb c) 0%nat.
  Proof.
    intros Hs Hr H0. apply cross_div; [exact H0|]. unfold temp_weights. cbv zeta.
    rewrite !roll1_zero_pos by lia. unfold tril. rewrite !leb_correct by lia. ring.
  Qed.

  (** ... and one value for all s > r *)
  Lemma neg_temp_weights_above (c : PEcfg) r s :
    (r < s)%nat -> (s < cK c)%nat -> thickness (cb c) (cK c - 1)%nat <> 0 ->
    neg_temp_weights c r s
    = neg_temp_weights c r (cK c - 1)%nat * thickness (cb c) s / thickness (cb c) (cK c - 1)%nat.
  Proof.
    intros Hr Hs HK. apply cross_div; [exact HK|]. unfold temp_weights. cbv zeta.
    destruct (Nat.eq_dec r 0%nat) as [->|Hr0].
    - rewrite !roll1_zero_0. unfold tril. rewrite !leb_correct_conv by lia. ring.
    - rewrite !roll1_zero_pos by lia. unfold tril. rewrite !leb_correct_conv by lia. ring.
  Qed.

  Lemma any_nonzero_false n (v : nat -> F) :
    any_nonzero n v = false -> forall i, (i < n)%nat -> v i = 0.
  Proof.
    intros H i Hi. unfold any_nonzero in H.
    destruct (feqb (v i) 0) eqn:E; [now apply feqb_sound|].
    exfalso. assert (X : existsb (fun i => negb (feqb (v i) 0)) (seq 0 n) = true).
    { apply existsb_exists. exists i. split; [apply in_seq; lia | now rewrite E]. }
    rewrite X in H. discriminate.
  Qed.

  (** the cumulative-sum form without the [if (down_weights != 0).any()] short cut *)
  Definition temp_sparse_full (c : PEcfg) (div : nat -> F) (r : nat) : F :=
    let wd := fun k => thickness (cb c) k * div k in
    up_weights c r * (cumsum_dot (cK c) wd r - wd r) + neg_temp_weights c r r * div r
    + down_weights c r * (revcumsum_dot (cK c) wd r - wd r).

  Lemma temp_sparse_branch (c : PEcfg) div r :
    (r < cK c)%nat -> temp_implicit_sparse c div r = temp_sparse_full c div r.
  Proof.
    intros Hr. unfold temp_implicit_sparse, temp_sparse_full. cbv zeta.
    destruct (any_nonzero (cK c) (down_weights c)) eqn:E; [reflexivity|].
    rewrite (any_nonzero_false _ _ E r Hr). ring.
  Qed.

  Theorem temperature_sparse_eq_dense (c : PEcfg) (div : nat -> F) r :
    (r < cK c)%nat ->
    thickness (cb c) 0%nat <> 0 -> thickness (cb c) (cK c - 1)%nat <> 0 ->
    temp_implicit_sparse c div r = temp_implicit_dense c div r.
  Proof.
    intros Hr H0 HK. rewrite temp_sparse_branch by assumption.
    unfold temp_sparse_full, temp_implicit_dense, matvec, cumsum_dot, revcumsum_dot. cbv zeta.
    set (w := neg_temp_weights c).
    symmetry.
    rewrite (sumn_ext (cK c) _ (fun s =>
       (up_weights c r * (ind (Nat.leb s r) * (thickness (cb c) s * div s))
        - up_weights c r * (delta r s * (thickness (cb c) s * div s)))
       + delta r s * (w r s * div s)
       + (down_weights c r * (ind (Nat.leb r s) * (thickness (cb c) s * div s))
          - down_weights c r * (delta r s * (thickness (cb c) s * div s))))).
    - rewrite !sumn_add, !sumn_sub, !sumn_scal_l.
      rewrite (sumn_delta_l (cK c) r (fun s => thickness (cb c) s * div s)) by assumption.
      rewrite (sumn_delta_l (cK c) r (fun s => w r s * div s)) by assumption.
      ring.
    - intros s Hs. unfold delta, up_weights, down_weights. fold w.
      destruct (Nat.lt_trichotomy s r) as [Hlt|[Heq|Hgt]].
      + unfold w at 1. rewrite neg_temp_weights_below by assumption. fold w.
        destruct (Nat.eqb_spec r 0%nat); [lia|]. destruct (Nat.eqb_spec r s); [lia|].
        rewrite (leb_correct s r), (leb_correct_conv s r) by lia.
        destruct (Nat.ltb (S r) (cK c)); cbn [ind]; field; auto.
      + subst s. rewrite Nat.eqb_refl, leb_correct by lia. cbn [ind]. ring.
      + unfold w at 1. rewrite neg_temp_weights_above by assumption. fold w.
        destruct (Nat.eqb_spec r s); [lia|].
        rewrite (leb_correct_conv r s), (leb_correct r s) by lia.
        destruct (Nat.ltb_spec (S r) (cK c)); [|lia].
        destruct (Nat.eqb r 0%nat); cbn [ind]; field; auto.
  Qed.

  Theorem implicit_terms_sparse_eq_dense (c : PEcfg) (lam : F) (x : Col) (sp : bool) :
    thickness (cb c) 0%nat <> 0 -> thickness (cb c) (cK c - 1)%nat <> 0 ->
    col_eq (cK c) (implicit_terms sp c lam x) (implicit_terms false c lam x).
  Proof.
    intros H0 HK. destruct sp; [|apply col_eq_refl].
    repeat split; cbn [implicit_terms c_div c_temp c_lnps]; intros g Hg.
    - unfold geo_diff. now rewrite geo_sparse_eq_dense.
    - unfold temp_implicit. now apply temperature_sparse_eq_dense.
  Qed.

  Theorem L_linear (sp : bool) (c : PEcfg) (lam : F) (a b : F) (x y : Col) :
    col_eq (cK c) (implicit_terms sp c lam (col_lin a x b y))
                  (col_lin a (implicit_terms sp c lam x) b (implicit_terms sp c lam y)).
  Proof.
    repeat split; cbn [implicit_terms col_lin c_div c_temp c_lnps].
    - intros g Hg. rewrite geo_diff_lin. ring.
    - intros g Hg. apply temp_implicit_lin.
    - rewrite matvec_lin. ring.
  Qed.

  Lemma implicit_terms_respects sp (c : PEcfg) lam (x y : @Col F) :
    col_eq (cK c) x y -> col_eq (cK c) (implicit_terms sp c lam x) (implicit_terms sp c lam y).
  Proof.
    intros (Ed & Et & El). repeat split; cbn [implicit_terms c_div c_temp c_lnps].
    - intros g Hg. rewrite El.
      assert (E : geo_diff sp c (c_temp x) g = geo_diff sp c (c_temp y) g).
      { unfold geo_diff. destruct sp.
        - unfold geo_diff_sparse. cbv zeta. rewrite (Et g Hg). f_equal.
          apply revcumsum_dot_ext. intros k Hk. now rewrite (Et k Hk).
        - unfold geo_diff_dense. apply sumn_ext. intros k Hk. now rewrite (Et k Hk). }
      now rewrite E.
    - intros g Hg. unfold temp_implicit. destruct sp.
      + unfold temp_implicit_sparse. cbv zeta. rewrite (Ed g Hg).
        rewrite (cumsum_dot_ext (cK c) (fun k => thickness (cb c) k * c_div x k) (fun k => thickness (cb c) k * c_div y k) g)
          by (intros k Hk; now rewrite (Ed k Hk)).
        rewrite (revcumsum_dot_ext (cK c) (fun k => thickness (cb c) k * c_div x k) (fun k => thickness (cb c) k * c_div y k) g)
          by (intros k Hk; now rewrite (Ed k Hk)).
        reflexivity.
      + unfold temp_implicit_dense. now apply matvec_ext.
    - f_equal. now apply matvec_ext.
  Qed.

  Lemma inverse_split_linear inv (c : PEcfg) eta lam a b (x y : @Col F) :
    col_eq (cK c) (inverse_split inv c eta lam (col_lin a x b y))
                  (col_lin a (inverse_split inv c eta lam x) b (inverse_split inv c eta lam y)).
  Proof.
    unfold inverse_split. cbv zeta.
    change (lnps_vec (col_lin a x b y)) with (fun h : nat => a * lnps_vec x h + b * lnps_vec y h).
    repeat split; cbn [col_lin c_div c_temp c_lnps]; intros; rewrite !matvec_lin; ring.
  Qed.

  Lemma inverse_split_respects inv (c : PEcfg) eta lam (x y : @Col F) :
    col_eq (cK c) x y -> col_eq (cK c) (inverse_split inv c eta lam x) (inverse_split inv c eta lam y).
  Proof.
    intros (Ed & Et & El). unfold inverse_split. cbv zeta.
    assert (EL : forall A i, matvec 1 A (lnps_vec x) i = matvec 1 A (lnps_vec y) i)
      by (intros; apply matvec_ext; intros; unfold lnps_vec; now rewrite El).
    repeat split; cbn [c_div c_temp c_lnps]; intros; rewrite !EL;
      rewrite !(matvec_ext (cK c) _ (c_div x) (c_div y)) by assumption;
      rewrite !(matvec_ext (cK c) _ (c_temp x) (c_temp y)) by assumption; reflexivity.
  Qed.

  (** a right-hand side given with either strategy is the one with the dense strategy *)
  Lemma rhs_dense (c : PEcfg) (eta lam : F) (x y : Col) (sp : bool) :
    thickness (cb c) 0%nat <> 0 -> thickness (cb c) (cK c - 1)%nat <> 0 ->
    col_eq (cK c) y (col_minus_scaled x eta (implicit_terms sp c lam x)) ->
    col_eq (cK c) y (col_minus_scaled x eta (implicit_terms false c lam x)).
  Proof.
    intros H0 HK Hy. apply (col_eq_trans _ _ _ _ Hy), col_minus_scaled_ext.
    now apply implicit_terms_sparse_eq_dense.
  Qed.

  Theorem stacked_resolvent_gen inv (c : PEcfg) (eta lam : F) (x y : Col) (sp : bool) :
    is_left_inverse (2 * cK c + 1) (inv (2 * cK c + 1)%nat (implicit_matrix c eta lam)) (implicit_matrix c eta lam) ->
    thickness (cb c) 0%nat <> 0 -> thickness (cb c) (cK c - 1)%nat <> 0 ->
    col_eq (cK c) y (col_minus_scaled x eta (implicit_terms sp c lam x)) ->
    col_eq (cK c) (inverse_stacked inv c eta lam y) x.
  Proof.
    intros Hinv H0 HK Hy. apply rhs_dense in Hy; [|assumption..].
    unfold inverse_stacked. cbv zeta. apply stack_inj. intros i Hi. rewrite stack_unstack by assumption.
    rewrite (matvec_ext _ _ (stack (cK c) y)
               (matvec (2 * cK c + 1) (implicit_matrix c eta lam) (stack (cK c) x))).
    - now apply left_inverse_apply.
    - intros h Hh. rewrite matrix_is_I_minus_eta_L by assumption. now apply stack_ext.
  Qed.

  Theorem stacked_resolvent inv (c : PEcfg) (eta lam : F) (x : Col) (sp : bool) :
    is_left_inverse (2 * cK c + 1) (inv (2 * cK c + 1)%nat (implicit_matrix c eta lam)) (implicit_matrix c eta lam) ->
    thickness (cb c) 0%nat <> 0 -> thickness (cb c) (cK c - 1)%nat <> 0 ->
    col_eq (cK c) (inverse_stacked inv c eta lam (col_minus_scaled x eta (implicit_terms sp c lam x))) x.
  Proof. intros. eapply stacked_resolvent_gen; eauto. apply col_eq_refl. Qed.

  Theorem split_resolvent_gen inv (c : PEcfg) (eta lam : F) (x y : Col) (sp : bool) :
    is_left_inverse (2 * cK c + 1) (inv (2 * cK c + 1)%nat (implicit_matrix c eta lam)) (implicit_matrix c eta lam) ->
    thickness (cb c) 0%nat <> 0 -> thickness (cb c) (cK c - 1)%nat <> 0 ->
    col_eq (cK c) y (col_minus_scaled x eta (implicit_terms sp c lam x)) ->
    col_eq (cK c) (inverse_split inv c eta lam y) x.
  Proof.
    intros. eapply col_eq_trans; [apply split_eq_stacked|]. eapply stacked_resolvent_gen; eauto.
  Qed.

  Theorem split_resolvent inv (c : PEcfg) (eta lam : F) (x : Col) (sp : bool) :
    is_left_inverse (2 * cK c + 1) (inv (2 * cK c + 1)%nat (implicit_matrix c eta lam)) (implicit_matrix c eta lam) ->
    thickness (cb c) 0%nat <> 0 -> thickness (cb c) (cK c - 1)%nat <> 0 ->
    col_eq (cK c) (inverse_split inv c eta lam (col_minus_scaled x eta (implicit_terms sp c lam x))) x.
  Proof. intros. eapply split_resolvent_gen; eauto. apply col_eq_refl. Qed.

  (** the block-wise solve of the code is the resolvent whenever the two
      [np.linalg.inv] calls return left inverses of I - GH and I - HG *)
  Theorem blockwise_resolvent_gen inv (c : PEcfg) (eta lam : F) (x y : Col) (sp : bool) :
    is_left_inverse (cK c) (inv (cK c) (schur_div c eta lam)) (schur_div c eta lam) ->
    is_left_inverse (cK c + 1) (inv (cK c + 1)%nat (schur_temp_logp c eta lam)) (schur_temp_logp c eta lam) ->
    thickness (cb c) 0%nat <> 0 -> thickness (cb c) (cK c - 1)%nat <> 0 ->
    col_eq (cK c) y (col_minus_scaled x eta (implicit_terms sp c lam x)) ->
    col_eq (cK c) (inverse_blockwise inv c eta lam y) x.
  Proof.
    intros HA HB H0 HK Hy. apply rhs_dense in Hy; [|assumption..]. destruct Hy as (Yd & Yt & Yl).
    set (K := cK c) in *. set (M := implicit_matrix_tab c eta lam).
    set (v := tlvec K (c_temp x) (c_lnps x)). set (yv := tlvec K (c_temp y) (c_lnps y)).
    (* y = (x_div + G v, H x_div + v) *)
    assert (Hu : forall i, (i < K)%nat -> c_div y i = c_div x i + matvec (K + 1) (blk M 0 K) v i).
    { intros i Hi. unfold v, M, K. rewrite Yd, G_apply by assumption.
      cbn [col_minus_scaled implicit_terms c_div c_temp c_lnps]. unfold geo_diff. ring. }
    assert (Hv : forall i, (i < K + 1)%nat -> yv i = matvec K (blk M K 0) (c_div x) i + v i).
    { intros i Hi. unfold yv, v, M, K. destruct (Nat.lt_ge_cases i (cK c)) as [H1|H1].
      - rewrite !tlvec_lt, Yt, H_apply_temp by assumption.
        cbn [col_minus_scaled implicit_terms c_div c_temp c_lnps]. unfold temp_implicit. ring.
      - replace i with (cK c) by (unfold K in Hi; lia). rewrite !tlvec_K, Yl, H_apply_lnps.
        cbn [col_minus_scaled implicit_terms c_div c_temp c_lnps]. ring. }
    destruct (schur_blockwise_generic K (K + 1) (blk M 0 K) (blk M K 0) _ _ _ v _ yv HA HB Hu Hv) as [S1 S2].
    (* the code's right-hand sides are y_div - G yv and yv - H y_div *)
    assert (W : forall h, (h < K + 1)%nat ->
              tlvec K (memo K (fun g => c_temp y g - eta * (- temp_implicit true c (c_div y) g)))
                      (c_lnps y - matvec K (blk M (2 * K) 0) (c_div y) 0%nat) h
              = yv h - matvec K (blk M K 0) (c_div y) h).
    { intros h Hh. unfold yv. destruct (Nat.lt_ge_cases h K) as [H1|H1].
      - rewrite !tlvec_lt, memo_ok by assumption. unfold M, K. rewrite H_apply_temp by assumption.
        unfold temp_implicit. rewrite temperature_sparse_eq_dense by assumption. ring.
      - replace h with K by lia. now rewrite !tlvec_K, blk_row_last. }
    unfold inverse_blockwise. cbv zeta. fold K. fold M.
    repeat split; cbn [c_div c_temp c_lnps].
    - intros g Hg. rewrite <- (S1 g Hg). apply matvec_ext. intros h Hh.
      rewrite memo_ok by assumption. unfold yv, M, K. rewrite G_apply_lnps, G_apply by assumption.
      unfold geo_diff, lnps_vec. rewrite geo_sparse_eq_dense by assumption. ring.
    - intros g Hg. rewrite blk_tl. cbn [Nat.add]. rewrite (matvec_ext _ _ _ _ g W), S2 by lia.
      now apply tlvec_lt.
    - rewrite blk_tl, Nat.add_0_r, (matvec_ext _ _ _ _ K W), S2 by lia. apply tlvec_K.
  Qed.

  Theorem blockwise_resolvent inv (c : PEcfg) (eta lam : F) (x : Col) (sp : bool) :
    is_left_inverse (cK c) (inv (cK c) (schur_div c eta lam)) (schur_div c eta lam) ->
    is_left_inverse (cK c + 1) (inv (cK c + 1)%nat (schur_temp_logp c eta lam)) (schur_temp_logp c eta lam) ->
    thickness (cb c) 0%nat <> 0 -> thickness (cb c) (cK c - 1)%nat <> 0 ->
    col_eq (cK c) (inverse_blockwise inv c eta lam (col_minus_scaled x eta (implicit_terms sp c lam x))) x.
  Proof. intros. eapply blockwise_resolvent_gen; eauto. apply col_eq_refl. Qed.

  (** all three strategies agree on every right-hand side when [inv] returns
      two-sided inverses of the full matrix and left inverses of the Schur blocks *)
  Theorem blockwise_eq_split inv (c : PEcfg) (eta lam : F) (y : Col) :
    let n := (2 * cK c + 1)%nat in
    let M := implicit_matrix c eta lam in
    is_left_inverse n (inv n M) M -> is_left_inverse n M (inv n M) ->
    is_left_inverse (cK c) (inv (cK c) (schur_div c eta lam)) (schur_div c eta lam) ->
    is_left_inverse (cK c + 1) (inv (cK c + 1)%nat (schur_temp_logp c eta lam)) (schur_temp_logp c eta lam) ->
    thickness (cb c) 0%nat <> 0 -> thickness (cb c) (cK c - 1)%nat <> 0 ->
    col_eq (cK c) (inverse_blockwise inv c eta lam y) (inverse_split inv c eta lam y).
  Proof.
    intros n M HL HR HA HB H0 HK.
    eapply col_eq_trans; [|apply col_eq_sym, split_eq_stacked].
    apply (blockwise_resolvent_gen inv c eta lam _ y false HA HB H0 HK).
    apply col_eq_sym. exact (stacked_right_resolvent inv c eta lam y HR).
  Qed.

  (** TimeReversedImExODE: terms negated, solve called with -eta *)
  Theorem time_reversed inv (c : PEcfg) (eta lam : F) (x : Col) (sp : bool) :
    is_left_inverse (2 * cK c + 1) (inv (2 * cK c + 1)%nat (implicit_matrix c (- eta) lam))
                    (implicit_matrix c (- eta) lam) ->
    thickness (cb c) 0%nat <> 0 -> thickness (cb c) (cK c - 1)%nat <> 0 ->
    col_eq (cK c) (tr_implicit_inverse inv c eta lam (col_minus_scaled x eta (tr_implicit_terms sp c lam x))) x.
  Proof.
    intros Hinv H0 HK. unfold tr_implicit_inverse, implicit_inverse.
    apply (split_resolvent_gen inv c (- eta) lam x _ sp Hinv H0 HK).
    unfold tr_implicit_terms.
    repeat split; cbn [col_minus_scaled col_neg c_div c_temp c_lnps]; intros; ring.
  Qed.

  (** PrimitiveEquationsWithTime: sim_time has zero tendency and is passed through *)
  Theorem with_time_resolvent inv (c : PEcfg) (eta lam : F) (t : F) (x : Col) (sp : bool) :
    is_left_inverse (2 * cK c + 1) (inv (2 * cK c + 1)%nat (implicit_matrix c eta lam)) (implicit_matrix c eta lam) ->
    thickness (cb c) 0%nat <> 0 -> thickness (cb c) (cK c - 1)%nat <> 0 ->
    let L := wt_implicit_terms sp c lam (t, x) in
    let r := wt_implicit_inverse inv c eta lam (t - eta * fst L, col_minus_scaled x eta (snd L)) in
    fst r = t /\ col_eq (cK c) (snd r) x.
  Proof.
    intros Hinv H0 HK. cbv zeta. unfold wt_implicit_inverse, wt_implicit_terms. cbn [fst snd]. split.
    - ring.
    - now apply split_resolvent.
  Qed.

  Theorem passive_resolvent (eta v : F) : passive_inverse (v - eta * passive_terms v) = v.
  Proof. unfold passive_inverse, passive_terms. ring. Qed.
End Resolvent.

Section ShallowWater.
  Context {F : Type} {o : Ops F} {Fc : FieldC o}.
  Add Field FFsw : (field_c : FieldTh o).

  Theorem sw_resolvent (Phi lam eta : F) (x : F * F) :
    sw_schur Phi lam eta <> 0 ->
    sw_implicit_inverse Phi lam eta (sw_minus_scaled x eta (sw_implicit_terms Phi lam x)) = x.
  Proof.
    intros Hs. destruct x as [d p].
    unfold sw_implicit_inverse, sw_minus_scaled, sw_implicit_terms, sw_schur in *. cbn [fst snd].
    f_equal; field; exact Hs.
  Qed.

  Theorem sw_L_linear (Phi lam a b : F) (x y : F * F) :
    sw_implicit_terms Phi lam (a * fst x + b * fst y, a * snd x + b * snd y)
    = (a * fst (sw_implicit_terms Phi lam x) + b * fst (sw_implicit_terms Phi lam y),
       a * snd (sw_implicit_terms Phi lam x) + b * snd (sw_implicit_terms Phi lam y)).
  Proof. unfold sw_implicit_terms. cbn [fst snd]. f_equal; ring. Qed.

  Theorem sw_time_reversed (Phi lam eta : F) (x : F * F) :
    sw_schur Phi lam (- eta) <> 0 ->
    sw_tr_implicit_inverse Phi lam eta (sw_minus_scaled x eta (sw_tr_implicit_terms Phi lam x)) = x.
  Proof.
    intros Hs. unfold sw_tr_implicit_inverse.
    transitivity (sw_implicit_inverse Phi lam (- eta) (sw_minus_scaled x (- eta) (sw_implicit_terms Phi lam x)));
      [|now apply sw_resolvent].
    f_equal. destruct x as [d p]. unfold sw_minus_scaled, sw_tr_implicit_terms, sw_implicit_terms. cbn [fst snd].
    f_equal; ring.
  Qed.
End ShallowWater.

Section ShallowWaterOrd.
  Context {F : Type} {o : Ops F} {Oc : OrdFieldC o}.
  Add Field FFso : (field_c : FieldTh o).

  (** the side condition always holds for non-negative reference potential
      and non-positive Laplacian eigenvalue, for every step size *)
  Theorem sw_side_condition (Phi lam eta : F) :
    fle 0 Phi -> fle lam 0 -> sw_schur Phi lam eta <> 0.
  Proof.
    intros HP Hl. unfold sw_schur.
    assert (A : fle 0 (eta * eta * Phi)) by (apply fle_mul_pos; [apply fle_sq|exact HP]).
    assert (B : fle 0 (- lam)) by (replace 0 with (- 0) by ring; now apply fle_opp).
    assert (C : fle 0 (eta * eta * Phi * (- lam))) by now apply fle_mul_pos.
    assert (D : fle 1 (1 - eta * eta * Phi * lam)).
    { apply fle_sub_2. replace (1 - eta * eta * Phi * lam - 1) with (eta * eta * Phi * (- lam)) by ring. exact C. }
    apply fpos_neq0. eapply flt_le_trans; [apply flt_0_1|exact D].
  Qed.
End ShallowWaterOrd.
