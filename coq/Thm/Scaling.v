(** Scale covariance (property C12).  In order: the factor [factor s d] of a
    dimension under a scale as a homomorphism from exponent vectors to the
    non-zero scalars; every dimensionally well-typed expression over the field
    operations is scale-covariant; every integrator of Model/Integrators.v
    commutes with an affine change of scale of the state; the column operators
    of Model/Sigma.v and the nodal terms of Model/PrimEq.v are homogeneous of
    the degree their dimensions require; log surface pressure, the one variable
    that shifts instead; the Held-Suarez forcing.
    Every statement is for an arbitrary field, arbitrary non-zero scales and
    arbitrary sizes. *)
From Dino Require Import Base.Ops Base.Field Base.Sums Base.Ord Model.Sigma Model.Dual Thm.Dual Model.Implicit Model.PrimEq
  Model.Forcings Model.Integrators Model.Scaling Thm.Sigma Thm.Pow Thm.PrimEq.
Local Open Scope F_scope.

Lemma dim_eqb_eq a b : dim_eqb a b = true <-> a = b.
Proof.
  destruct a as [a1 a2 a3 a4], b as [b1 b2 b3 b4]; unfold dim_eqb; cbn.
  rewrite !andb_true_iff, !Z.eqb_eq. split.
  - intros [[[-> ->] ->] ->]. reflexivity.
  - intros H; injection H; auto.
Qed.
Lemma dadd_comm a b : dadd a b = dadd b a.
Proof. destruct a, b; unfold dadd; cbn; f_equal; lia. Qed.
Lemma dadd_assoc a b c : dadd a (dadd b c) = dadd (dadd a b) c.
Proof. destruct a, b, c; unfold dadd; cbn; f_equal; lia. Qed.
Lemma dadd_zero a : dadd a dzero = a.
Proof. destruct a; unfold dadd, dzero; cbn; f_equal; lia. Qed.
Lemma dadd_opp a : dadd a (dopp a) = dzero.
Proof. destruct a; unfold dadd, dopp, dzero; cbn; f_equal; lia. Qed.
Lemma dsub_add_opp a b : dsub a b = dadd a (dopp b).
Proof. destruct a, b; unfold dsub, dadd, dopp; cbn; f_equal; lia. Qed.

Section Factors.
  Context {F : Type} {o : Ops F} {Fc : FieldC o}.
  Add Field FFsc : (field_c : FieldTh o).

  (** [npow] and [zpow] of Model/Scaling.v have the bodies of those of
      Model/Units.v, so the power laws of Thm/Pow.v hold of them by conversion *)
  Lemma zpow_nonzero x z : x <> 0 -> zpow x z <> 0.
  Proof. exact (Pow.zpow_nz x z). Qed.

  Theorem zpow_add x a b : x <> 0 -> zpow x (a + b) = zpow x a * zpow x b.
  Proof. exact (Pow.zpow_add x a b). Qed.

  Lemma zpow_0 x : zpow x 0 = 1.
  Proof. reflexivity. Qed.

  Lemma zpow_1 x : zpow x 1 = x.
  Proof. exact (Pow.zpow_1 x). Qed.

  Theorem zpow_sub x a b : x <> 0 -> zpow x (a - b) = zpow x a / zpow x b.
  Proof. exact (Pow.zpow_sub x a b). Qed.

  Lemma zpow_inv_base x z : x <> 0 -> zpow (1 / x) z = 1 / zpow x z.
  Proof. exact (Pow.zpow_div1_base x z). Qed.

  Lemma zpow_mul_base x y z : x <> 0 -> y <> 0 -> zpow (x * y) z = zpow x z * zpow y z.
  Proof. exact (Pow.zpow_mul_base x y z). Qed.

  Lemma zpow_one z : zpow 1 z = 1.
  Proof. exact (Pow.zpow_one z). Qed.

  Definition scale_nz (s : @scale F) : Prop := sL s <> 0 /\ sT s <> 0 /\ sM s <> 0 /\ sK s <> 0.

  Theorem factor_nonzero s d : scale_nz s -> factor s d <> 0.
  Proof.
    intros (H1 & H2 & H3 & H4). unfold factor.
    repeat apply fmul_nz; now apply zpow_nonzero.
  Qed.

  Theorem factor_zero s : factor s dzero = 1.
  Proof. unfold factor, dzero; cbn. ring. Qed.

  Theorem factor_add s d1 d2 : scale_nz s -> factor s (dadd d1 d2) = factor s d1 * factor s d2.
  Proof.
    intros (H1 & H2 & H3 & H4). unfold factor, dadd; cbn [dL dT dM dK].
    rewrite !zpow_add by assumption. ring.
  Qed.

  Theorem factor_opp s d : scale_nz s -> factor s (dopp d) = 1 / factor s d.
  Proof.
    intros Hs. symmetry. apply fmul_eq1_inv.
    rewrite <- factor_add by exact Hs. rewrite dadd_opp. apply factor_zero.
  Qed.

  Theorem factor_sub s d1 d2 : scale_nz s -> factor s (dsub d1 d2) = factor s d1 / factor s d2.
  Proof.
    intros Hs. rewrite dsub_add_opp, factor_add, factor_opp by exact Hs.
    field. now apply factor_nonzero.
  Qed.

  Lemma sinv_nz s : scale_nz s -> scale_nz (sinv s).
  Proof. intros (H1 & H2 & H3 & H4). unfold scale_nz, sinv; cbn. repeat split; now apply fdiv_nz; [apply f1_nz|]. Qed.

  Theorem factor_sinv s d : scale_nz s -> factor (sinv s) d = 1 / factor s d.
  Proof.
    intros Hs. pose proof Hs as (H1 & H2 & H3 & H4). unfold factor, sinv; cbn [sL sT sM sK].
    rewrite !zpow_inv_base by assumption.
    field. repeat split; now apply zpow_nonzero.
  Qed.

  Theorem factor_sunit d : factor sunit d = 1.
  Proof. unfold factor, sunit; cbn. rewrite !zpow_one. ring. Qed.

  (** the relations between the factors of the dimensions the dynamical core
      uses ([d_vel] velocity, [d_invlen] horizontal gradients, [d_rate]
      vorticity and divergence, [d_gas] R, [d_temp] temperature) *)
  Lemma factor_vel_invlen s : scale_nz s -> factor s d_vel * factor s d_invlen = factor s d_rate.
  Proof. intros Hs. now rewrite <- factor_add. Qed.
  Lemma factor_gas_temp_invlen s :
    scale_nz s -> factor s d_gas * factor s d_temp * factor s d_invlen = factor s d_vel * factor s d_rate.
  Proof. intros Hs. now rewrite <- !factor_add. Qed.
  Lemma factor_temp_rate s : scale_nz s -> factor s d_temp_rate = factor s d_temp * factor s d_rate.
  Proof. intros Hs. now rewrite <- factor_add. Qed.
  Lemma factor_accel s : scale_nz s -> factor s d_accel = factor s d_vel * factor s d_rate.
  Proof. intros Hs. now rewrite <- factor_add. Qed.
  Lemma factor_geopot s : scale_nz s -> factor s d_geopot = factor s d_gas * factor s d_temp.
  Proof. intros Hs. now rewrite <- factor_add. Qed.
  Lemma factor_rate2 s :
    scale_nz s -> factor s d_rate2 = factor s d_temp * factor s d_gas * (factor s d_invlen * factor s d_invlen).
  Proof. intros Hs. now rewrite <- !factor_add. Qed.

  Theorem redim_nondim s d x : scale_nz s -> redim s d (nondim s d x) = x.
  Proof. intros Hs. unfold redim, nondim. field. now apply factor_nonzero. Qed.
  Theorem nondim_redim s d v : scale_nz s -> nondim s d (redim s d v) = v.
  Proof. intros Hs. unfold redim, nondim. field. now apply factor_nonzero. Qed.

  Lemma nondim_as_factor s d x : scale_nz s -> nondim s d x = factor (sinv s) d * x.
  Proof.
    intros Hs. unfold nondim. rewrite factor_sinv by exact Hs. field. now apply factor_nonzero.
  Qed.
End Factors.

Section PositiveScales.
  Context {F : Type} {o : Ops F} {Oc : OrdFieldC o}.

  Lemma npow_pos x k : flt 0 x -> flt 0 (npow x k).
  Proof.
    intros Hx. induction k as [|k IH]; cbn [npow]; [exact flt_0_1 | now apply fmul_pos_pos].
  Qed.
  Lemma zpow_pos x z : flt 0 x -> flt 0 (zpow x z).
  Proof.
    intros Hx. destruct z; cbn [zpow].
    - exact flt_0_1.
    - now apply npow_pos.
    - apply finv_pos. now apply npow_pos.
  Qed.
  Definition scale_positive (s : @scale F) : Prop := flt 0 (sL s) /\ flt 0 (sT s) /\ flt 0 (sM s) /\ flt 0 (sK s).
  Lemma scale_positive_nz s : scale_positive s -> scale_nz s.
  Proof. intros (A & B & C & D). repeat split; now apply fpos_neq0. Qed.
  Theorem factor_pos s d : scale_positive s -> flt 0 (factor s d).
  Proof.
    intros (A & B & C & D). unfold factor. repeat apply fmul_pos_pos; now apply zpow_pos.
  Qed.
  Lemma sinv_positive s : scale_positive s -> scale_positive (Scaling.sinv s).
  Proof. intros (A & B & C & D). unfold scale_positive, Scaling.sinv; cbn. repeat split; now apply finv_pos. Qed.
End PositiveScales.

Section WellDimensioned.
  Context {F : Type} {o : Ops F} {Fc : FieldC o}.
  Add Field FFwd : (field_c : FieldTh o).

  Lemma eval_ext (x y : nat -> F) (e : expr F) : (forall i, x i = y i) -> eval x e = eval y e.
  Proof.
    intros H. induction e as [c|i|a IHa b IHb|a IHa b IHb|a IHa b IHb|a IHa|a IHa b IHb]; cbn [eval];
      rewrite ?IHa, ?IHb; auto.
  Qed.

  Theorem welldim_homogeneous (dv : nat -> dim) (s : scale) (x : nat -> F) (e : expr F) (d : dim) :
    scale_nz s -> denoms_nz x e -> dim_of dv e = Some d ->
    eval (rescale s dv x) e = factor s d * eval x e.
  Proof.
    intros Hs. revert d.
    induction e as [c|i|a IHa b IHb|a IHa b IHb|a IHa b IHb|a IHa|a IHa b IHb];
      intros d Hnz Hd; cbn [eval dim_of denoms_nz] in *.
    6: { rewrite (IHa d Hnz Hd). ring. }
    (* a typed binary node has typed operands, of equal dimension under + and - *)
    3-6: destruct (dim_of dv a) as [da|]; [|discriminate]; destruct (dim_of dv b) as [db|]; [|discriminate];
      rewrite (IHa da (proj1 Hnz) eq_refl).
    3-4: destruct (dim_eqb da db) eqn:E; [apply dim_eqb_eq in E; subst db | discriminate].
    all: injection Hd as <-.
    - rewrite factor_zero. ring.
    - reflexivity.
    - rewrite (IHb da (proj2 Hnz) eq_refl). ring.
    - rewrite (IHb da (proj2 Hnz) eq_refl). ring.
    - rewrite (IHb db (proj2 Hnz) eq_refl), factor_add by exact Hs. ring.
    - rewrite (IHb db (proj1 (proj2 Hnz)) eq_refl), factor_sub by exact Hs.
      field. split; [exact (proj2 (proj2 Hnz)) | now apply factor_nonzero].
  Qed.

  Lemma denoms_nz_rescale dv s x e d :
    scale_nz s -> denoms_nz x e -> dim_of dv e = Some d -> denoms_nz (rescale s dv x) e.
  Proof.
    intros Hs. revert d.
    induction e as [c|i|a IHa b IHb|a IHa b IHb|a IHa b IHb|a IHa|a IHa b IHb];
      intros d Hnz Hd; cbn [dim_of denoms_nz] in *; auto.
    1-3: destruct Hnz as [Hna Hnb];
      destruct (dim_of dv a) as [da|]; [|discriminate]; destruct (dim_of dv b) as [db|]; [|discriminate];
      split; [apply (IHa da) | apply (IHb db)]; auto.
    - apply (IHa d); auto.
    - destruct Hnz as (Hna & Hnb & Hb).
      destruct (dim_of dv a) as [da|] eqn:Ea; [|discriminate]. destruct (dim_of dv b) as [db|] eqn:Eb; [|discriminate].
      split; [apply (IHa da); auto|]. split; [apply (IHb db); auto|].
      rewrite (welldim_homogeneous dv s x b db Hs Hnb Eb).
      apply fmul_nz; [now apply factor_nonzero | exact Hb].
  Qed.

  (** C12 in its own words: compute with the non-dimensional values of the same
      physical inputs [X] under two scales, convert the results back: they
      agree, and equal the computation carried out in base units. *)
  Theorem scale_independence (dv : nat -> dim) (s1 s2 : scale) (X : nat -> F) (e : expr F) (d : dim) :
    scale_nz s1 -> scale_nz s2 -> denoms_nz X e -> dim_of dv e = Some d ->
    redim s1 d (eval (nondim_env s1 dv X) e) = redim s2 d (eval (nondim_env s2 dv X) e)
    /\ redim s1 d (eval (nondim_env s1 dv X) e) = eval X e.
  Proof.
    intros H1 H2 Hnz Hd.
    assert (A : forall s, scale_nz s -> redim s d (eval (nondim_env s dv X) e) = eval X e).
    { intros s Hs.
      rewrite (eval_ext (nondim_env s dv X) (rescale (sinv s) dv X) e (fun i => nondim_as_factor s (dv i) (X i) Hs)).
      rewrite (welldim_homogeneous dv (sinv s) X e d (sinv_nz s Hs) Hnz Hd).
      unfold redim. rewrite factor_sinv by exact Hs. field. now apply factor_nonzero. }
    split; [now rewrite !A | now apply A].
  Qed.

  Lemma denoms_nzb_sound (Hfeqb : forall a b : F, feqb a b = true <-> a = b) x e :
    denoms_nzb x e = true -> denoms_nz x e.
  Proof.
    induction e as [c|i|a IHa b IHb|a IHa b IHb|a IHa b IHb|a IHa|a IHa b IHb]; cbn [denoms_nzb denoms_nz]; auto.
    1-3: rewrite andb_true_iff; intros [? ?]; split; auto.
    rewrite !andb_true_iff, negb_true_iff. intros [[Ha Hb] Hz]. repeat split; auto.
    intros E. apply Hfeqb in E. congruence.
  Qed.
End WellDimensioned.

(** Time stepping commutes with a change of scale.  State space [V] (any
    vector space over the scalars), two copies of the equations:
    [(Fx, G, Ginv)] under the first scale and [(Fx', G', Ginv')] under the
    second.  The change of scale on states is affine,
    [S u = L u + c0] ([L] linear: multiplication of every component by its
    factor; [c0]: the shift of the mean log surface pressure); [tau] is the
    ratio of the time scales, so [dt' = tau * dt], and tendencies transform
    with [(1/tau) L]. *)
Section StepCovariance.
  Context {F : Type} {o : Ops F} {Fc : FieldC o} {V : Type} {vo : VOps F V}.
  Add Field FFsc4 : (field_c : FieldTh o).
  Infix "+v" := vadd (at level 50, left associativity).
  Infix "*v" := vscal (at level 40, left associativity).

  (** vector-space laws actually used *)
  Hypothesis vadd_assoc : forall u v w : V, u +v (v +v w) = (u +v v) +v w.
  Hypothesis vadd_comm : forall u v : V, u +v v = v +v u.
  Hypothesis vscal_add : forall (a : F) (u v : V), a *v (u +v v) = a *v u +v a *v v.
  Hypothesis vscal_mul : forall (a b : F) (u : V), a *v (b *v u) = (a * b) *v u.
  Hypothesis vscal_zero : forall a : F, a *v vzero = (vzero : V).

  Variables (L : V -> V) (c0 : V) (tau : F).
  Hypothesis L_add : forall u v, L (u +v v) = L u +v L v.
  Hypothesis L_scal : forall a u, L (a *v u) = a *v L u.
  Hypothesis L_zero : L vzero = vzero.
  Hypothesis tau_nz : tau <> 0.

  Definition Sc (u : V) : V := L u +v c0.
  Definition Tn (t : V) : V := (1 / tau) *v L t.

  Variables (Fx G : V -> V) (Ginv : V -> F -> V) (Fx' G' : V -> V) (Ginv' : V -> F -> V).
  Hypothesis HF : forall u, Fx' (Sc u) = Tn (Fx u).
  Hypothesis HG : forall u, G' (Sc u) = Tn (G u).
  (** [ok eta]: the implicit solves with step size [eta] are well defined (the
      matrices are invertible); only the step sizes an integrator actually uses
      are required to be [ok]. *)
  Variable ok : F -> Prop.
  Hypothesis HGinv : forall u eta, ok eta -> Ginv' (Sc u) (tau * eta) = Sc (Ginv u eta).

  Fixpoint ls_ok (dt : F) (al : list F) : Prop :=
    match al with
    | a0 :: ((a1 :: _) as al') => ok (half * dt * (a1 - a0)) /\ ls_ok dt al'
    | _ => True
    end.
  Fixpoint imex_ok (dt : F) (i : nat) (rim : list (list F)) : Prop :=
    match rim with
    | ri :: rim' => ok (dt * nth i ri 0) /\ imex_ok dt (Datatypes.S i) rim'
    | [] => True
    end.

  Lemma S_plus u w : Sc u +v L w = Sc (u +v w).
  Proof.
    unfold Sc. rewrite L_add. rewrite <- !vadd_assoc. f_equal. apply vadd_comm.
  Qed.

  Lemma Tn_add t1 t2 : Tn t1 +v Tn t2 = Tn (t1 +v t2).
  Proof. unfold Tn. now rewrite L_add, vscal_add. Qed.
  Lemma Tn_scal a t : a *v Tn t = Tn (a *v t).
  Proof.
    unfold Tn. rewrite L_scal, !vscal_mul. f_equal. ring.
  Qed.
  Lemma Tn_zero : Tn vzero = vzero.
  Proof. unfold Tn. now rewrite L_zero, vscal_zero. Qed.

  Lemma S_axpy u a t : Sc u +v (tau * a) *v Tn t = Sc (u +v a *v t).
  Proof.
    rewrite <- S_plus. f_equal. unfold Tn. rewrite vscal_mul, L_scal. f_equal.
    field. exact tau_nz.
  Qed.
  Lemma S_axpy' u a a' t : a' = tau * a -> Sc u +v a' *v Tn t = Sc (u +v a *v t).
  Proof. intros ->. apply S_axpy. Qed.
  Lemma Ginv_cov u eta eta' : ok eta -> eta' = tau * eta -> Ginv' (Sc u) eta' = Sc (Ginv u eta).
  Proof. intros Hok ->. now apply HGinv. Qed.

  Theorem euler_step_covariant dt u0 :
    ok dt ->
    euler_step Fx' Ginv' (tau * dt) (Sc u0) = Sc (euler_step Fx Ginv dt u0).
  Proof.
    intros Hok. unfold euler_step. cbv zeta. rewrite HF, S_axpy. now apply HGinv.
  Qed.

  Theorem backward_euler_step_covariant dt u0 :
    ok dt ->
    backward_euler_step Ginv' (tau * dt) (Sc u0) = Sc (backward_euler_step Ginv dt u0).
  Proof. intros Hok. unfold backward_euler_step. now apply HGinv. Qed.

  Theorem cn_rk2_step_covariant dt u0 :
    ok (half * dt) ->
    cn_rk2_step Fx' G' Ginv' (tau * dt) (Sc u0) = Sc (cn_rk2_step Fx G Ginv dt u0).
  Proof.
    intros Hok. unfold cn_rk2_step. cbv zeta.
    rewrite HF, HG.
    rewrite (S_axpy' u0 (half * dt) (half * (tau * dt)) (G u0)) by ring.
    rewrite S_axpy.
    rewrite (Ginv_cov _ (half * dt)) by (assumption || ring).
    rewrite HF, Tn_add, Tn_scal, S_axpy.
    apply Ginv_cov; [assumption | ring].
  Qed.

  Theorem leapfrog_covariant dt alpha p q :
    ok (two * dt * alpha) ->
    leapfrog_step Fx' G' Ginv' (tau * dt) alpha (Sc p, Sc q)
    = (Sc (fst (leapfrog_step Fx G Ginv dt alpha (p, q))), Sc (snd (leapfrog_step Fx G Ginv dt alpha (p, q)))).
  Proof.
    intros Hok. unfold leapfrog_step. cbn [fst snd]. f_equal.
    rewrite HF, HG, Tn_scal, Tn_add.
    rewrite (S_axpy' p (two * dt) (two * (tau * dt))) by ring.
    apply Ginv_cov; [assumption | ring].
  Qed.

  (** low-storage Runge-Kutta + Crank-Nicolson (crank_nicolson_rk3 / rk4): all lists, all lengths *)
  Theorem ls_loop_covariant dt al be ga h u :
    ls_ok dt al ->
    ls_loop Fx' G' Ginv' (tau * dt) al be ga (Tn h) (Sc u) = Sc (ls_loop Fx G Ginv dt al be ga h u).
  Proof.
    revert be ga h u. induction al as [|a0 al IH]; intros be ga h u Hok.
    - destruct be, ga; reflexivity.
    - destruct be as [|b be]; [destruct ga; reflexivity|].
      destruct ga as [|g ga]; [reflexivity|].
      destruct al as [|a1 al]; [reflexivity|].
      destruct Hok as [Hok1 Hok2].
      cbn [ls_loop].
      rewrite HF, HG, Tn_scal, Tn_add.
      rewrite (S_axpy' u (g * dt) (g * (tau * dt))) by ring.
      rewrite (S_axpy' _ (half * dt * (a1 - a0)) (half * (tau * dt) * (a1 - a0))) by ring.
      rewrite (Ginv_cov _ (half * dt * (a1 - a0))) by (assumption || ring).
      apply IH. exact Hok2.
  Qed.

  Theorem ls_step_covariant dt al be ga u :
    ls_ok dt al ->
    ls_step Fx' G' Ginv' (tau * dt) al be ga (Sc u) = Sc (ls_step Fx G Ginv dt al be ga u).
  Proof. intros Hok. unfold ls_step. rewrite <- ls_loop_covariant by exact Hok. now rewrite Tn_zero. Qed.

  (** general IMEX Runge-Kutta (imex_rk_sil3 and any other tableau) *)
  Definition oT (x : option V) : option V := option_map Tn x.

  Lemma wsum_skip_covariant cs xs acc :
    wsum_skip cs (map oT xs) (Tn acc) = option_map Tn (wsum_skip cs xs acc).
  Proof.
    revert xs acc. induction cs as [|c cs IH]; intros xs acc; cbn [wsum_skip]; [reflexivity|].
    destruct xs as [|x xs]; cbn [map wsum_skip]; [reflexivity|].
    destruct (nz c).
    - destruct x as [v|]; cbn [oT option_map]; [|reflexivity].
      rewrite Tn_scal, Tn_add. apply IH.
    - apply IH.
  Qed.

  Lemma wsum_skip_covariant0 cs xs :
    wsum_skip cs (map oT xs) vzero = option_map Tn (wsum_skip cs xs vzero).
  Proof. rewrite <- wsum_skip_covariant. now rewrite Tn_zero. Qed.

  Lemma oT_snoc xs (b : bool) v :
    map oT xs ++ [if b then Some (Tn v) else None] = map oT (xs ++ [if b then Some v else None]).
  Proof. rewrite map_app. destruct b; reflexivity. Qed.

  Lemma imex_stages_covariant dt y0 b_ex b_im i rex rim fs gs :
    imex_ok dt i rim ->
    imex_stages Fx' G' Ginv' (tau * dt) (Sc y0) b_ex b_im i rex rim (map oT fs) (map oT gs)
    = option_map (fun p => (map oT (fst p), map oT (snd p)))
                 (imex_stages Fx G Ginv dt y0 b_ex b_im i rex rim fs gs).
  Proof.
    revert i rim fs gs. induction rex as [|re rex IH]; intros i rim fs gs Hok; cbn [imex_stages]; [reflexivity|].
    destruct rim as [|ri rim]; [reflexivity|]. destruct Hok as [Hok1 Hok2].
    rewrite !wsum_skip_covariant0.
    destruct (wsum_skip re fs vzero) as [ex|]; cbn [option_map]; [|reflexivity].
    destruct (wsum_skip ri gs vzero) as [im|]; cbn [option_map]; [|reflexivity].
    rewrite !S_axpy.
    rewrite (Ginv_cov _ (dt * nth i ri 0)) by (assumption || ring).
    rewrite HF, HG, !oT_snoc.
    apply IH. exact Hok2.
  Qed.

  Theorem imex_step_covariant dt a_ex a_im b_ex b_im y0 :
    imex_ok dt 1 a_im ->
    imex_step Fx' G' Ginv' (tau * dt) a_ex a_im b_ex b_im (Sc y0)
    = option_map Sc (imex_step Fx G Ginv dt a_ex a_im b_ex b_im y0).
  Proof.
    intros Hok. unfold imex_step.
    pose proof (imex_stages_covariant dt y0 b_ex b_im 1 a_ex a_im [Some (Fx y0)] [Some (G y0)] Hok) as H.
    cbn [map oT option_map] in H. rewrite HF, HG. rewrite H. clear H.
    destruct (imex_stages Fx G Ginv dt y0 b_ex b_im 1 a_ex a_im [Some (Fx y0)] [Some (G y0)]) as [[fs gs]|];
      cbn [option_map fst snd]; [|reflexivity].
    rewrite !wsum_skip_covariant0.
    destruct (wsum_skip b_ex fs vzero) as [ex|]; cbn [option_map]; [|reflexivity].
    destruct (wsum_skip b_im gs vzero) as [im|]; cbn [option_map]; [|reflexivity].
    now rewrite !S_axpy.
  Qed.

  (** every integrator of Model/Integrators.v at once; each is required to be
      [ok] only at the step sizes it solves with *)
  Theorem steps_covariant dt alpha al be ga a_ex a_im b_ex b_im u p q :
    (ok dt -> euler_step Fx' Ginv' (tau * dt) (Sc u) = Sc (euler_step Fx Ginv dt u)) /\
    (ok (half * dt) -> cn_rk2_step Fx' G' Ginv' (tau * dt) (Sc u) = Sc (cn_rk2_step Fx G Ginv dt u)) /\
    (ls_ok dt al -> ls_step Fx' G' Ginv' (tau * dt) al be ga (Sc u) = Sc (ls_step Fx G Ginv dt al be ga u)) /\
    (imex_ok dt 1 a_im ->
       imex_step Fx' G' Ginv' (tau * dt) a_ex a_im b_ex b_im (Sc u)
       = option_map Sc (imex_step Fx G Ginv dt a_ex a_im b_ex b_im u)) /\
    (ok (two * dt * alpha) ->
       leapfrog_step Fx' G' Ginv' (tau * dt) alpha (Sc p, Sc q)
       = (Sc (fst (leapfrog_step Fx G Ginv dt alpha (p, q))), Sc (snd (leapfrog_step Fx G Ginv dt alpha (p, q))))).
  Proof.
    split; [apply euler_step_covariant|]. split; [apply cn_rk2_step_covariant|].
    split; [apply ls_step_covariant|]. split; [apply imex_step_covariant | apply leapfrog_covariant].
  Qed.

  (** filters (a function of the state before and after the step) and trajectories *)
  Fixpoint apply_filters (fl : list (V -> V -> V)) (u un : V) : V :=
    match fl with [] => un | f :: fl' => apply_filters fl' u (f u un) end.
  Definition step_with_filters (step : V -> V) (fl : list (V -> V -> V)) (u : V) : V :=
    apply_filters fl u (step u).

  Theorem trajectory_covariant (step step' : V -> V) (fl fl' : list (V -> V -> V)) :
    (forall u, step' (Sc u) = Sc (step u)) ->
    Forall2 (fun f' f => forall u w, f' (Sc u) (Sc w) = Sc (f u w)) fl' fl ->
    forall k u, Nat.iter k (step_with_filters step' fl') (Sc u) = Sc (Nat.iter k (step_with_filters step fl) u).
  Proof.
    intros Hs Hf.
    assert (A : forall u, step_with_filters step' fl' (Sc u) = Sc (step_with_filters step fl u)).
    { intros u. unfold step_with_filters. rewrite Hs. generalize (step u) as w.
      induction Hf as [|f' f fl' fl Hff Hf IH]; intros w; cbn [apply_filters]; [reflexivity|].
      rewrite Hff. apply IH. }
    induction k as [|k IH]; intros u; simpl Nat.iter; [reflexivity | rewrite IH; apply A].
  Qed.
End StepCovariance.

(** The column operators of Model/Sigma.v are homogeneous.  Stated for an
    arbitrary multiplier [c]; the instances with [c = factor s d] and the
    dimension bookkeeping are in Prop/C12.v. *)
Section Columns.
  Context {F : Type} {o : Ops F} {Fc : FieldC o}.
  Add Field FFsc2 : (field_c : FieldTh o).

  (** by either method, matrix product or sequential *)
  Lemma cumsum_m_scal dot K c (f g : nat -> F) j :
    (forall i, g i = c * f i) -> cumsum_m dot K g j = c * cumsum_m dot K f j.
  Proof.
    intros H. destruct dot; cbn [cumsum_m]; unfold cumsum_dot, cumsum_seq; rewrite <- sumn_scal_l;
      apply sumn_ext; intros i _; rewrite H; ring.
  Qed.
  Lemma revcumsum_m_scal dot K c (f g : nat -> F) j :
    (forall i, g i = c * f i) -> revcumsum_m dot K g j = c * revcumsum_m dot K f j.
  Proof.
    intros H. destruct dot; cbn [revcumsum_m]; unfold revcumsum_dot, revcumsum_seq; rewrite <- sumn_scal_l;
      apply sumn_ext; intros i _; rewrite H; ring.
  Qed.

  (** sigma is dimensionless *)
  Theorem cum_sigma_integral_homogeneous dot down K (b x : nat -> F) c j :
    cum_sigma_integral dot down K b (scol c x) j = c * cum_sigma_integral dot down K b x j.
  Proof.
    unfold cum_sigma_integral. destruct down.
    - apply cumsum_m_scal. intros i. unfold xdsigma, scol. ring.
    - apply revcumsum_m_scal. intros i. unfold xdsigma, scol. ring.
  Qed.

  Theorem sigma_integral_homogeneous K (b x : nat -> F) c :
    sigma_integral K b (scol c x) = c * sigma_integral K b x.
  Proof.
    unfold sigma_integral. rewrite <- sumn_scal_l. apply sumn_ext. intros i _. unfold xdsigma, scol. ring.
  Qed.

  Theorem centered_difference_homogeneous (b x : nat -> F) c k :
    centered_difference b (scol c x) k = c * centered_difference b x k.
  Proof. unfold centered_difference, scol. ring. Qed.

  Lemma pad_tb_scal K c top bot (v : nat -> F) k :
    pad_tb K (c * top) (c * bot) (fun i => c * v i) k = c * pad_tb K top bot v k.
  Proof. unfold pad_tb. destruct (Nat.eqb k 0); [reflexivity|]. destruct (Nat.ltb k K); reflexivity. Qed.
  Lemma pad_tb_ext K top bot (v v' : nat -> F) k :
    (forall i, v i = v' i) -> pad_tb K top bot v k = pad_tb K top bot v' k.
  Proof. intros H. unfold pad_tb. destruct (Nat.eqb k 0); [reflexivity|]. destruct (Nat.ltb k K); auto. Qed.

  Lemma cva_ext K b (w w' x x' : nat -> F) wt wb dt db n :
    (forall k, w' k = w k) -> (forall k, x' k = x k) ->
    centered_vertical_advection K b w' x' wt wb dt db n = centered_vertical_advection K b w x wt wb dt db n.
  Proof.
    intros Hw Hx. unfold centered_vertical_advection. cbv zeta.
    rewrite !(pad_tb_ext K wt wb w' w) by exact Hw.
    rewrite !(pad_tb_ext K dt db (centered_difference b x') (centered_difference b x)).
    2,3: intros k; unfold centered_difference; now rewrite !Hx.
    reflexivity.
  Qed.

  (** bilinear: velocity of dimension dw, advected quantity of dimension dx *)
  Theorem centered_vertical_advection_bilinear K (b w x : nat -> F) wt wb dt db cw cx n :
    centered_vertical_advection K b (scol cw w) (scol cx x) (cw * wt) (cw * wb) (cx * dt) (cx * db) n
    = cw * cx * centered_vertical_advection K b w x wt wb dt db n.
  Proof.
    unfold centered_vertical_advection. cbv zeta.
    assert (A : forall k, pad_tb K (cw * wt) (cw * wb) (scol cw w) k = cw * pad_tb K wt wb w k).
    { intros k. apply pad_tb_scal. }
    assert (B : forall k, pad_tb K (cx * dt) (cx * db) (centered_difference b (scol cx x)) k
                          = cx * pad_tb K dt db (centered_difference b x) k).
    { intros k. rewrite <- pad_tb_scal. apply pad_tb_ext. intros i. apply centered_difference_homogeneous. }
    rewrite !A, !B. ring.
  Qed.

  (** geopotential: R (L^2 T^-2 Theta^-1) times T (Theta) *)
  Theorem geo_diff_dense_homogeneous K R (ls T : nat -> F) cR cT j :
    geo_diff_dense K (cR * R) ls (scol cT T) j = cR * cT * geo_diff_dense K R ls T j.
  Proof.
    unfold geo_diff_dense. rewrite <- sumn_scal_l. apply sumn_ext. intros k _.
    unfold geo_weights, scol. ring.
  Qed.

  Theorem geo_diff_sparse_homogeneous K R (ls T : nat -> F) cR cT j :
    (j < K)%nat ->
    geo_diff_sparse K (cR * R) ls (scol cT T) j = cR * cT * geo_diff_sparse K R ls T j.
  Proof.
    intros Hj. rewrite !(geo_sparse_eq_dense K _ ls _ j Hj). apply geo_diff_dense_homogeneous.
  Qed.
End Columns.

(** The nodal primitive-equation terms of Model/PrimEq.v are homogeneous.
    Multipliers: [ku] velocity (cos_lat_u), [kr] rates (vorticity, divergence,
    Coriolis), [kT] temperature, [kg] inverse length (cos_lat_grad_log_sp),
    [kR] gas constant; kappa, sigma, sec2_lat and q are dimensionless.  The
    relations between the multipliers that dimensional consistency of the
    equations requires are explicit hypotheses ([ku*kg = kr],
    [kR*kT*kg = ku*kr]); Prop/C12.v discharges them for [factor s d]. *)
Section NodalTerms.
  Context {F : Type} {o : Ops F} {Fc : FieldC o}.
  Add Field FFsc5 : (field_c : FieldTh o).

  Variables (ku kr kT kg kR : F).
  Hypothesis H_rate : ku * kg = kr.
  Hypothesis H_accel : kR * kT * kg = ku * kr.

  Notation scale_ncol := (scale_ncol ku kr kT kg).
  Notation scale_cfg := (scale_cfg kT kR).

  Variable c : @PEcfg F.
  Notation scale_cfg_c := (Scaling.scale_cfg kT kR c).

  Lemma u_dot_grad_homogeneous x k : u_dot_grad (scale_ncol x) k = kr * u_dot_grad x k.
  Proof. unfold u_dot_grad, scale_ncol, scol; cbn. rewrite <- H_rate. ring. Qed.

  (** the sigma levels are the same under both scales *)
  Lemma sigma_dot_scal a (g g' : nat -> F) r :
    (forall k, g' k = a * g k) -> sigma_dot (scale_cfg c) g' r = a * sigma_dot c g r.
  Proof. intros H. apply (clin_scal _ _ (sigma_dot_linear c)). intros k _. apply H. Qed.

  Lemma g_part_scal a (g g' : nat -> F) n :
    (forall k, g' k = a * g k) -> g_part (scale_cfg c) g' n = a * g_part c g n.
  Proof. intros H. apply (clin_scal _ _ (g_part_linear c)). intros k _. apply H. Qed.

  Lemma t_omega_scal a (Tf Tf' g g' vg vg' : nat -> F) n :
    (forall k, Tf' k = kT * Tf k) -> (forall k, g' k = a * g k) -> (forall k, vg' k = a * vg k) ->
    t_omega_over_sigma_sp (scale_cfg c) Tf' g' vg' n = kT * a * t_omega_over_sigma_sp c Tf g vg n.
  Proof.
    intros HT Hg Hv. unfold t_omega_over_sigma_sp. rewrite (g_part_scal a g g') by exact Hg.
    rewrite HT, Hv. ring.
  Qed.

  Lemma vertical_tendency_scal aw ax (w w' xx xx' : nat -> F) n :
    (forall k, w' k = aw * w k) -> (forall k, xx' k = ax * xx k) ->
    vertical_tendency (scale_cfg c) w' xx' n = aw * ax * vertical_tendency c w xx n.
  Proof.
    intros Hw Hx. unfold vertical_tendency, scale_cfg; cbn [cK cb].
    rewrite (cva_ext _ _ (scol aw w) w' (scol ax xx) xx') by (intros k; unfold scol; auto).
    pose proof (centered_vertical_advection_bilinear (cK c) (cb c) w xx 0 0 0 0 aw ax n) as H.
    replace (aw * 0) with (0 : F) in H by ring. replace (ax * 0) with (0 : F) in H by ring. exact H.
  Qed.

  Lemma sigma_dot_full_homogeneous x r :
    sigma_dot_full (scale_cfg c) (scale_ncol x) r = kr * sigma_dot_full c x r.
  Proof.
    unfold sigma_dot_full. apply sigma_dot_scal. intros k. unfold g_full_diag.
    rewrite u_dot_grad_homogeneous. unfold scale_ncol, scol; cbn. ring.
  Qed.

  Lemma sigma_dot_explicit_homogeneous x r :
    sigma_dot_explicit scale_cfg_c (scale_ncol x) r = kr * sigma_dot_explicit c x r.
  Proof. unfold sigma_dot_explicit. apply sigma_dot_scal. intros k. unfold g_explicit. apply u_dot_grad_homogeneous. Qed.

  Lemma advection_by_sigma_dot_homogeneous a x (y y' : nat -> F) n :
    (forall k, y' k = a * y k) ->
    vertical_tendency scale_cfg_c (sigma_dot_full scale_cfg_c (scale_ncol x)) y' n
      = kr * a * vertical_tendency c (sigma_dot_full c x) y n.
  Proof. apply vertical_tendency_scal. intros r. apply sigma_dot_full_homogeneous. Qed.

  (** temperature tendency, adiabatic term: kappa * T * omega/p  (Theta / T) *)
  Theorem temp_adiabatic_homogeneous x n :
    temp_adiabatic (scale_cfg c) (scale_ncol x) n = kT * kr * temp_adiabatic c x n.
  Proof.
    unfold temp_adiabatic. cbv zeta.
    rewrite (t_omega_scal kr (cTref c) _ (g_explicit x) _ (u_dot_grad x)).
    2:{ intros k. reflexivity. }
    2,3: intros k; unfold g_explicit; apply u_dot_grad_homogeneous.
    rewrite (t_omega_scal kr (n_temp x) _ (g_full_adiabatic x) _ (u_dot_grad x)).
    2:{ intros k. reflexivity. }
    2:{ intros k. unfold g_full_adiabatic. rewrite u_dot_grad_homogeneous. unfold scale_ncol, scol; cbn. ring. }
    2:{ intros k. apply u_dot_grad_homogeneous. }
    cbn [scale_cfg ckappa]. ring.
  Qed.

  (** d(log ps)/dt = - sum dsigma * u.grad(log ps)   (1 / T) *)
  Theorem log_pressure_tendency_homogeneous x :
    log_pressure_tendency (scale_cfg c) (scale_ncol x) = kr * log_pressure_tendency c x.
  Proof.
    unfold log_pressure_tendency; cbn [scale_cfg cK cb].
    unfold sigma_integral. rewrite (sumn_ext (cK c) _ (fun k => kr * xdsigma (cb c) (u_dot_grad x) k)).
    - rewrite sumn_scal_l. ring.
    - intros k _. unfold xdsigma. rewrite u_dot_grad_homogeneous. ring.
  Qed.

  (** momentum equation: (zeta + f) k x v + sigma_dot dv/dsigma + RT grad(ln ps)  (L / T^2),
      for any [rt] of dimension L^2 T^-2 *)
  Lemma combined_uv_scal va x (rt rt' : nat -> F) k :
    (forall j, rt' j = kR * kT * rt j) ->
    combined_u scale_cfg_c va (scale_ncol x) rt' k = ku * kr * combined_u c va x rt k /\
    combined_v scale_cfg_c va (scale_ncol x) rt' k = ku * kr * combined_v c va x rt k.
  Proof.
    intros Hrt.
    assert (PG : forall gr : F, kR * kT * rt k * (kg * gr) = ku * kr * (rt k * gr)).
    { intros gr. rewrite <- H_accel. ring. }
    split; unfold combined_u, combined_v; cbv zeta; rewrite Hrt; destruct va.
    1: rewrite (advection_by_sigma_dot_homogeneous ku x (n_u x)) by reflexivity.
    3: rewrite (advection_by_sigma_dot_homogeneous ku x (n_v x)) by reflexivity.
    all: unfold Scaling.scale_ncol, scol; cbn [n_u n_v n_vort n_div n_temp n_gx n_gy n_sec2 n_f]; rewrite PG; ring.
  Qed.

  Lemma rt_dry_homogeneous x k : rt_dry scale_cfg_c (scale_ncol x) k = kR * kT * rt_dry c x k.
  Proof. unfold rt_dry, Scaling.scale_ncol, Scaling.scale_cfg, scol; cbn [n_temp cR]. ring. Qed.

  Theorem combined_uv_homogeneous va x k :
    combined_u (scale_cfg c) va (scale_ncol x) (rt_dry (scale_cfg c) (scale_ncol x)) k
      = ku * kr * combined_u c va x (rt_dry c x) k /\
    combined_v (scale_cfg c) va (scale_ncol x) (rt_dry (scale_cfg c) (scale_ncol x)) k
      = ku * kr * combined_v c va x (rt_dry c x) k.
  Proof. apply combined_uv_scal. apply rt_dry_homogeneous. Qed.

  Lemma hsa_nodal_homogeneous a x (s : nat -> F) k :
    hsa_nodal (scale_ncol x) (scol a s) k = a * kr * hsa_nodal x s k.
  Proof. unfold hsa_nodal, Scaling.scale_ncol, scol; cbn. ring. Qed.
  Lemma hsa_mu_homogeneous a x (s : nat -> F) k :
    hsa_mu (scale_ncol x) (scol a s) k = ku * a * hsa_mu x s k.
  Proof. unfold hsa_mu, Scaling.scale_ncol, scol; cbn. ring. Qed.
  Lemma hsa_mv_homogeneous a x (s : nat -> F) k :
    hsa_mv (scale_ncol x) (scol a s) k = ku * a * hsa_mv x s k.
  Proof. unfold hsa_mv, Scaling.scale_ncol, scol; cbn. ring. Qed.

  Lemma kinetic_homogeneous x k : kinetic (scale_ncol x) k = ku * ku * kinetic x k.
  Proof. unfold kinetic, Scaling.scale_ncol, scol; cbn. rewrite !fdiv_mul. ring. Qed.

  (** a tracer with multiplier [a]: a / T *)
  Lemma tracer_nodal_total_scal a va x (s s' : nat -> F) n :
    (forall k, s' k = a * s k) ->
    tracer_nodal_total scale_cfg_c va (scale_ncol x) s' n = a * kr * tracer_nodal_total c va x s n.
  Proof.
    intros H. unfold tracer_nodal_total, hsa_nodal. rewrite H.
    destruct va; [rewrite (advection_by_sigma_dot_homogeneous a x s s' n H)|];
      unfold Scaling.scale_ncol, scol; cbn [n_div]; ring.
  Qed.

  Theorem tracer_nodal_total_homogeneous a va x (s : nat -> F) n :
    tracer_nodal_total scale_cfg_c va (scale_ncol x) (scol a s) n = a * kr * tracer_nodal_total c va x s n.
  Proof. now apply tracer_nodal_total_scal. Qed.

  (** the dimensionless tracers (specific humidity, cloud water, cloud ice) are not rescaled: 1 / T *)
  Theorem tracer_nodal_total_dimensionless va x (s : nat -> F) n :
    tracer_nodal_total scale_cfg_c va (scale_ncol x) s n = kr * tracer_nodal_total c va x s n.
  Proof. rewrite (tracer_nodal_total_scal 1 va x s s n) by (intros; ring). ring. Qed.

  (** the branch [np.unique(T_ref).size > 1] does not depend on the temperature scale *)
  Hypothesis feqb_iff : forall a b : F, feqb a b = true <-> a = b.
  Hypothesis kT_nz : kT <> 0.

  Lemma feqb_scal a b : feqb (kT * a) (kT * b) = feqb a b.
  Proof.
    apply Bool.eq_true_iff_eq. rewrite !feqb_iff. split; [|now intros ->].
    intros E. replace a with (kT * a / kT) by (field; exact kT_nz). rewrite E. field. exact kT_nz.
  Qed.

  Theorem tref_nonuniform_scale_invariant : tref_nonuniform scale_cfg_c = tref_nonuniform c.
  Proof.
    unfold tref_nonuniform. cbn [Scaling.scale_cfg cK cTref]. unfold scol.
    induction (seq 0 (cK c)) as [|k l IH]; cbn [existsb]; [reflexivity|].
    now rewrite feqb_scal, IH.
  Qed.

  Theorem temp_vertical_tendency_homogeneous va x n :
    temp_vertical_tendency scale_cfg_c va (scale_ncol x) n = kT * kr * temp_vertical_tendency c va x n.
  Proof.
    unfold temp_vertical_tendency. cbv zeta. rewrite tref_nonuniform_scale_invariant.
    rewrite (advection_by_sigma_dot_homogeneous kT x (n_temp x)) by reflexivity.
    rewrite (vertical_tendency_scal kr kT (sigma_dot_explicit c x) _ (cTref c))
      by (intros r; first [apply sigma_dot_explicit_homogeneous | reflexivity]).
    destruct va, (tref_nonuniform c); ring.
  Qed.

  (** full nodal right-hand side of the temperature equation (dry), Theta / T *)
  Theorem temp_nodal_total_homogeneous va x n :
    temp_nodal_total scale_cfg_c va (scale_ncol x) n = kT * kr * temp_nodal_total c va x n.
  Proof.
    unfold temp_nodal_total.
    rewrite (hsa_nodal_homogeneous kT x (n_temp x) n : hsa_nodal (scale_ncol x) (n_temp (scale_ncol x)) n = _).
    rewrite temp_vertical_tendency_homogeneous, temp_adiabatic_homogeneous. ring.
  Qed.

  (** moist classes: R_vapor and Cp_vapor scale like R; q, cloud water and ice are dimensionless *)
  Hypothesis kR_nz : kR <> 0.
  Hypothesis R_nz : cR c <> 0.
  Variable m : @Moist F.
  Notation scale_moist_m := (scale_moist kR m).

  Lemma gas_ratio_invariant : mRv scale_moist_m / cR scale_cfg_c = mRv m / cR c.
  Proof. cbn [scale_moist Scaling.scale_cfg mRv cR]. field. split; assumption. Qed.

  Lemma heat_ratio_invariant :
    ckappa c <> 0 ->
    mCpv scale_moist_m / (cR scale_cfg_c / ckappa scale_cfg_c) = mCpv m / (cR c / ckappa c).
  Proof. intros Hk. cbn [scale_moist Scaling.scale_cfg mCpv cR ckappa]. field. repeat split; assumption. Qed.

  Lemma moisture_contribution_invariant q k :
    moisture_contribution scale_cfg_c scale_moist_m q k = moisture_contribution c m q k.
  Proof. unfold moisture_contribution. now rewrite gas_ratio_invariant. Qed.

  Lemma rt_moist_homogeneous x q k :
    rt_moist scale_cfg_c scale_moist_m (scale_ncol x) q k = kR * kT * rt_moist c m x q k.
  Proof.
    unfold rt_moist. rewrite moisture_contribution_invariant.
    unfold Scaling.scale_ncol, Scaling.scale_cfg, scol; cbn [n_temp cR]. ring.
  Qed.
  Lemma rt_cloud_homogeneous x q qc qi k :
    rt_cloud scale_cfg_c scale_moist_m (scale_ncol x) q qc qi k = kR * kT * rt_cloud c m x q qc qi k.
  Proof.
    unfold rt_cloud. rewrite moisture_contribution_invariant.
    unfold Scaling.scale_ncol, Scaling.scale_cfg, scol; cbn [n_temp cR]. ring.
  Qed.

  (** adiabatic temperature term of the moist classes, Theta / T *)
  Theorem temp_adiabatic_moist_homogeneous x q n :
    ckappa c <> 0 ->
    temp_adiabatic_moist scale_cfg_c scale_moist_m (scale_ncol x) q n
      = kT * kr * temp_adiabatic_moist c m x q n.
  Proof.
    intros Hk. unfold temp_adiabatic_moist. cbv zeta.
    rewrite gas_ratio_invariant, (heat_ratio_invariant Hk).
    rewrite (t_omega_scal kr (cTref c) _ (g_explicit x) _ (u_dot_grad x)).
    2:{ intros k. reflexivity. }
    2,3: intros k; unfold g_explicit; apply u_dot_grad_homogeneous.
    match goal with |- context [t_omega_over_sigma_sp scale_cfg_c ?Tf' _ _ n] =>
      rewrite (t_omega_scal kr
                 (fun k => n_temp x k * ((1 + (mRv m / cR c - 1) * q k) / (1 + (mCpv m / (cR c / ckappa c) - 1) * q k))
                           + cTref c k * (((mRv m / cR c - mCpv m / (cR c / ckappa c)) * q k) / (1 + (mCpv m / (cR c / ckappa c) - 1) * q k)))
                 Tf' (g_full_adiabatic x) _ (u_dot_grad x)) end.
    2:{ intros k. unfold Scaling.scale_ncol, Scaling.scale_cfg, scol; cbn [n_temp cTref]. ring. }
    2:{ intros k. unfold g_full_adiabatic. rewrite u_dot_grad_homogeneous. unfold Scaling.scale_ncol, scol; cbn. ring. }
    2:{ intros k. apply u_dot_grad_homogeneous. }
    cbn [Scaling.scale_cfg ckappa]. ring.
  Qed.

  Theorem temp_nodal_total_moist_homogeneous va x q n :
    ckappa c <> 0 ->
    temp_nodal_total_moist scale_cfg_c va scale_moist_m (scale_ncol x) q n
      = kT * kr * temp_nodal_total_moist c va m x q n.
  Proof.
    intros Hk. unfold temp_nodal_total_moist.
    rewrite (hsa_nodal_homogeneous kT x (n_temp x) n : hsa_nodal (scale_ncol x) (n_temp (scale_ncol x)) n = _).
    rewrite temp_vertical_tendency_homogeneous, (temp_adiabatic_moist_homogeneous x q n Hk). ring.
  Qed.

  (** explicit humidity corrections of the divergence and vorticity equations:
      grad q and grad ln ps in 1/L, laplacian(ln ps) in 1/L^2; results in 1/T^2
      (nodal terms) and L^2/T^2 (geopotential of the virtual-temperature excess) *)
  Lemma humidity_div_nodal_homogeneous x (q gqx gqy : nat -> F) lap k :
    humidity_div_nodal scale_cfg_c scale_moist_m (scale_ncol x) q (scol kg gqx) (scol kg gqy) (kg * kg * lap) k
      = kT * kR * (kg * kg) * humidity_div_nodal c m x q gqx gqy lap k.
  Proof.
    unfold humidity_div_nodal, Scaling.scale_ncol, Scaling.scale_cfg, scale_moist, scol;
      cbn [n_gx n_gy n_sec2 cTref cR mRv]. ring.
  Qed.
  Lemma humidity_curl_nodal_homogeneous x (gqx gqy : nat -> F) k :
    humidity_curl_nodal scale_cfg_c scale_moist_m (scale_ncol x) (scol kg gqx) (scol kg gqy) k
      = kT * kR * (kg * kg) * humidity_curl_nodal c m x gqx gqy k.
  Proof.
    unfold humidity_curl_nodal, Scaling.scale_ncol, Scaling.scale_cfg, scale_moist, scol;
      cbn [n_gx n_gy n_sec2 cTref cR mRv]. ring.
  Qed.
  Lemma humidity_geo_nodal_homogeneous sparse x (q : nat -> F) k :
    (k < cK c)%nat ->
    humidity_geo_nodal scale_cfg_c sparse scale_moist_m (scale_ncol x) q k
      = kR * kT * humidity_geo_nodal c sparse m x q k.
  Proof.
    intros Hk. unfold humidity_geo_nodal, geo_diff. cbn [Scaling.scale_cfg cK cR cls].
    assert (E : forall j, humidity_temperature_diff scale_cfg_c scale_moist_m (scale_ncol x) q j
                          = scol kT (humidity_temperature_diff c m x q) j).
    { intros j. unfold humidity_temperature_diff. rewrite gas_ratio_invariant.
      unfold Scaling.scale_ncol, Scaling.scale_cfg, scol; cbn [n_temp cTref]. ring. }
    destruct sparse; rewrite ?(geo_sparse_eq_dense _ _ _ _ k Hk), <- geo_diff_dense_homogeneous;
      unfold geo_diff_dense; apply sumn_ext; intros j _; now rewrite E.
  Qed.
End NodalTerms.

(** Log surface pressure is the one variable that is not homogeneous: a change
    of the pressure scale shifts it by a constant. *)
Section LogPressure.
  Context {F : Type} {o : Ops F} {Fc : FieldC o}.
  Add Field FFsc3 : (field_c : FieldTh o).

  (** A linear operator (matrix [A], any size) that annihilates the constant
      field - a nodal gradient or Laplacian - does not see the shift. *)
  Theorem shift_killed_nodal n (A : nat -> nat -> F) (x : nat -> F) c i :
    (forall r, sumn n (fun j => A r j) = 0) ->
    lin n A (shift_field c x) i = lin n A x i.
  Proof.
    intros H. unfold lin, shift_field.
    rewrite (sumn_ext n _ (fun j => A i j * x j + c * A i j)) by (intros; ring).
    rewrite sumn_add, sumn_scal_l, H. ring.
  Qed.

  (** Spectral form: an operator whose column of the constant mode (index 0)
      vanishes - grad, div, curl, Laplacian, laplacian eigenvalue 0 - does not
      see a shift of the (0,0) coefficient. *)
  Theorem shift_killed_modal n (A : nat -> nat -> F) (x : nat -> F) c i :
    (0 < n)%nat -> (forall r, A r 0%nat = 0) ->
    lin n A (shift_mode0 c x) i = lin n A x i.
  Proof.
    intros Hn H. unfold lin. destruct n as [|n]; [lia|].
    rewrite !sumn_S_first. f_equal.
    - unfold shift_mode0. cbn [Nat.eqb]. rewrite H. ring.
  Qed.

  (** an operator that maps the constant mode to itself (the resolvent at
      l = 0, time filters, the identity) passes the shift through *)
  Theorem shift_passed_modal n (A : nat -> nat -> F) (x : nat -> F) c i :
    (0 < n)%nat -> (forall r, A r 0%nat = delta r 0%nat) ->
    lin n A (shift_mode0 c x) i = shift_mode0 c (lin n A x) i.
  Proof.
    intros Hn H. unfold lin. destruct n as [|n]; [lia|].
    rewrite !sumn_S_first. unfold shift_mode0 at 1. cbn [Nat.eqb].
    rewrite (sumn_ext n (fun j => A i (S j) * shift_mode0 c x (S j)) (fun j => A i (S j) * x (S j))).
    2:{ intros j _. unfold shift_mode0. reflexivity. }
    unfold shift_mode0 at 1. rewrite sumn_S_first. rewrite H. unfold delta.
    destruct (Nat.eqb i 0); ring.
  Qed.

  (** Held-Suarez: sigma*exp(lnps)/p0 is invariant when p0 is
      non-dimensionalised with the same scale; [E] is any homomorphism from
      F under addition to F under multiplication (the exponential), [fp] = factor s d_pressure = E lp. *)
  Theorem p_over_p0_invariant (E : F -> F) (sigma lnps_si p0_si lp fp : F) :
    (forall a b, E (a + b) = E a * E b) -> E lp = fp -> fp <> 0 -> p0_si <> 0 ->
    p_over_p0 E sigma (lnps_si - lp) (p0_si / fp) = p_over_p0 E sigma lnps_si p0_si.
  Proof.
    intros HE Hlp Hfp Hp0. unfold p_over_p0.
    assert (A : E lnps_si = E (lnps_si - lp) * fp).
    { rewrite <- Hlp, <- HE. f_equal. ring. }
    rewrite A. field. split; assumption.
  Qed.
End LogPressure.

(** Held-Suarez forcing (Model/Forcings.v): rates in 1/T, temperatures in
    Theta, sigma_b / sigma / cos / sin / (p/p0)^kappa / log(p/p0) dimensionless.
    The maximum with minT needs an ordered field and a POSITIVE temperature
    scale; p/p0 itself is scale-invariant (the transcendental functions are
    applied to an invariant argument, see also [p_over_p0_invariant]). *)
Section HeldSuarezCov.
  Context {F : Type} {o : Ops F} {Oc : OrdFieldC o}.
  Add Field FFsc6 : (field_c : FieldTh o).
  Variables (kp kr kT : F).
  Variable P : HSParams F.
  Notation P' := (scale_hs kp kr kT P).

  Lemma fleb_scal_pos k a b : flt 0 k -> fleb (k * a) (k * b) = fleb a b.
  Proof.
    intros Hk. destruct (fleb a b) eqn:E.
    - change (fle (k * a) (k * b)). apply fle_mul_l; [apply flt_le; exact Hk | exact E].
    - change (flt (k * b) (k * a)). apply (proj2 (flt_sub (k * b) (k * a))).
      replace (k * a - k * b) with (k * (a - b)) by ring.
      apply fmul_pos_pos; [exact Hk|]. apply (proj1 (flt_sub b a)). exact E.
  Qed.

  Lemma fmax_scal_pos k a b : flt 0 k -> fmax (k * a) (k * b) = k * fmax a b.
  Proof. intros Hk. unfold fmax. rewrite (fleb_scal_pos k a b Hk). destruct (fleb a b); reflexivity. Qed.

  Theorem hs_rates_homogeneous sigma cl :
    hs_kv P' sigma = kr * hs_kv P sigma /\ hs_kt P' sigma cl = kr * hs_kt P sigma cl.
  Proof. unfold hs_kv, hs_kt, scale_hs; cbn. split; ring. Qed.

  (** p / p0 is invariant: surface pressure and p0 carry the same factor *)
  Theorem hs_p_over_p0_invariant sigma ps :
    kp <> 0 -> hp_p0 P <> 0 -> hs_p_over_p0 P' sigma (kp * ps) = hs_p_over_p0 P sigma ps.
  Proof. intros H1 H2. unfold hs_p_over_p0, scale_hs; cbn. field. split; assumption. Qed.

  Theorem hs_teq_unbounded_homogeneous pk logp cl sl :
    hs_teq_unbounded P' pk logp cl sl = kT * hs_teq_unbounded P pk logp cl sl.
  Proof. unfold hs_teq_unbounded, scale_hs; cbn. ring. Qed.

  Theorem hs_teq_homogeneous pk logp cl sl :
    flt 0 kT -> hs_teq P' pk logp cl sl = kT * hs_teq P pk logp cl sl.
  Proof.
    intros HT. unfold hs_teq. rewrite hs_teq_unbounded_homogeneous. cbn [scale_hs hp_minT]. now apply fmax_scal_pos.
  Qed.

  (** nodal tendencies: Rayleigh friction on cos_lat_u (L/T^2) and Newtonian relaxation (Theta/T) *)
  Theorem hs_velocity_tendency_homogeneous ku kv cu cl :
    hs_nodal_velocity_tendency (kr * kv) (ku * cu) cl = ku * kr * hs_nodal_velocity_tendency kv cu cl.
  Proof. unfold hs_nodal_velocity_tendency. rewrite !fdiv_mul. ring. Qed.
  Theorem hs_temperature_tendency_homogeneous kt tref tvar teq :
    hs_nodal_temperature_tendency (kr * kt) (kT * tref) (kT * tvar) (kT * teq)
      = kT * kr * hs_nodal_temperature_tendency kt tref tvar teq.
  Proof. unfold hs_nodal_temperature_tendency. ring. Qed.

  (** whole nodal temperature forcing at one point, from invariant pk/logp *)
  Theorem hs_temperature_forcing_homogeneous sigma cl sl pk logp tref tvar :
    flt 0 kT ->
    hs_nodal_temperature_tendency (hs_kt P' sigma cl) (kT * tref) (kT * tvar) (hs_teq P' pk logp cl sl)
      = kT * kr * hs_nodal_temperature_tendency (hs_kt P sigma cl) tref tvar (hs_teq P pk logp cl sl).
  Proof.
    intros HT. rewrite (proj2 (hs_rates_homogeneous sigma cl)), (hs_teq_homogeneous pk logp cl sl HT).
    apply hs_temperature_tendency_homogeneous.
  Qed.

  (** the power law and the logarithm are applied to the scale-invariant p/p0:
      covariance of the complete equilibrium temperature for EVERY pair of
      functions [pw], [lg] (nothing at all is assumed about them) *)
  Theorem hs_teq_of_ps_covariant (pw lg : F -> F) sigma ps cl sl :
    flt 0 kT -> kp <> 0 -> hp_p0 P <> 0 ->
    hs_teq_of_ps pw lg P' sigma (kp * ps) cl sl = kT * hs_teq_of_ps pw lg P sigma ps cl sl.
  Proof.
    intros HT Hk Hp. unfold hs_teq_of_ps. rewrite (hs_p_over_p0_invariant sigma ps Hk Hp).
    apply hs_teq_homogeneous. exact HT.
  Qed.
End HeldSuarezCov.

Section HeldSuarezNondim.
  Context {F : Type} {o : Ops F} {Oc : OrdFieldC o}.

  Lemma nondim_hs_as_scale_hs s P :
    scale_nz s ->
    nondim_hs s P = scale_hs (factor (Scaling.sinv s) d_pressure) (factor (Scaling.sinv s) d_rate) (factor (Scaling.sinv s) d_temp) P.
  Proof.
    intros Hs. unfold nondim_hs, scale_hs. now rewrite !(nondim_as_factor s _ _ Hs).
  Qed.

  (** Held-Suarez with non-dimensionalised inputs = non-dimensionalisation of
      the SI values, for every positive scale and every [pw], [lg] *)
  Theorem hs_nondim_commutes (pw lg : F -> F) s P sigma ps cl sl :
    scale_positive s -> hp_p0 P <> 0 ->
    hs_kv (nondim_hs s P) sigma = nondim s d_rate (hs_kv P sigma) /\
    hs_kt (nondim_hs s P) sigma cl = nondim s d_rate (hs_kt P sigma cl) /\
    hs_p_over_p0 (nondim_hs s P) sigma (nondim s d_pressure ps) = hs_p_over_p0 P sigma ps /\
    hs_teq_of_ps pw lg (nondim_hs s P) sigma (nondim s d_pressure ps) cl sl
      = nondim s d_temp (hs_teq_of_ps pw lg P sigma ps cl sl).
  Proof.
    intros Hpos Hp0. pose proof (scale_positive_nz s Hpos) as Hs.
    pose proof (sinv_nz s Hs) as Hsi.
    rewrite (nondim_hs_as_scale_hs s P Hs), !(nondim_as_factor s _ _ Hs).
    destruct (hs_rates_homogeneous (factor (Scaling.sinv s) d_pressure) (factor (Scaling.sinv s) d_rate) (factor (Scaling.sinv s) d_temp) P sigma cl) as [R1 R2].
    split; [exact R1|]. split; [exact R2|]. split.
    - apply hs_p_over_p0_invariant; [now apply factor_nonzero | exact Hp0].
    - apply hs_teq_of_ps_covariant; [apply factor_pos; now apply sinv_positive | now apply factor_nonzero | exact Hp0].
  Qed.
End HeldSuarezNondim.
