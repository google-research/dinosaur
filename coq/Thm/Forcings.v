(** Model/Forcings.v (property C20): the transcription of the source formulas
    (Gen/Constants.v, regenerated on every run) is the hand-written model; solar
    radiation over the reals with Coq's [cos], [sin], [PI] (bounds, night and
    day, periodicity); Held-Suarez over any ordered field (signs and bounds of
    the rates, the drag through the wind, relaxation). *)
From Dino Require Import Base.Ops Base.Field Base.Sums Base.Inst Base.Ord Gen.Constants Model.Forcings.
From Coq Require Import Reals Lra Lia Qreals.
Local Open Scope F_scope.

(** the two differ in names and [let]s only *)
Section GenAgree.
  Context {F : Type} {o : Ops F}.
  Variables (cosf sinf : F -> F) (pi : F).

  Lemma gen_irradiance_ok op S V p :
    gen_get_direct_solar_irradiance cosf sinf pi op S V p = direct_solar_irradiance cosf op S V p.
  Proof. reflexivity. Qed.

  Lemma gen_declination_ok op : gen_get_declination cosf sinf pi op = declination sinf pi op.
  Proof. reflexivity. Qed.

  Lemma gen_equation_of_time_ok op : gen_equation_of_time cosf sinf pi op = equation_of_time cosf sinf pi op.
  Proof. reflexivity. Qed.

  Lemma gen_hour_angle_ok op syn lon : gen_get_hour_angle cosf sinf pi op syn lon = hour_angle cosf sinf pi op syn lon.
  Proof. reflexivity. Qed.

  Lemma gen_sin_altitude_ok op syn lon lat :
    gen_get_solar_sin_altitude cosf sinf pi op syn lon lat = solar_sin_altitude cosf sinf pi op syn lon lat.
  Proof. reflexivity. Qed.

  (** the argument order of the generated function follows [get_radiation_flux] *)
  Lemma gen_radiation_flux_ok op syn lon lat S V :
    gen_get_radiation_flux cosf sinf pi op syn lon lat S V = radiation_flux cosf sinf pi S V op syn lon lat.
  Proof. reflexivity. Qed.
End GenAgree.

Section Daytime.
  Context {F : Type} {o : Ops F} {Fc : FieldC o}.
  Add Field FFg : (field_c : FieldTh o).

  (** exactly zero at night, in any field: the mask is an exact 0 factor *)
  Lemma flux_of_night irr s : fleb s 0 = true -> flux_of irr s = 0.
  Proof. intros H. unfold flux_of, daytime. rewrite H. ring. Qed.
  Lemma flux_of_day irr s : fleb s 0 = false -> flux_of irr s = irr * s.
  Proof. intros H. unfold flux_of, daytime. rewrite H. ring. Qed.
End Daytime.

Section RadiationR.
  Local Open Scope R_scope.

  Notation Rirr := (@direct_solar_irradiance R ROps cos).
  Notation Rdec := (@declination R ROps sin PI).
  Notation Reot := (@equation_of_time R ROps cos sin PI).
  Notation Rha := (@hour_angle R ROps cos sin PI).
  Notation Rsinalt := (@solar_sin_altitude R ROps cos sin PI).
  Notation Rflux := (@radiation_flux R ROps cos sin PI).
  Notation Rnflux := (@normalized_radiation_flux R ROps cos sin PI).
  Notation Rsrflux := (@solar_radiation_flux R ROps cos sin PI).
  Notation TWO_PI := (2 * PI).
  Local Arguments SPRING_EQUINOX : simpl never.
  Local Arguments PERIHELION : simpl never.
  Local Arguments EARTH_AXIS_INCLINATION : simpl never.
  Local Arguments MINUTES_PER_DAY : simpl never.
  Local Arguments fofQ : simpl never.

  Lemma fofQ_R (q : Q) : @fofQ R ROps q = Q2R q.
  Proof. unfold fofQ, Q2R. cbn. reflexivity. Qed.

  Lemma ftwo_R : @ftwo R ROps = 2.
  Proof. unfold ftwo. rewrite fofQ_R. unfold Q2R. cbn. lra. Qed.
  Lemma two_pi_R : @two_pi R ROps PI = TWO_PI.
  Proof. unfold two_pi. rewrite ftwo_R. reflexivity. Qed.

  Lemma sin_altitude_of_bounds (a b c d e sh : R) :
    a * a + b * b = 1 -> c * c + d * d = 1 -> e * e + sh * sh = 1 ->
    -1 <= a * c * e + b * d <= 1.
  Proof.
    intros H1 H2 H3.
    (* 2 (1 -+ (a c e + b d)) = (a -+ c e)^2 + (b -+ d)^2 + (c sh)^2 *)
    assert (H4 : c * c * (sh * sh) = c * c - c * c * (e * e)).
    { replace (sh * sh) with (1 - e * e) by lra. ring. }
    pose proof (Rle_0_sqr (a - c * e)) as S1. pose proof (Rle_0_sqr (b - d)) as S2.
    pose proof (Rle_0_sqr (c * sh)) as S3.
    pose proof (Rle_0_sqr (a + c * e)) as S4. pose proof (Rle_0_sqr (b + d)) as S5.
    unfold Rsqr in *.
    split; nra.
  Qed.

  Lemma cos_sin_sq x : cos x * cos x + sin x * sin x = 1.
  Proof. pose proof (sin2_cos2 x) as H. unfold Rsqr in H. lra. Qed.

  Lemma sin_altitude_bounds op syn lon lat : -1 <= Rsinalt op syn lon lat <= 1.
  Proof.
    unfold solar_sin_altitude, sin_altitude_of. cbn.
    apply (sin_altitude_of_bounds _ _ _ _ _ (sin (Rha op syn lon))); apply cos_sin_sq.
  Qed.

  Lemma irradiance_bounds S V op p : 0 <= V -> V <= S -> 0 <= S - V <= Rirr op S V p /\ Rirr op S V p <= S + V.
  Proof.
    intros HV HS. unfold direct_solar_irradiance. cbn.
    pose proof (COS_bound (op - p)) as [Hl Hu]. nra.
  Qed.

  Lemma Rdaytime_cases s : (s <= 0 /\ @daytime R ROps s = 0) \/ (0 < s /\ @daytime R ROps s = 1).
  Proof.
    unfold daytime. cbn. destruct (Rleb s 0) eqn:E.
    - left. split; auto. now apply Rleb_true.
    - right. split; auto. now apply Rleb_false.
  Qed.

  Lemma flux_of_bounds irr s M : 0 <= irr <= M -> s <= 1 -> 0 <= @flux_of R ROps irr s <= M.
  Proof.
    intros Hi Hs. unfold flux_of. cbn.
    destruct (Rdaytime_cases s) as [[H1 H2]|[H1 H2]]; rewrite H2.
    - split; nra.
    - split; nra.
  Qed.

  Lemma flux_bounds S V op syn lon lat : 0 <= V -> V <= S -> 0 <= Rflux S V op syn lon lat <= S + V.
  Proof.
    intros HV HS. unfold radiation_flux.
    destruct (irradiance_bounds S V op (PERIHELION PI) HV HS) as [[H0 H1] H2].
    apply flux_of_bounds; [lra|apply sin_altitude_bounds].
  Qed.

  Theorem flux_nonneg S V op syn lon lat : 0 <= V -> V <= S -> 0 <= Rflux S V op syn lon lat.
  Proof. intros HV HS. now apply flux_bounds. Qed.

  Theorem flux_le_perihelion S V op syn lon lat : 0 <= V -> V <= S -> Rflux S V op syn lon lat <= S + V.
  Proof. intros HV HS. now apply flux_bounds. Qed.

  Theorem flux_zero_at_night S V op syn lon lat :
    Rsinalt op syn lon lat <= 0 -> Rflux S V op syn lon lat = 0.
  Proof.
    intros H. unfold radiation_flux. rewrite (@flux_of_night R ROps RFieldC); [reflexivity|].
    cbn. now apply Rleb_true.
  Qed.

  Theorem flux_pos_by_day S V op syn lon lat :
    0 <= V -> V < S -> 0 < Rsinalt op syn lon lat -> 0 < Rflux S V op syn lon lat.
  Proof.
    intros HV HS H. unfold radiation_flux. rewrite (@flux_of_day R ROps RFieldC) by (cbn; now apply Rleb_false).
    destruct (irradiance_bounds S V op (PERIHELION PI) HV (Rlt_le _ _ HS)) as [[H0 H1] H2].
    change (0 < Rirr op S V (PERIHELION PI) * Rsinalt op syn lon lat).
    apply Rmult_lt_0_compat; lra.
  Qed.

  Lemma cos_add_2PI x : cos (x + TWO_PI) = cos x.
  Proof. rewrite cos_plus, cos_2PI, sin_2PI. ring. Qed.
  Lemma sin_add_2PI x : sin (x + TWO_PI) = sin x.
  Proof. rewrite sin_plus, cos_2PI, sin_2PI. ring. Qed.

  Lemma trig_add_Z (n : Z) : forall x, cos (x + IZR n * TWO_PI) = cos x /\ sin (x + IZR n * TWO_PI) = sin x.
  Proof.
    induction n as [|n IH|n IH] using Z.peano_ind; intros x.
    - replace (x + 0 * TWO_PI) with x by ring. auto.
    - unfold Z.succ. rewrite plus_IZR.
      replace (x + (IZR n + 1) * TWO_PI) with ((x + IZR n * TWO_PI) + TWO_PI) by ring.
      rewrite cos_add_2PI, sin_add_2PI. apply IH.
    - destruct (IH x) as [IHc IHs]. rewrite <- IHc, <- IHs.
      unfold Z.pred. rewrite plus_IZR.
      replace (x + IZR n * TWO_PI) with ((x + (IZR n + -1) * TWO_PI) + TWO_PI) by ring.
      rewrite cos_add_2PI, sin_add_2PI. auto.
  Qed.
  Lemma cos_add_Z x n : cos (x + IZR n * TWO_PI) = cos x. Proof. apply trig_add_Z. Qed.
  Lemma sin_add_Z x n : sin (x + IZR n * TWO_PI) = sin x. Proof. apply trig_add_Z. Qed.

  Lemma irradiance_periodic S V op p n : Rirr (op + IZR n * TWO_PI) S V p = Rirr op S V p.
  Proof.
    unfold direct_solar_irradiance. cbn.
    replace (op + IZR n * TWO_PI - p) with ((op - p) + IZR n * TWO_PI) by ring.
    now rewrite cos_add_Z.
  Qed.

  Lemma declination_periodic op n : Rdec (op + IZR n * TWO_PI) = Rdec op.
  Proof.
    unfold declination. cbn.
    replace (op + IZR n * TWO_PI - SPRING_EQUINOX PI) with ((op - SPRING_EQUINOX PI) + IZR n * TWO_PI) by ring.
    now rewrite sin_add_Z.
  Qed.

  Lemma eot_periodic op n : Reot (op + IZR n * TWO_PI) = Reot op.
  Proof.
    unfold equation_of_time, eot_minutes. rewrite ftwo_R. cbn.
    replace (op + IZR n * TWO_PI - SPRING_EQUINOX PI) with ((op - SPRING_EQUINOX PI) + IZR n * TWO_PI) by ring.
    replace (2 * (op - SPRING_EQUINOX PI + IZR n * TWO_PI))
      with (2 * (op - SPRING_EQUINOX PI) + IZR (2 * n) * TWO_PI) by (rewrite mult_IZR; ring).
    now rewrite !sin_add_Z, cos_add_Z.
  Qed.

  Lemma hour_angle_shift op syn lon n m :
    Rha (op + IZR n * TWO_PI) (syn + IZR m * TWO_PI) lon = Rha op syn lon + IZR m * TWO_PI.
  Proof. unfold hour_angle. rewrite eot_periodic. cbn. ring. Qed.

  Lemma sin_altitude_periodic op syn lon lat n m :
    Rsinalt (op + IZR n * TWO_PI) (syn + IZR m * TWO_PI) lon lat = Rsinalt op syn lon lat.
  Proof.
    unfold solar_sin_altitude. rewrite declination_periodic, hour_angle_shift, cos_add_Z. reflexivity.
  Qed.

  Theorem flux_periodic S V op syn lon lat (n m : Z) :
    Rflux S V (op + IZR n * TWO_PI) (syn + IZR m * TWO_PI) lon lat = Rflux S V op syn lon lat.
  Proof. unfold radiation_flux. now rewrite irradiance_periodic, sin_altitude_periodic. Qed.

  Corollary flux_periodic_orbital S V op syn lon lat : Rflux S V (op + TWO_PI) syn lon lat = Rflux S V op syn lon lat.
  Proof.
    rewrite <- (flux_periodic S V op syn lon lat 1 0). f_equal; ring.
  Qed.
  Corollary flux_periodic_daily S V op syn lon lat : Rflux S V op (syn + TWO_PI) lon lat = Rflux S V op syn lon lat.
  Proof.
    rewrite <- (flux_periodic S V op syn lon lat 0 1). f_equal; ring.
  Qed.

  (** the phase reduction of [time_to_orbital_time] (whatever integers are
      subtracted) does not change the flux *)
  Lemma wrap_phase_R x n : @wrap_phase R ROps PI x n = x + IZR (- n) * TWO_PI.
  Proof. unfold wrap_phase. rewrite two_pi_R, opp_IZR. cbn. ring. Qed.

  Theorem flux_wrap_invariant S V ref_o ref_s rate_o rate_s t n_o n_s lon lat :
    Rsrflux S V ref_o ref_s rate_o rate_s t n_o n_s lon lat
    = Rflux S V (ref_o + rate_o * t) (ref_s + rate_s * t) lon lat.
  Proof.
    unfold solar_radiation_flux. rewrite !wrap_phase_R. unfold phase_raw. cbn.
    apply flux_periodic.
  Qed.

  (** periodic in model time: a time shift that advances both raw phases by
      whole turns leaves [SolarRadiation.radiation_flux] unchanged *)
  Theorem flux_time_periodic S V ref_o ref_s rate_o rate_s t T (a b : Z) n_o n_s n_o' n_s' lon lat :
    rate_o * T = IZR a * TWO_PI -> rate_s * T = IZR b * TWO_PI ->
    Rsrflux S V ref_o ref_s rate_o rate_s (t + T) n_o' n_s' lon lat
    = Rsrflux S V ref_o ref_s rate_o rate_s t n_o n_s lon lat.
  Proof.
    intros Ha Hb. rewrite !flux_wrap_invariant.
    replace (ref_o + rate_o * (t + T)) with ((ref_o + rate_o * t) + IZR a * TWO_PI) by (rewrite <- Ha; ring).
    replace (ref_s + rate_s * (t + T)) with ((ref_s + rate_s * t) + IZR b * TWO_PI) by (rewrite <- Hb; ring).
    apply flux_periodic.
  Qed.

  Theorem normalized_in_unit_interval S V op syn lon lat :
    0 <= V -> V <= S -> 0 < S + V -> 0 <= Rnflux S V op syn lon lat <= 1.
  Proof.
    intros HV HS Hp. unfold normalized_radiation_flux. cbv zeta. cbn.
    assert (Hi : 0 < / (S + V)) by now apply Rinv_0_lt_compat.
    assert (H1 : 0 <= V / (S + V)) by (unfold Rdiv; nra).
    assert (H2 : V / (S + V) <= S / (S + V)) by (unfold Rdiv; nra).
    replace 1 with (S / (S + V) + V / (S + V)) by (field; lra). now apply flux_bounds.
  Qed.

  Theorem normalized_is_scaled S V op syn lon lat :
    S + V <> 0 -> Rnflux S V op syn lon lat = Rflux S V op syn lon lat / (S + V).
  Proof.
    intros Hp. unfold normalized_radiation_flux, radiation_flux, flux_of, direct_solar_irradiance. cbv zeta. cbn.
    field. exact Hp.
  Qed.

  (** the declination stays strictly inside (-pi/2, pi/2) (generated
      obliquity), so at every instant there is a night side and a day side *)
  Lemma inclination_small : 0 <= @EARTH_AXIS_INCLINATION R ROps PI < PI / 2.
  Proof.
    unfold EARTH_AXIS_INCLINATION, fofQ. cbn.
    pose proof PI_RGT_0. lra.
  Qed.

  Lemma declination_small op : - (PI / 2) < Rdec op < PI / 2.
  Proof.
    unfold declination. cbn. pose proof inclination_small as [H0 H1].
    pose proof (SIN_bound (op - SPRING_EQUINOX PI)) as [Hl Hu]. split; nra.
  Qed.

  Lemma night_and_day_exist op syn :
    (exists lon, Rsinalt op syn lon 0 <= 0) /\ (exists lon, 0 < Rsinalt op syn lon 0).
  Proof.
    pose proof (declination_small op) as [Hl Hu].
    pose proof (cos_gt_0 (Rdec op) Hl Hu) as Hc.
    split.
    - exists (2 * PI - syn - Reot op).
      unfold solar_sin_altitude, sin_altitude_of.
      replace (Rha op syn (2 * PI - syn - Reot op)) with PI by (unfold hour_angle; cbn; ring).
      cbn -[declination]. rewrite cos_0, sin_0, cos_PI. lra.
    - exists (PI - syn - Reot op).
      unfold solar_sin_altitude, sin_altitude_of.
      replace (Rha op syn (PI - syn - Reot op)) with 0 by (unfold hour_angle; cbn; ring).
      cbn -[declination]. rewrite cos_0, sin_0. lra.
  Qed.
End RadiationR.

Section HSThm.
  Context {F : Type} {o : Ops F} {Oc : OrdFieldC o}.
  Add Field FFh : (field_c : FieldTh o).

  Lemma pow4_nonneg c : fle 0 (pow4 c).
  Proof. unfold pow4. apply fle_sq. Qed.

  Lemma hs_cutoff_nonneg sb s : fle 0 (hs_cutoff sb s).
  Proof. apply fmax_ge_l. Qed.

  Lemma hs_cutoff_zero_above sb s : flt sb 1 -> fle s sb -> hs_cutoff sb s = 0.
  Proof.
    intros Hb Hs. apply flt_sub in Hb. unfold hs_cutoff. apply fmax_l, fle_sub_2.
    replace (0 - (s - sb) / (1 - sb)) with ((sb - s) / (1 - sb)) by (field; now apply fpos_neq0).
    apply fdiv_pos; [now apply fle_sub_1|exact Hb].
  Qed.

  Lemma hs_cutoff_inside sb s : flt sb 1 -> fle sb s -> hs_cutoff sb s = (s - sb) / (1 - sb).
  Proof.
    intros Hb Hs. apply flt_sub in Hb. unfold hs_cutoff. apply fmax_r.
    apply fdiv_pos; [now apply fle_sub_1|exact Hb].
  Qed.

  Lemma hs_cutoff_le_1 sb s : flt sb 1 -> fle s 1 -> fle (hs_cutoff sb s) 1.
  Proof.
    intros Hb Hs. destruct (fle_total s sb) as [H|H].
    - rewrite hs_cutoff_zero_above by assumption. apply fle_0_1.
    - rewrite hs_cutoff_inside by assumption. apply flt_sub in Hb. apply fle_sub_2.
      replace (1 - (s - sb) / (1 - sb)) with ((1 - s) / (1 - sb)) by (field; now apply fpos_neq0).
      apply fdiv_pos; [now apply fle_sub_1|exact Hb].
  Qed.

  Theorem hs_kv_nonneg P s : fle 0 (hp_kf P) -> fle 0 (hs_kv P s).
  Proof. intros H. unfold hs_kv. apply fle_mul_pos; [exact H|apply hs_cutoff_nonneg]. Qed.

  Theorem hs_kv_zero_above_boundary_layer P s :
    flt (hp_sigma_b P) 1 -> fle s (hp_sigma_b P) -> hs_kv P s = 0.
  Proof. intros Hb Hs. unfold hs_kv. rewrite hs_cutoff_zero_above by assumption. ring. Qed.

  Theorem hs_kv_inside P s :
    flt (hp_sigma_b P) 1 -> fle (hp_sigma_b P) s ->
    hs_kv P s = hp_kf P * ((s - hp_sigma_b P) / (1 - hp_sigma_b P)).
  Proof. intros Hb Hs. unfold hs_kv. now rewrite hs_cutoff_inside. Qed.

  Theorem hs_kt_ge_ka P s cl : fle (hp_ka P) (hp_ks P) -> fle (hp_ka P) (hs_kt P s cl).
  Proof.
    intros H. unfold hs_kt. apply fle_add_r. apply fle_mul_pos; [now apply fle_sub_1|].
    apply fle_mul_pos; [apply hs_cutoff_nonneg|apply pow4_nonneg].
  Qed.

  Theorem hs_kt_pos P s cl : flt 0 (hp_ka P) -> fle (hp_ka P) (hp_ks P) -> flt 0 (hs_kt P s cl).
  Proof. intros H0 H. eapply flt_le_trans; [exact H0|now apply hs_kt_ge_ka]. Qed.

  Theorem hs_kt_le_ks P s cl :
    fle (hp_ka P) (hp_ks P) -> flt (hp_sigma_b P) 1 -> fle s 1 -> fle (cl * cl) 1 ->
    fle (hs_kt P s cl) (hp_ks P).
  Proof.
    intros H Hb Hs Hc. unfold hs_kt.
    assert (H1 : fle (hs_cutoff (hp_sigma_b P) s * pow4 cl) 1).
    { apply fle_mul_le_1; [apply hs_cutoff_nonneg|now apply hs_cutoff_le_1|apply pow4_nonneg|].
      unfold pow4. apply fle_mul_le_1; auto using fle_sq. }
    apply fle_sub_2.
    replace (hp_ks P - (hp_ka P + (hp_ks P - hp_ka P) * (hs_cutoff (hp_sigma_b P) s * pow4 cl)))
      with ((hp_ks P - hp_ka P) * (1 - hs_cutoff (hp_sigma_b P) s * pow4 cl)) by ring.
    apply fle_mul_pos; now apply fle_sub_1.
  Qed.

  Theorem hs_teq_ge_minT P pk logp cl sl : fle (hp_minT P) (hs_teq P pk logp cl sl).
  Proof. apply fmax_ge_l. Qed.
  Theorem hs_teq_cases P pk logp cl sl :
    hs_teq P pk logp cl sl = hp_minT P \/ hs_teq P pk logp cl sl = hs_teq_unbounded P pk logp cl sl.
  Proof. unfold hs_teq, fmax. destruct (fleb _ _); auto. Qed.

  Theorem hs_nodal_temperature_relaxes kt tref tvar teq :
    fle 0 kt -> fle (((tref + tvar) - teq) * hs_nodal_temperature_tendency kt tref tvar teq) 0.
  Proof.
    intros H. unfold hs_nodal_temperature_tendency.
    apply fle_sub_2.
    replace (0 - (tref + tvar - teq) * (- kt * (tref + tvar - teq)))
      with (kt * ((tref + tvar - teq) * (tref + tvar - teq))) by ring.
    apply fle_mul_pos; [exact H|apply fle_sq].
  Qed.

  Theorem hs_nodal_velocity_damped kv cu cl :
    fle 0 kv -> cl <> 0 -> fle (cu * hs_nodal_velocity_tendency kv cu cl) 0.
  Proof.
    intros H Hc. unfold hs_nodal_velocity_tendency.
    apply fle_sub_2.
    replace (0 - cu * (- kv * cu / (cl * cl))) with (kv * ((cu / cl) * (cu / cl))) by (field; exact Hc).
    apply fle_mul_pos; [exact H|apply fle_sq].
  Qed.

  Lemma matop_ext m A (x y : nat -> F) i :
    (forall j, (j < m)%nat -> x j = y j) -> matop m A x i = matop m A y i.
  Proof. intros H. unfold matop. apply sumn_ext. intros j Hj. now rewrite H. Qed.
  Lemma matop_scal m A c (x : nat -> F) i : matop m A (fun j => c * x j) i = c * matop m A x i.
  Proof.
    unfold matop. rewrite <- sumn_scal_l. apply sumn_ext. intros j _. ring.
  Qed.
  Lemma matopm_ok n m A (x : nat -> F) i : (i < n)%nat -> matopm n m A x i = matop m A x i.
  Proof. intros H. unfold matopm. now apply memo_ok. Qed.

  (** wind -> sec^2-scaled nodal wind -> modal (the path of the velocity
      tendency without the friction factor) *)
  Definition uv_chain (G : HSGrid F) (cm : nat -> F) (j : nat) : F :=
    matop (g_nn G) (g_toM G)
          (fun p => matop (g_nm G) (g_toN G) cm p / (g_cosl G p * g_cosl G p)) j.
  Definition cos_lat_u_of (G : HSGrid F) (vor div : nat -> F) : nat -> F :=
    vadd (matop (g_nm G) (g_CUv G) vor) (matop (g_nm G) (g_CUd G) div).
  Definition cos_lat_v_of (G : HSGrid F) (vor div : nat -> F) : nat -> F :=
    vadd (matop (g_nm G) (g_CVv G) vor) (matop (g_nm G) (g_CVd G) div).
  (** vorticity / divergence of the wind reconstructed from (vor, div):
      curl_cos_lat / div_cos_lat of to_modal(sec^2 * to_nodal(cos_lat_vector)) *)
  Definition roundtrip_vor (G : HSGrid F) (vor div : nat -> F) : nat -> F :=
    vadd (matop (g_nm G) (g_CRu G) (uv_chain G (cos_lat_u_of G vor div)))
         (matop (g_nm G) (g_CRv G) (uv_chain G (cos_lat_v_of G vor div))).
  Definition roundtrip_div (G : HSGrid F) (vor div : nat -> F) : nat -> F :=
    vadd (matop (g_nm G) (g_DVu G) (uv_chain G (cos_lat_u_of G vor div)))
         (matop (g_nm G) (g_DVv G) (uv_chain G (cos_lat_v_of G vor div))).

  Lemma hs_ut_modal_scal G P sigma (cm cm' : nat -> F) j :
    (forall i, (i < g_nm G)%nat -> cm i = cm' i) -> (j < g_nm G)%nat ->
    hs_ut_modal G P sigma cm j = (- hs_kv P sigma) * uv_chain G cm' j.
  Proof.
    intros Hc Hj. unfold hs_ut_modal, uv_chain. rewrite matopm_ok by exact Hj.
    rewrite <- matop_scal. apply matop_ext. intros p Hp.
    unfold hs_ut_nodal. cbv zeta. rewrite memo_ok by exact Hp. rewrite matopm_ok by exact Hp.
    unfold hs_nodal_velocity_tendency. rewrite fdiv_assoc. f_equal. f_equal.
    now apply matop_ext.
  Qed.

  Lemma hs_ut_modal_factors G P sigma B (cm cm' : nat -> F) i :
    (forall k, (k < g_nm G)%nat -> cm k = cm' k) ->
    matop (g_nm G) B (hs_ut_modal G P sigma cm) i = (- hs_kv P sigma) * matop (g_nm G) B (uv_chain G cm') i.
  Proof.
    intros Hc. rewrite <- matop_scal. apply matop_ext. intros j Hj. now apply hs_ut_modal_scal.
  Qed.

  (** any pair of operators [A], [B] applied to the modal wind tendencies: the
      friction rate of the level factors out of the whole chain *)
  Lemma hs_drag_factors G P sigma A B (vor div : nat -> F) i :
    vadd (matop (g_nm G) A (hs_ut_modal G P sigma (hs_cos_lat_u G vor div)))
         (matop (g_nm G) B (hs_ut_modal G P sigma (hs_cos_lat_v G vor div))) i
    = (- hs_kv P sigma) * vadd (matop (g_nm G) A (uv_chain G (cos_lat_u_of G vor div)))
                               (matop (g_nm G) B (uv_chain G (cos_lat_v_of G vor div))) i.
  Proof.
    unfold vadd.
    rewrite (hs_ut_modal_factors G P sigma A _ (cos_lat_u_of G vor div)) by (intros k Hk; now apply memo_ok).
    rewrite (hs_ut_modal_factors G P sigma B _ (cos_lat_v_of G vor div)) by (intros k Hk; now apply memo_ok).
    ring.
  Qed.

  Theorem hs_vorticity_tendency_linear G P sigma (vor div : nat -> F) i :
    hs_vorticity_tendency G P sigma vor div i = (- hs_kv P sigma) * roundtrip_vor G vor div i.
  Proof. exact (hs_drag_factors G P sigma (g_CRu G) (g_CRv G) vor div i). Qed.

  Theorem hs_divergence_tendency_linear G P sigma (vor div : nat -> F) i :
    hs_divergence_tendency G P sigma vor div i = (- hs_kv P sigma) * roundtrip_div G vor div i.
  Proof. exact (hs_drag_factors G P sigma (g_DVu G) (g_DVv G) vor div i). Qed.

  (** under the wind round-trip hypothesis (C02; exact for states truncated
      two degrees below the grid's total wavenumber) the drag acts directly
      on vorticity and divergence *)
  Theorem hs_drag_linear G P sigma (vor div : nat -> F) i :
    roundtrip_vor G vor div i = vor i -> roundtrip_div G vor div i = div i ->
    hs_vorticity_tendency G P sigma vor div i = (- hs_kv P sigma) * vor i /\
    hs_divergence_tendency G P sigma vor div i = (- hs_kv P sigma) * div i.
  Proof.
    intros Hv Hd. rewrite hs_vorticity_tendency_linear, hs_divergence_tendency_linear, Hv, Hd. auto.
  Qed.

  Theorem hs_drag_zero_above_boundary_layer G P sigma (vor div : nat -> F) i :
    flt (hp_sigma_b P) 1 -> fle sigma (hp_sigma_b P) ->
    hs_vorticity_tendency G P sigma vor div i = 0 /\ hs_divergence_tendency G P sigma vor div i = 0.
  Proof.
    intros Hb Hs. rewrite hs_vorticity_tendency_linear, hs_divergence_tendency_linear.
    rewrite hs_kv_zero_above_boundary_layer by assumption. split; ring.
  Qed.

  (** temperature tendency = to_modal of -kt (T - Teq) with T = T_ref + to_nodal(T') *)
  Theorem hs_temperature_tendency_is_relaxation G P sigma tref (tv pk logp : nat -> F) i :
    hs_temperature_tendency G P sigma tref tv pk logp i
    = matop (g_nn G) (g_toM G)
            (fun p => (- hs_kt P sigma (g_cosl G p)) *
                      ((tref + matop (g_nm G) (g_toN G) tv p)
                       - hs_teq P (pk p) (logp p) (g_cosl G p) (g_sinl G p))) i.
  Proof.
    unfold hs_temperature_tendency. apply matop_ext. intros p Hp.
    unfold hs_tt_nodal. cbv zeta. rewrite memo_ok by exact Hp. rewrite matopm_ok by exact Hp.
    reflexivity.
  Qed.

  Theorem hs_lnps_tendency_zero (lnps : nat -> F) i : hs_log_surface_pressure_tendency lnps i = 0.
  Proof. reflexivity. Qed.
End HSThm.
