(** Property C10, table hypotheses DISCHARGED from the recurrence of the code.

    The equatorial-mirror theorems of Thm/Symmetry.v / Thm/ShallowWater.v assume [H_parity]
    (p[a, J-1-j, l] = (-1)^(l+|m(a)|) p[a, j, l]) about the Legendre table, and the rotation
    theorems assume [H_p_pairs] (the cosine and the sine row of a wavenumber share a table).
    Here both are THEOREMS about the table the code builds,
        basis.p[a] = associated_legendre.evaluate(n_m = M, n_l = L, x)[|m(a)|]
    (RealSphericalHarmonics: np.repeat(p, 2, axis=0)[1:];  FastSphericalHarmonics: one table per
    wavenumber, used for the real and the imaginary row, zero rows behind - [legendre_evaluate]
    is zero for orders >= n_m), with [evaluate] the faithful model of Model/Legendre.v
    (arithmetic regenerated from the source, Gen/Legendre.v).  What remains as a hypothesis is
    the symmetry of the INPUTS of the recurrence: the latitude nodes x = sin(lat) are
    antisymmetric and the table y = np.sqrt(1 - x*x) is symmetric about the equator.

    The only definition of this file, [leg_basis_p], is executable (it is extracted by
    Extract/ExC10.v and compared with the implementation's basis.p). *)
From Dino Require Import Base.Ops Base.Sums Gen.DerivExprs Gen.Legendre Model.SHT Model.Legendre Model.Symmetry
     Thm.Deriv Thm.Legendre Thm.Symmetry.
Local Open Scope F_scope.

Section LegBasis.
  Context {F : Type} {o : Ops F}.
  (** basis.p of both layouts, rows expanded: row a carries the table of the wavenumber of row a *)
  Definition leg_basis_p (fast : bool) (sq : F -> F) (J : nat) (x y : nat -> F) (M L : nat) : nat -> nat -> nat -> F :=
    let ev := legendre_evaluate sq J x y M L in      (* evaluated once: np.repeat copies rows of ONE evaluate result *)
    fun a j l => ev (sy_wav fast a) j l.
End LegBasis.

Section SymLeg.
  Context {F : Type} {o : Ops F} {Fc : FieldC o}.
  Add Field FFsl : (field_c : FieldTh o).
  Variable sq : F -> F.

  (** the recurrence at node i reads the node tables at index i only *)
  Lemma leg_diag_reindex (y1 y2 : nat -> F) m i1 i2 :
    y1 i1 = y2 i2 -> leg_diag sq y1 m i1 = leg_diag sq y2 m i2.
  Proof. intros Hy. induction m as [|m IH]; cbn [leg_diag]; [reflexivity|]. now rewrite IH, Hy. Qed.

  Lemma rs_reindex (x1 y1 x2 y2 : nat -> F) m i1 i2 k :
    x1 i1 = x2 i2 -> y1 i1 = y2 i2 -> rs sq x1 y1 m i1 k = rs sq x2 y2 m i2 k.
  Proof.
    intros Hx Hy. induction k as [|k IH]; cbn [rs].
    - now rewrite (leg_diag_reindex y1 y2 m i1 i2 Hy).
    - now rewrite IH, Hx.
  Qed.

  Lemma legendre_evaluate_reindex nx (x1 y1 x2 y2 : nat -> F) n_m n_l m i1 i2 l :
    (n_m <= n_l)%nat -> (i1 < nx)%nat -> (i2 < nx)%nat -> x1 i1 = x2 i2 -> y1 i1 = y2 i2 ->
    legendre_evaluate sq nx x1 y1 n_m n_l m i1 l = legendre_evaluate sq nx x2 y2 n_m n_l m i2 l.
  Proof.
    intros Hml H1 H2 Hx Hy. rewrite !legendre_evaluate_spec by assumption.
    destruct (Nat.ltb m n_m && Nat.leb m l && Nat.ltb l n_l); [|reflexivity].
    unfold rk. now rewrite (rs_reindex x1 y1 x2 y2 m i1 i2 (l - m) Hx Hy).
  Qed.

  (** (-1)^(l-m) = (-1)^(l+m) on the support m <= l *)
  Lemma sgn_sub_add m l : (m <= l)%nat -> sgn (l - m) = sgn_pow (l + m) :> F.
  Proof.
    intros H. unfold sgn, sgn_pow.
    replace (l + m)%nat with ((l - m) + 2 * m)%nat by lia. now rewrite Nat.even_add_mul_2.
  Qed.

  Section Nodes.
    Variable J : nat.
    Variables x y : nat -> F.        (* sin(lat) nodes, np.sqrt(1 - x*x) *)
    (** symmetry of the inputs of the recurrence about the equator *)
    Definition H_x_antisym : Prop := forall j, (j < J)%nat -> x (J - 1 - j)%nat = - x j.
    Definition H_y_sym : Prop := forall j, (j < J)%nat -> y (J - 1 - j)%nat = y j.

    Theorem legendre_evaluate_flip M L m j l :
      (M <= L)%nat -> H_x_antisym -> H_y_sym -> (j < J)%nat ->
      legendre_evaluate sq J x y M L m (J - 1 - j)%nat l = sgn (l - m) * legendre_evaluate sq J x y M L m j l.
    Proof.
      intros Hml Hx Hy Hj.
      rewrite <- (legendre_parity sq J x y (fun j => x (J - 1 - j)%nat) (fun j => y (J - 1 - j)%nat) Hx Hy M L m j l Hml Hj).
      apply legendre_evaluate_reindex; try assumption; try reflexivity. lia.
    Qed.

    (** [H_parity] for the table the code builds, both layouts, any number of rows *)
    Theorem H_parity_from_recurrence fast R M L :
      (M <= L)%nat -> H_x_antisym -> H_y_sym -> H_parity fast R L J (leg_basis_p fast sq J x y M L).
    Proof.
      intros Hml Hx Hy a j l Ha Hj Hl. unfold leg_basis_p; cbv zeta.
      rewrite (legendre_evaluate_flip M L (sy_wav fast a) j l Hml Hx Hy Hj).
      destruct (Nat.le_gt_cases (sy_wav fast a) l) as [Hle|Hgt].
      - now rewrite (sgn_sub_add _ _ Hle).
      - rewrite (legendre_support sq J x y M L (sy_wav fast a) j l) by (left; exact Hgt). ring.
    Qed.

    (** [H_p_pairs] needs no hypothesis on the nodes at all: partner rows have the same wavenumber *)
    Theorem H_p_pairs_from_recurrence fast R M L : H_p_pairs fast R L J (leg_basis_p fast sq J x y M L).
    Proof. intros a j l Ha Hj Hl. unfold leg_basis_p; cbv zeta. now rewrite (partner_wav fast a). Qed.

    (** support of the table (rows of wavenumber m carry nothing below l = m, nothing for m >= M:
        the zero padding rows of the fast layout) *)
    Theorem leg_basis_p_support fast M L a j l :
      (l < sy_wav fast a)%nat \/ (L <= l)%nat \/ (M <= sy_wav fast a)%nat -> leg_basis_p fast sq J x y M L a j l = 0.
    Proof. intros H. unfold leg_basis_p; cbv zeta. now apply legendre_support. Qed.
  End Nodes.
End SymLeg.
