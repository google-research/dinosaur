(** Theorems about the model of dinosaur/shallow_water.py (Model/ShallowWater.v):
    equatorial-mirror and longitude-rotation equivariance of the assembled explicit
    tendencies (property C10), zero (0,0) coefficients and support pattern of the
    tendencies (property C11).  Every field, every size, every number of layers, any
    densities / orography, both modal layouts. *)
From Dino Require Import Base.Ops Base.Field Base.Sums Model.SHT Model.Deriv Model.Invariants Model.Symmetry Model.ShallowWater
     Thm.SHT Thm.Deriv Thm.Invariants Thm.Symmetry.
Local Open Scope F_scope.

Section OverField.
  Context {F : Type} {o : Ops F} {Fc : FieldC o}.
  Add Field FFsw : (field_c : FieldTh o).

Section SWNodal.

  (** [sg] = -1: reflection (b = (odd, even) pseudo-vector, g = (even, odd) vector, e even); [sg] = 1: rotations *)
  Theorem sw_nodal_act (sg : F) (x : SWCol) k :
    sg * sg = 1 ->
    sw_b_u (swcol_act sg x) k = sg * sw_b_u x k /\
    sw_b_v (swcol_act sg x) k = sw_b_v x k /\
    sw_g_u (swcol_act sg x) k = sw_g_u x k /\
    sw_g_v (swcol_act sg x) k = sg * sw_g_v x k /\
    sw_e (swcol_act sg x) k = sw_e x k.
  Proof.
    intros Hs. unfold sw_b_u, sw_b_v, sw_g_u, sw_g_v, sw_e, sw_total_vorticity, swcol_act.
    cbn [s_u s_v s_vort s_pot s_sec2 s_f].
    repeat split; try ring.
    - transitivity ((sg * sg) * (s_v x k * (s_vort x k + s_f x) * s_sec2 x)); [ring|rewrite Hs; ring].
    - rewrite !fdiv_mul.
      transitivity ((s_u x k * s_u x k + (sg * sg) * (s_v x k * s_v x k)) * s_sec2 x * finv (1 + 1)); [ring|rewrite Hs; ring].
  Qed.

  Theorem sw_nodal_mirror (x : SWCol) k :
    sw_b_u (swcol_mirror x) k = - sw_b_u x k /\
    sw_b_v (swcol_mirror x) k = sw_b_v x k /\
    sw_g_u (swcol_mirror x) k = sw_g_u x k /\
    sw_g_v (swcol_mirror x) k = - sw_g_v x k /\
    sw_e (swcol_mirror x) k = sw_e x k.
  Proof.
    destruct (sw_nodal_act (- (1)) x k neg1_sq) as (A & B & C & D & E). unfold swcol_mirror.
    rewrite A, B, C, D, E. repeat split; ring.
  Qed.

  (** two columns that agree on the layers k < N give the same nodal expressions there *)
  Definition swcol_eqv (N : nat) (x y : @SWCol F) : Prop :=
    (forall k, (k < N)%nat -> s_u x k = s_u y k) /\ (forall k, (k < N)%nat -> s_v x k = s_v y k) /\
    (forall k, (k < N)%nat -> s_vort x k = s_vort y k) /\ (forall k, (k < N)%nat -> s_pot x k = s_pot y k) /\
    s_sec2 x = s_sec2 y /\ s_f x = s_f y.

  Theorem sw_nodal_cong N (x y : SWCol) k :
    swcol_eqv N x y -> (k < N)%nat ->
    sw_b_u x k = sw_b_u y k /\ sw_b_v x k = sw_b_v y k /\ sw_g_u x k = sw_g_u y k /\ sw_g_v x k = sw_g_v y k /\
    sw_e x k = sw_e y k.
  Proof.
    intros (Eu & Ev & Ez & Ep & Es & Ef) Hk.
    unfold sw_b_u, sw_b_v, sw_g_u, sw_g_v, sw_e, sw_total_vorticity.
    rewrite (Eu k Hk), (Ev k Hk), (Ez k Hk), (Ep k Hk), Es, Ef. repeat split; reflexivity.
  Qed.

  Lemma sw_nodal_rel (sg : F) N (x' x : SWCol) k :
    sg * sg = 1 -> swcol_eqv N x' (swcol_act sg x) -> (k < N)%nat ->
    sw_b_u x' k = sg * sw_b_u x k /\ sw_b_v x' k = sw_b_v x k /\ sw_g_u x' k = sw_g_u x k /\ sw_g_v x' k = sg * sw_g_v x k /\
    sw_e x' k = sw_e x k.
  Proof.
    intros Hs E Hk. destruct (sw_nodal_cong N x' _ k E Hk) as (A & B & C & D & G). rewrite A, B, C, D, G.
    exact (sw_nodal_act sg x k Hs).
  Qed.

  Lemma swcol_eqv_act1 N (x' x : SWCol) : swcol_eqv N x' x -> swcol_eqv N x' (swcol_act 1 x).
  Proof.
    intros (Eu & Ev & Ez & Ep & Es & Ef). unfold swcol_eqv, swcol_act. cbn [s_u s_v s_vort s_pot s_sec2 s_f].
    repeat split; try assumption; intros; rewrite ?Ev, ?Ez, ?Ef by assumption; ring.
  Qed.
End SWNodal.

(** the assembled tendencies over abstract horizontal operators: one section for both actions.
    [Te] acts on the modal coefficients of true scalars and first components of vectors, [To] on pseudo-scalars and
    second components; the nodes are permuted by [piN]; the per-node sign is [sg] (-1: mirror, 1: rotation, Te = To) *)
Section SWTendencySym.
  Variables W P : Type.
  Variable inW : W -> Prop.
  Variable inP : P -> Prop.
  Variable toM : (P -> F) -> W -> F.
  Variable divc curlc : (W -> F) -> (W -> F) -> W -> F.
  Variable lap clip : (W -> F) -> W -> F.
  Variable N : nat.
  Variable dens : nat -> F.
  Variable piN : P -> P.
  Variable Te To : (W -> F) -> W -> F.
  Variable sg : F.
  Hypothesis sg_sq : sg * sg = 1.

  Hypothesis toM_ext : forall z z', (forall p, inP p -> z p = z' p) -> forall w, inW w -> toM z w = toM z' w.
  Hypothesis clip_ext : ext1 W inW clip.
  Hypothesis lap_ext : ext1 W inW lap.
  Hypothesis divc_ext : ext2 W inW divc.
  Hypothesis curlc_ext : ext2 W inW curlc.
  Hypothesis Te_ext : ext1 W inW Te.
  Hypothesis Te_lin : lin1 W inW Te.
  Hypothesis To_lin : lin1 W inW To.
  Hypothesis toM_e : forall z w, inW w -> toM (fun p => z (piN p)) w = Te (toM z) w.
  Hypothesis toM_o : forall z w, inW w -> toM (fun p => sg * z (piN p)) w = To (toM z) w.
  Hypothesis divc_e : forall a b w, inW w -> divc (Te a) (To b) w = Te (divc a b) w.
  Hypothesis divc_o : forall a b w, inW w -> divc (To a) (Te b) w = To (divc a b) w.
  Hypothesis curlc_o : forall a b w, inW w -> curlc (To a) (Te b) w = Te (curlc a b) w.
  Hypothesis lap_e : forall a w, inW w -> lap (Te a) w = Te (lap a) w.
  Hypothesis clip_e : forall a w, inW w -> clip (Te a) w = Te (clip a) w.
  Hypothesis clip_o : forall a w, inW w -> clip (To a) w = To (clip a) w.

  (** the nodal columns of the transformed state *)
  Definition sw_actX (X : P -> @SWCol F) : P -> @SWCol F := fun p => swcol_act sg (X (piN p)).
  Definition sw_cols_eqv (X Y : P -> @SWCol F) : Prop := forall p, inP p -> swcol_eqv N (X p) (Y p).

  (* to_modal of a nodal array transformed as an even / odd field (Thm/Symmetry.v) *)
  Local Notation toM_even := (toM_even W P inW inP toM piN Te toM_ext toM_e).
  Local Notation toM_odd := (toM_odd W P inW inP toM piN To sg toM_ext toM_o).

  Lemma lin1_sumn (T : (W -> F) -> W -> F) (c : nat -> F) (x : nat -> W -> F) n w :
    lin1 W inW T -> ext1 W inW T -> inW w ->
    T (fun w' => sumn n (fun b => c b * x b w')) w = sumn n (fun b => c b * T (x b) w).
  Proof.
    intros (Tadd & Topp & Tscal) Text Hw. induction n as [|n IH].
    - cbn [sumn]. rewrite (Text _ (fun w' => 0 * x 0%nat w')) by (try assumption; intros; ring).
      rewrite Tscal by assumption. ring.
    - cbn [sumn].
      rewrite (Tadd (fun w' => sumn n (fun b => c b * x b w')) (fun w' => c n * x n w') w Hw), IH, Tscal by assumption.
      reflexivity.
  Qed.

  (** the pressure term is linear in the modal potentials and the orography, and reads the potentials of the layers b < N *)
  Lemma sw_pressure_sym (pot pot' : nat -> W -> F) (orog : option (W -> F)) a w :
    (forall b w', (b < N)%nat -> inW w' -> pot' b w' = Te (pot b) w') -> inW w ->
    sw_pressure W N dens pot' (option_map Te orog) a w = Te (sw_pressure W N dens pot orog a) w.
  Proof.
    intros Hpot Hw. destruct Te_lin as (Tadd & _). unfold sw_pressure.
    rewrite (sumn_ext N _ (fun b => density_ratio dens a b * Te (pot b) w)) by (intros b Hb; now rewrite Hpot).
    destruct orog as [h|]; cbn [option_map].
    - rewrite (Tadd (fun w' => sumn N (fun b => density_ratio dens a b * pot b w')) h w Hw).
      rewrite lin1_sumn by assumption. reflexivity.
    - rewrite lin1_sumn by assumption. reflexivity.
  Qed.

  (** the tendencies of ANY column family X' that agrees entrywise with the transformed family of X (as the columns
      synthesised from the transformed modal state do) are the transformed tendencies: vorticity a pseudo-scalar,
      divergence and potential (layer thickness) scalars; the potentials and the orography of the transformed
      configuration are the transformed ones *)
  Theorem sw_transformed_columns_tendency (X X' : P -> SWCol) (pot pot' : nat -> W -> F) (orog : option (W -> F)) r w :
    sw_cols_eqv X' (sw_actX X) -> (r < N)%nat -> inW w ->
    (forall b w', (b < N)%nat -> inW w' -> pot' b w' = Te (pot b) w') ->
    sw_vort_explicit W P toM divc clip X' r w = To (sw_vort_explicit W P toM divc clip X r) w /\
    sw_div_explicit W P toM curlc lap clip N dens X' pot' (option_map Te orog) r w
      = Te (sw_div_explicit W P toM curlc lap clip N dens X pot orog r) w /\
    sw_pot_explicit W P toM divc clip X' r w = Te (sw_pot_explicit W P toM divc clip X r) w.
  Proof.
    intros EX Hr Hw Hpot. destruct Te_lin as (Tadd & Topp & _). destruct To_lin as (_ & Topp' & _).
    pose proof (fun p Hp => sw_nodal_rel sg N (X' p) (X (piN p)) r sg_sq (EX p Hp) Hr) as NR.
    assert (BU : forall w', inW w' -> toM (fun p => sw_b_u (X' p) r) w' = To (toM (fun p => sw_b_u (X p) r)) w')
      by (intros w' Hw'; apply toM_odd; [|assumption]; intros p Hp; apply (NR p Hp)).
    assert (BV : forall w', inW w' -> toM (fun p => sw_b_v (X' p) r) w' = Te (toM (fun p => sw_b_v (X p) r)) w')
      by (intros w' Hw'; apply toM_even; [|assumption]; intros p Hp; apply (NR p Hp)).
    unfold sw_vort_explicit, sw_div_explicit, sw_pot_explicit. cbv zeta. split; [|split].
    - rewrite <- clip_o by assumption. apply clip_ext; [|assumption]. intros w' Hw'.
      rewrite Topp', <- divc_o by assumption. f_equal. apply divc_ext; assumption.
    - rewrite <- clip_e by assumption. apply clip_ext; [|assumption]. intros w' Hw'.
      rewrite Tadd, Topp, <- lap_e, <- curlc_o by assumption. f_equal; [f_equal|].
      + apply lap_ext; [|assumption]. intros w'' Hw''. rewrite Tadd by assumption. f_equal.
        * now apply sw_pressure_sym.
        * apply toM_even; [|assumption]. intros p Hp. apply (NR p Hp).
      + apply curlc_ext; assumption.
    - rewrite <- clip_e by assumption. apply clip_ext; [|assumption]. intros w' Hw'.
      rewrite Topp, <- divc_e by assumption. f_equal.
      apply divc_ext; try assumption; intros w'' Hw''; [apply toM_even|apply toM_odd]; try assumption;
        intros p Hp; apply (NR p Hp).
  Qed.
End SWTendencySym.

Section SWConcrete.
  Variables (fast : bool) (R L I J N : nat).
  Variable f : nat -> nat -> F.
  Variable p : nat -> nat -> nat -> F.
  Variable wq : nat -> F.
  Variables (rad : F) (wa wb : @marr F).

  Notation inW := (inWc R L).
  Notation inP := (inPc I J).
  Notation toMs := (sw_toM R L I J f p wq).
  Notation divs := (sw_divc fast R L rad wa wb).
  Notation curls := (sw_curlc fast R L rad wa wb).
  Notation laps := (sw_lap L rad).
  Notation clips := (sw_clip L).

  (** the materialised operators agree with the plain ones on the index range *)
  Lemma sw_stage_ok n m (g : arr2) (w : Wn) : (fst w < n)%nat -> (snd w < m)%nat -> sw_stage n m g w = g (fst w) (snd w).
  Proof. intros H1 H2. unfold sw_stage. now apply sh_memo2_ok. Qed.

  Lemma sw_stack_ok (g : nat -> Wn -> F) k : (k < N)%nat -> sw_stack N g k = g k.
  Proof. intros Hk. unfold sw_stack. now apply nth_map_seq. Qed.

  Lemma sw_toM_plain z w : inW w -> toMs z w = toMc R I J f p wq z w.
  Proof. intros [H1 H2]. unfold sw_toM. now rewrite sw_stage_ok. Qed.

  Lemma sw_toN_ok (x : arr2) q : inP q -> sw_toN R L I J f p x q = synth R L J f p x (fst q) (snd q).
  Proof. intros [H1 H2]. unfold sw_toN. now rewrite sw_stage_ok. Qed.

  Lemma sw_divc_plain a b w :
    inW w -> divs a b w = div_cos_lat fast L R L rad wa wb true (un a, un b) (fst w) (snd w).
  Proof. intros [H1 H2]. unfold sw_divc. now rewrite sw_stage_ok. Qed.
  Lemma sw_curlc_plain a b w :
    inW w -> curls a b w = curl_cos_lat fast L R L rad wa wb true (un a, un b) (fst w) (snd w).
  Proof. intros [H1 H2]. unfold sw_curlc. now rewrite sw_stage_ok. Qed.

  Lemma sw_toM_ext : forall z z' : Wn -> F, (forall q, inP q -> z q = z' q) -> forall w, inW w -> toMs z w = toMs z' w.
  Proof. intros z z' E w Hw. rewrite !sw_toM_plain by assumption. now apply (toMc_ext R L I J f p wq). Qed.

  Lemma sw_clip_ext : ext1 Wn inW clips.
  Proof. exact (clipc_ext R L). Qed.
  Lemma sw_lap_ext : ext1 Wn inW laps.
  Proof. exact (lapc_ext R L rad). Qed.

  Lemma sw_divc_ext : ext2 Wn inW divs.
  Proof.
    intros a a' b b' Ea Eb w Hw. rewrite !sw_divc_plain by assumption. destruct Hw as [Hi Hl].
    apply div_cos_lat_ext; try assumption. intros i' l' Hi' Hl'. split; [apply Ea|apply Eb]; split; assumption.
  Qed.
  Lemma sw_curlc_ext : ext2 Wn inW curls.
  Proof.
    intros a a' b b' Ea Eb w Hw. rewrite !sw_curlc_plain by assumption. destruct Hw as [Hi Hl].
    apply curl_cos_lat_ext; try assumption. intros i' l' Hi' Hl'. split; [apply Ea|apply Eb]; split; assumption.
  Qed.

  (** a fact about the plain operators carries over to the materialised ones *)
  Lemma sw_toM_transport (T : (Wn -> F) -> Wn -> F) (g z : Wn -> F) w :
    ext1 Wn inW T -> inW w -> toMc R I J f p wq g w = T (toMc R I J f p wq z) w -> toMs g w = T (toMs z) w.
  Proof.
    intros TE Hw H. rewrite sw_toM_plain, H by assumption. apply TE; [|assumption]. intros w' Hw'. symmetry. now apply sw_toM_plain.
  Qed.
  Lemma sw_divc_transport (T : (Wn -> F) -> Wn -> F) (a' b' a b : Wn -> F) w :
    ext1 Wn inW T -> inW w ->
    div_cos_lat fast L R L rad wa wb true (un a', un b') (fst w) (snd w)
      = T (fun w' => div_cos_lat fast L R L rad wa wb true (un a, un b) (fst w') (snd w')) w ->
    divs a' b' w = T (divs a b) w.
  Proof.
    intros TE Hw H. rewrite sw_divc_plain, H by assumption. apply TE; [|assumption]. intros w' Hw'. symmetry. now apply sw_divc_plain.
  Qed.
  Lemma sw_curlc_transport (T : (Wn -> F) -> Wn -> F) (a' b' a b : Wn -> F) w :
    ext1 Wn inW T -> inW w ->
    curl_cos_lat fast L R L rad wa wb true (un a', un b') (fst w) (snd w)
      = T (fun w' => curl_cos_lat fast L R L rad wa wb true (un a, un b) (fst w') (snd w')) w ->
    curls a' b' w = T (curls a b) w.
  Proof.
    intros TE Hw H. rewrite sw_curlc_plain, H by assumption. apply TE; [|assumption]. intros w' Hw'. symmetry. now apply sw_curlc_plain.
  Qed.

Section SWConcreteMirror.
  Variable dens : nat -> F.
  Hypothesis HR : layout_ok fast R.
  Hypothesis Hpar : H_parity fast R L J p.
  Hypothesis Hnod : H_nodes_sym J wq.

  Lemma sw_toM_even : forall (z : Wn -> F) w, inW w -> toMs (fun q => z (piNc J q)) w = Sec fast (toMs z) w.
  Proof.
    intros z w Hw. exact (sw_toM_transport _ _ z w (Sec_ext fast R L) Hw (toMc_even fast R L I J f p wq Hpar Hnod z w Hw)).
  Qed.
  Lemma sw_toM_odd : forall (z : Wn -> F) w, inW w -> toMs (fun q => (- (1)) * z (piNc J q)) w = Soc fast (toMs z) w.
  Proof.
    intros z w Hw. exact (sw_toM_transport _ _ z w (Soc_ext fast R L) Hw (toMc_odd fast R L I J f p wq Hpar Hnod z w Hw)).
  Qed.

  Lemma sw_divc_e : forall a b w, inW w -> divs (Sec fast a) (Soc fast b) w = Sec fast (divs a b) w.
  Proof.
    intros a b w Hw. apply (sw_divc_transport (Sec fast)); [exact (Sec_ext fast R L)|assumption|].
    exact (div_mir fast L R L rad wa wb true HR false (un a) (un b) (fst w) (snd w) (proj1 Hw) (proj2 Hw)).
  Qed.
  Lemma sw_divc_o : forall a b w, inW w -> divs (Soc fast a) (Sec fast b) w = Soc fast (divs a b) w.
  Proof.
    intros a b w Hw. apply (sw_divc_transport (Soc fast)); [exact (Soc_ext fast R L)|assumption|].
    exact (div_mir fast L R L rad wa wb true HR true (un a) (un b) (fst w) (snd w) (proj1 Hw) (proj2 Hw)).
  Qed.
  Lemma sw_curlc_o : forall a b w, inW w -> curls (Soc fast a) (Sec fast b) w = Sec fast (curls a b) w.
  Proof.
    intros a b w Hw. apply (sw_curlc_transport (Sec fast)); [exact (Sec_ext fast R L)|assumption|].
    exact (curl_mir fast L R L rad wa wb true HR true (un a) (un b) (fst w) (snd w) (proj1 Hw) (proj2 Hw)).
  Qed.

  Lemma sw_cols_eqv_refl (X : Wn -> @SWCol F) : sw_cols_eqv Wn inP N X X.
  Proof. intros q _. repeat split; reflexivity. Qed.

  (** X: the nodal columns of a state, indexed by the node (i, j); [sw_actX (piNc J) (-1) X] those of the mirrored state:
      vorticity tendency pseudo-scalar, divergence and potential tendencies scalars; potentials and orography mirrored too *)
  Theorem sw_tendency_mirror_equivariant (X X' : Wn -> SWCol) (pot pot' : nat -> Wn -> F) (orog : option (Wn -> F)) r a l :
    sw_cols_eqv Wn inP N X' (sw_actX Wn (piNc J) (- (1)) X) ->
    (forall b w', (b < N)%nat -> inW w' -> pot' b w' = Sec fast (pot b) w') ->
    (r < N)%nat -> (a < R)%nat -> (l < L)%nat ->
    sw_vort_explicit Wn Wn toMs divs clips X' r (a, l)
      = mir_modal fast true (un (sw_vort_explicit Wn Wn toMs divs clips X r)) a l /\
    sw_div_explicit Wn Wn toMs curls laps clips N dens X' pot' (option_map (Sec fast) orog) r (a, l)
      = mir_modal fast false (un (sw_div_explicit Wn Wn toMs curls laps clips N dens X pot orog r)) a l /\
    sw_pot_explicit Wn Wn toMs divs clips X' r (a, l)
      = mir_modal fast false (un (sw_pot_explicit Wn Wn toMs divs clips X r)) a l.
  Proof.
    intros EX Hpot Hr Ha Hl. assert (Hw : inW (a, l)) by (split; assumption).
    exact (sw_transformed_columns_tendency Wn Wn inW inP toMs divs curls laps clips N dens (piNc J) (Sec fast) (Soc fast) (- (1))
             neg1_sq sw_toM_ext sw_clip_ext sw_lap_ext sw_divc_ext
             sw_curlc_ext (Sec_ext fast R L) (Sec_lin fast R L) (Soc_lin fast R L)
             sw_toM_even sw_toM_odd sw_divc_e sw_divc_o sw_curlc_o (lapc_mir fast R L rad) (clipc_Se fast R L) (clipc_So fast R L)
             X X' pot pot' orog r (a, l) EX Hr Hw Hpot).
  Qed.

  (** the nodal columns synthesised from the mirrored MODAL state are (entrywise) the mirrored family of columns *)
  Theorem sw_columns_of_mirrored_state (vort dive pot : nat -> marr) (sec2 cor : nat -> F) :
    (forall j, (j < J)%nat -> sec2 j = sec2 (J - 1 - j)%nat) -> (forall j, (j < J)%nat -> cor j = - cor (J - 1 - j)%nat) ->
    sw_cols_eqv Wn inP N
      (sw_cols_of_state fast R L I J N f p rad wa wb (fun k => mir_modal fast true (vort k)) (fun k => mir_modal fast false (dive k))
                        (fun k => mir_modal fast false (pot k)) sec2 cor)
      (sw_actX Wn (piNc J) (- (1)) (sw_cols_of_state fast R L I J N f p rad wa wb vort dive pot sec2 cor)).
  Proof.
    intros Hs Hc [i j] [Hi Hj]. cbn [fst snd] in Hi, Hj.
    assert (Hj' : (J - 1 - j < J)%nat) by lia.
    assert (Hq' : inP (i, (J - 1 - j)%nat)) by (split; assumption).
    assert (Hq : inP (i, j)) by (split; assumption).
    unfold swcol_eqv, sw_actX, swcol_act, sw_cols_of_state, piNc. cbv zeta.
    cbn [s_u s_v s_vort s_pot s_sec2 s_f fst snd].
    repeat split; try (intros k Hk; rewrite !sw_stack_ok by assumption; rewrite !sw_toN_ok by assumption; cbn [fst snd]).
    - rewrite (synth_of_mirrored fast R L J f p wq false _ (fst (get_cos_lat_vector fast L R L rad wa wb true (vort k) (dive k))) i j Hpar Hj).
      2:{ intros a' l' Ha' Hl'. exact (proj1 (get_cos_lat_vector_mirror fast R L rad wa wb HR true (vort k) (dive k) a' l' Ha' Hl')). }
      cbn [sgn_if]. ring.
    - rewrite (synth_of_mirrored fast R L J f p wq true _ (snd (get_cos_lat_vector fast L R L rad wa wb true (vort k) (dive k))) i j Hpar Hj).
      2:{ intros a' l' Ha' Hl'. exact (proj2 (get_cos_lat_vector_mirror fast R L rad wa wb HR true (vort k) (dive k) a' l' Ha' Hl')). }
      cbn [sgn_if]. ring.
    - rewrite (synth_of_mirrored fast R L J f p wq true _ (clip L L 1 (vort k)) i j Hpar Hj).
      2:{ intros a' l' Ha' Hl'. unfold clip, mir_modal. ring. }
      cbn [sgn_if]. ring.
    - rewrite (synth_of_mirrored fast R L J f p wq false _ (clip L L 1 (pot k)) i j Hpar Hj).
      2:{ intros a' l' Ha' Hl'. unfold clip, mir_modal. ring. }
      cbn [sgn_if]. ring.
    - exact (Hs j Hj).
    - rewrite (Hc j Hj). ring.
  Qed.

  (** sec2_lat even and Coriolis odd follow from antisymmetric sin(latitude) nodes *)
  Lemma sw_tables_parity (omega : F) (sinlat : nat -> F) :
    (forall j, (j < J)%nat -> sinlat (J - 1 - j)%nat = - sinlat j) ->
    (forall j, (j < J)%nat -> sw_sec2 sinlat j = sw_sec2 sinlat (J - 1 - j)%nat) /\
    (forall j, (j < J)%nat -> sw_coriolis omega sinlat j = - sw_coriolis omega sinlat (J - 1 - j)%nat).
  Proof.
    intros Hs. split; intros j Hj; unfold sw_sec2, sw_coriolis; rewrite (Hs j Hj).
    - f_equal. ring.
    - ring.
  Qed.

  (** the whole method: explicit_terms of the mirrored modal state (orography mirrored too) = mirrored explicit_terms *)
  Theorem sw_explicit_terms_mirror_equivariant (omega : F) (sinlat : nat -> F) (orog : option marr) (vort dive pot : nat -> marr) r a l :
    (forall j, (j < J)%nat -> sinlat (J - 1 - j)%nat = - sinlat j) ->
    (r < N)%nat -> (a < R)%nat -> (l < L)%nat ->
    let E := sw_explicit_terms fast R L I J N f p wq rad wa wb dens omega sinlat in
    let T := E orog vort dive pot in
    let T' := E (option_map (mir_modal fast false) orog) (fun k => mir_modal fast true (vort k))
                (fun k => mir_modal fast false (dive k)) (fun k => mir_modal fast false (pot k)) in
    fst (fst T') r (a, l) = mir_modal fast true (un (fst (fst T) r)) a l /\
    snd (fst T') r (a, l) = mir_modal fast false (un (snd (fst T) r)) a l /\
    snd T' r (a, l) = mir_modal fast false (un (snd T r)) a l.
  Proof.
    intros Hsin Hr Ha Hl E T T'. destruct (sw_tables_parity omega sinlat Hsin) as [Hs Hc].
    pose proof (sw_columns_of_mirrored_state vort dive pot (sw_sec2 sinlat) (sw_coriolis omega sinlat) Hs Hc) as EX.
    pose proof (sw_tendency_mirror_equivariant _ _ (fun k => sw_pk (pot k)) (fun k => sw_pk (mir_modal fast false (pot k)))
                  (option_map sw_pk orog) r a l EX) as H.
    assert (Hpot : forall b w', (b < N)%nat -> inW w' -> sw_pk (mir_modal fast false (pot b)) w' = Sec fast (sw_pk (pot b)) w')
      by (intros b w' _ _; reflexivity).
    specialize (H Hpot Hr Ha Hl).
    assert (EO : option_map (Sec fast) (option_map sw_pk orog) = option_map sw_pk (option_map (mir_modal fast false) orog))
      by (destruct orog; reflexivity).
    rewrite EO in H. exact H.
  Qed.
End SWConcreteMirror.

Section SWConcreteRot.
  Variable dens : nat -> F.
  Variables (k : nat) (rc rs : nat -> F).
  Hypothesis HR : layout_ok fast R.
  Hypothesis Hrot : H_rot_table fast R I f k rc rs.
  Hypothesis Hpp : H_p_pairs fast R L J p.
  Hypothesis Hun : H_rot_unit rc rs.
  Hypothesis Hwa : sym_rows fast R wa.
  Hypothesis Hwb : sym_rows fast R wb.

  Notation Rm := (Rmc fast rc rs).

  Lemma sw_toM_rot : forall (z : Wn -> F) w, inW w -> toMs (fun q => z (piNr I k q)) w = Rm (toMs z) w.
  Proof.
    intros z w Hw. exact (sw_toM_transport _ _ z w (Rmc_ext fast R L rc rs HR) Hw
                            (toMc_rot fast R L I J f p wq k rc rs HR Hrot Hpp Hun z w Hw)).
  Qed.
  Lemma sw_toM_rot1 : forall (z : Wn -> F) w, inW w -> toMs (fun q => 1 * z (piNr I k q)) w = Rm (toMs z) w.
  Proof.
    intros z w Hw. exact (sw_toM_transport _ _ z w (Rmc_ext fast R L rc rs HR) Hw
                            (toMc_rot1 fast R L I J f p wq k rc rs HR Hrot Hpp Hun z w Hw)).
  Qed.

  Lemma sw_divc_rot : forall a b w, inW w -> divs (Rm a) (Rm b) w = Rm (divs a b) w.
  Proof.
    intros a b w Hw. apply (sw_divc_transport Rm); [exact (Rmc_ext fast R L rc rs HR)|assumption|].
    exact (div_rot fast L R L rad wa wb true HR rc rs (fst w) (snd w) (proj1 Hw) (proj1 Hun) Hwa Hwb (un a) (un b)).
  Qed.
  Lemma sw_curlc_rot : forall a b w, inW w -> curls (Rm a) (Rm b) w = Rm (curls a b) w.
  Proof.
    intros a b w Hw. apply (sw_curlc_transport Rm); [exact (Rmc_ext fast R L rc rs HR)|assumption|].
    exact (curl_rot fast L R L rad wa wb true HR rc rs (fst w) (snd w) (proj1 Hw) (proj1 Hun) Hwa Hwb (un a) (un b)).
  Qed.

  (** X': any family that agrees entrywise with the family of X shifted by k nodes *)
  Theorem sw_tendency_rot_equivariant (X X' : Wn -> SWCol) (pot pot' : nat -> Wn -> F) (orog : option (Wn -> F)) r a l :
    sw_cols_eqv Wn inP N X' (fun q => X (piNr I k q)) ->
    (forall b w', (b < N)%nat -> inW w' -> pot' b w' = Rm (pot b) w') ->
    (r < N)%nat -> (a < R)%nat -> (l < L)%nat ->
    sw_vort_explicit Wn Wn toMs divs clips X' r (a, l)
      = rot_modal fast rc rs (un (sw_vort_explicit Wn Wn toMs divs clips X r)) a l /\
    sw_div_explicit Wn Wn toMs curls laps clips N dens X' pot' (option_map Rm orog) r (a, l)
      = rot_modal fast rc rs (un (sw_div_explicit Wn Wn toMs curls laps clips N dens X pot orog r)) a l /\
    sw_pot_explicit Wn Wn toMs divs clips X' r (a, l)
      = rot_modal fast rc rs (un (sw_pot_explicit Wn Wn toMs divs clips X r)) a l.
  Proof.
    intros EX Hpot Hr Ha Hl. assert (Hw : inW (a, l)) by (split; assumption).
    assert (EX1 : sw_cols_eqv Wn inP N X' (sw_actX Wn (piNr I k) 1 X)) by (intros q Hq; exact (swcol_eqv_act1 N _ _ (EX q Hq))).
    exact (sw_transformed_columns_tendency Wn Wn inW inP toMs divs curls laps clips N dens (piNr I k) Rm Rm 1
             one_sq sw_toM_ext sw_clip_ext sw_lap_ext sw_divc_ext
             sw_curlc_ext (Rmc_ext fast R L rc rs HR) (Rmc_lin fast R L rc rs) (Rmc_lin fast R L rc rs)
             sw_toM_rot sw_toM_rot1 sw_divc_rot sw_divc_rot sw_curlc_rot (lapc_rot fast R L rad rc rs) (clipc_rot fast R L rc rs)
             (clipc_rot fast R L rc rs) X X' pot pot' orog r (a, l) EX1 Hr Hw Hpot).
  Qed.

  (** the nodal columns synthesised from the rotated MODAL state are (entrywise) the family shifted by k nodes *)
  Theorem sw_columns_of_rotated_state (vort dive pot : nat -> marr) (sec2 cor : nat -> F) :
    sw_cols_eqv Wn inP N
      (sw_cols_of_state fast R L I J N f p rad wa wb (fun n => rot_modal fast rc rs (vort n)) (fun n => rot_modal fast rc rs (dive n))
                        (fun n => rot_modal fast rc rs (pot n)) sec2 cor)
      (fun q => sw_cols_of_state fast R L I J N f p rad wa wb vort dive pot sec2 cor (piNr I k q)).
  Proof.
    intros [i j] [Hi Hj]. cbn [fst snd] in Hi, Hj.
    assert (Hi' : ((i + k) mod I < I)%nat) by (apply Nat.mod_upper_bound; lia).
    assert (Hq' : inP (((i + k) mod I)%nat, j)) by (split; assumption).
    assert (Hq : inP (i, j)) by (split; assumption).
    unfold swcol_eqv, sw_cols_of_state, piNr. cbv zeta.
    cbn [s_u s_v s_vort s_pot s_sec2 s_f fst snd].
    repeat split; try (intros n Hn; rewrite !sw_stack_ok by assumption; rewrite !sw_toN_ok by assumption; cbn [fst snd]).
    - apply (synth_of_rotated fast R L I J f p HR k rc rs _ _ i j Hrot Hpp (proj1 Hun) Hi Hj).
      intros a' l' Ha' Hl'. exact (proj1 (get_cos_lat_vector_rot fast R L f rad wa wb rc rs HR Hun Hwa Hwb true (vort n) (dive n) a' l' Ha' Hl')).
    - apply (synth_of_rotated fast R L I J f p HR k rc rs _ _ i j Hrot Hpp (proj1 Hun) Hi Hj).
      intros a' l' Ha' Hl'. exact (proj2 (get_cos_lat_vector_rot fast R L f rad wa wb rc rs HR Hun Hwa Hwb true (vort n) (dive n) a' l' Ha' Hl')).
    - apply (synth_of_rotated fast R L I J f p HR k rc rs _ _ i j Hrot Hpp (proj1 Hun) Hi Hj).
      intros a' l' Ha' Hl'. unfold clip, rot_modal. ring.
    - apply (synth_of_rotated fast R L I J f p HR k rc rs _ _ i j Hrot Hpp (proj1 Hun) Hi Hj).
      intros a' l' Ha' Hl'. unfold clip, rot_modal. ring.
  Qed.

  (** the whole method: explicit_terms of the modal state rotated by k grid steps (orography rotated too) *)
  Theorem sw_explicit_terms_rot_equivariant (omega : F) (sinlat : nat -> F) (orog : option marr) (vort dive pot : nat -> marr) r a l :
    (r < N)%nat -> (a < R)%nat -> (l < L)%nat ->
    let E := sw_explicit_terms fast R L I J N f p wq rad wa wb dens omega sinlat in
    let T := E orog vort dive pot in
    let T' := E (option_map (rot_modal fast rc rs) orog) (fun n => rot_modal fast rc rs (vort n))
                (fun n => rot_modal fast rc rs (dive n)) (fun n => rot_modal fast rc rs (pot n)) in
    fst (fst T') r (a, l) = rot_modal fast rc rs (un (fst (fst T) r)) a l /\
    snd (fst T') r (a, l) = rot_modal fast rc rs (un (snd (fst T) r)) a l /\
    snd T' r (a, l) = rot_modal fast rc rs (un (snd T r)) a l.
  Proof.
    intros Hr Ha Hl E T T'.
    pose proof (sw_columns_of_rotated_state vort dive pot (sw_sec2 sinlat) (sw_coriolis omega sinlat)) as EX.
    pose proof (sw_tendency_rot_equivariant _ _ (fun n => sw_pk (pot n)) (fun n => sw_pk (rot_modal fast rc rs (pot n)))
                  (option_map sw_pk orog) r a l EX) as H.
    assert (Hpot : forall b w', (b < N)%nat -> inW w' -> sw_pk (rot_modal fast rc rs (pot b)) w' = Rm (sw_pk (pot b)) w')
      by (intros b w' _ _; reflexivity).
    specialize (H Hpot Hr Ha Hl).
    assert (EO : option_map Rm (option_map sw_pk orog) = option_map sw_pk (option_map (rot_modal fast rc rs) orog))
      by (destruct orog; reflexivity).
    rewrite EO in H. exact H.
  Qed.
End SWConcreteRot.
End SWConcrete.

(** property C11 on the concrete model: global means, top wavenumber, triangular support *)
Section SWInvariants.
  Variables (fast : bool) (M R L I J N : nat).
  Variable f : nat -> nat -> F.
  Variable p : nat -> nat -> nat -> F.
  Variable wq : nat -> F.
  Variables (rad : F) (wa wb : @marr F).
  Variable dens : nat -> F.

  Notation inW := (inWc R L).
  Notation toMs := (sw_toM R L I J f p wq).
  Notation divs := (sw_divc fast R L rad wa wb).
  Notation curls := (sw_curlc fast R L rad wa wb).
  Notation laps := (sw_lap L rad).
  Notation clips := (sw_clip L).

  (** Stokes / Gauss: the (0,0) coefficients of the vorticity and divergence tendencies vanish, and so does the (0,0)
      coefficient of the potential tendency (mean layer thickness), for ANY nodal columns, potentials, orography,
      densities, number of layers and ANY tables *)
  Theorem sw_mean_tendencies_vanish (X : Wn -> SWCol) (pot : nat -> Wn -> F) (orog : option (Wn -> F)) r :
    rad <> 0 -> (2 <= L)%nat -> (0 < R)%nat ->
    sw_vort_explicit Wn Wn toMs divs clips X r (0%nat, 0%nat) = 0 /\
    sw_div_explicit Wn Wn toMs curls laps clips N dens X pot orog r (0%nat, 0%nat) = 0 /\
    sw_pot_explicit Wn Wn toMs divs clips X r (0%nat, 0%nat) = 0.
  Proof.
    intros Hr HL HR0. assert (H0 : inW (0%nat, 0%nat)) by (split; cbn [fst snd]; lia).
    unfold sw_vort_explicit, sw_div_explicit, sw_pot_explicit. cbv zeta. unfold sw_clip. cbn [fst snd].
    repeat split; apply clip_zero; unfold sw_un.
    - rewrite sw_divc_plain by assumption. cbn [fst snd].
      rewrite (div_cos_lat_00 fast L R L rad wa wb Hr HL (le_n L) HR0). ring.
    - rewrite sw_curlc_plain by assumption. unfold sw_lap. cbn [fst snd].
      rewrite (curl_cos_lat_00 fast L R L rad wa wb Hr HL (le_n L) HR0), (laplacian_00 L rad Hr). ring.
    - rewrite sw_divc_plain by assumption. cbn [fst snd].
      rewrite (div_cos_lat_00 fast L R L rad wa wb Hr HL (le_n L) HR0). ring.
  Qed.

  (** the clipped top total wavenumber: for ANY inputs and tables *)
  Theorem sw_explicit_top_zero (X : Wn -> SWCol) (pot : nat -> Wn -> F) (orog : option (Wn -> F)) r a l :
    (L - 1 <= l)%nat ->
    sw_vort_explicit Wn Wn toMs divs clips X r (a, l) = 0 /\
    sw_div_explicit Wn Wn toMs curls laps clips N dens X pot orog r (a, l) = 0 /\
    sw_pot_explicit Wn Wn toMs divs clips X r (a, l) = 0.
  Proof.
    intros Hl. unfold sw_vort_explicit, sw_div_explicit, sw_pot_explicit. cbv zeta. unfold sw_clip. cbn [fst snd].
    repeat split; now apply (clip_top L L (le_n L)).
  Qed.

  (** entries outside the triangular mask.  Named hypotheses: [sw_H_p_support] (the basis functions f[i,a] * p[a,j,l] vanish outside the
      mask - exact zeros in the implementation: Legendre table, and the zero sine column of m = 0 in the fast layout) and [sw_H_deriv_mask] (div_cos_lat / curl_cos_lat map arrays that
      vanish outside the mask to such arrays; rows of a cos/sin pair share |m|, the recurrence weights vanish at
      l = |m|) *)
  Definition sw_masked (a : Wn -> F) : Prop :=
    forall i l, (i < R)%nat -> (l < L)%nat -> mask fast M L i l = false -> a (i, l) = 0.
  Definition sw_H_p_support : Prop :=
    forall i a j l, (i < I)%nat -> (a < R)%nat -> (j < J)%nat -> (l < L)%nat -> mask fast M L a l = false -> f i a * p a j l = 0.
  Definition sw_H_deriv_mask : Prop :=
    forall a b, sw_masked a -> sw_masked b ->
      sw_masked (fun w => div_cos_lat fast L R L rad wa wb true (un a, un b) (fst w) (snd w)) /\
      sw_masked (fun w => curl_cos_lat fast L R L rad wa wb true (un a, un b) (fst w) (snd w)).

  Lemma sw_toM_masked (z : Wn -> F) : sw_H_p_support -> sw_masked (toMs z).
  Proof.
    intros Hp i l Hi Hl Hm. rewrite sw_toM_plain by (split; assumption). unfold toMc. cbn [fst snd].
    rewrite analysis_eq by assumption. unfold sum2, ylm. apply sumn_zero; intros i' Hi'. apply sumn_zero; intros j Hj.
    rewrite (Hp i' i j l Hi' Hi Hj Hl Hm). ring.
  Qed.

  (** each tendency is a clipped array, so Thm/Invariants.v explicit_into_Supp applies once the array before the
      clip respects the mask *)
  Lemma sw_clip_Supp (g : nat -> Wn -> F) :
    (forall k, sw_masked (g k)) -> Supp fast M L R L (fun k i l => clips (g k) (i, l)).
  Proof.
    intros Hg. exact (explicit_into_Supp fast M L R L (le_n L) (fun _ k => sw_un (g k)) (fun _ => Hg) (fun _ _ _ => 0)).
  Qed.

  Lemma sw_divc_masked a b : sw_H_deriv_mask -> sw_masked a -> sw_masked b -> sw_masked (divs a b).
  Proof.
    intros Hd Ma Mb i l Hi Hl Hm. rewrite sw_divc_plain by (split; assumption). exact (proj1 (Hd a b Ma Mb) i l Hi Hl Hm).
  Qed.
  Lemma sw_curlc_masked a b : sw_H_deriv_mask -> sw_masked a -> sw_masked b -> sw_masked (curls a b).
  Proof.
    intros Hd Ma Mb i l Hi Hl Hm. rewrite sw_curlc_plain by (split; assumption). exact (proj2 (Hd a b Ma Mb) i l Hi Hl Hm).
  Qed.

  Lemma sw_pressure_masked (pot : nat -> Wn -> F) (orog : option (Wn -> F)) k :
    (forall b, (b < N)%nat -> sw_masked (pot b)) -> (forall h, orog = Some h -> sw_masked h) ->
    sw_masked (sw_pressure Wn N dens pot orog k).
  Proof.
    intros Hpot Horo i l Hi Hl Hm. unfold sw_pressure.
    rewrite sumn_zero by (intros b Hb; rewrite (Hpot b Hb i l Hi Hl Hm); ring).
    destruct orog as [h|]; [rewrite (Horo h eq_refl i l Hi Hl Hm)|]; ring.
  Qed.

  Theorem sw_explicit_into_Supp (X : Wn -> SWCol) (pot : nat -> Wn -> F) (orog : option (Wn -> F)) :
    sw_H_p_support -> sw_H_deriv_mask ->
    (forall b, (b < N)%nat -> sw_masked (pot b)) -> (forall h, orog = Some h -> sw_masked h) ->
    Supp fast M L R L (fun k i l => sw_vort_explicit Wn Wn toMs divs clips X k (i, l)) /\
    Supp fast M L R L (fun k i l => sw_div_explicit Wn Wn toMs curls laps clips N dens X pot orog k (i, l)) /\
    Supp fast M L R L (fun k i l => sw_pot_explicit Wn Wn toMs divs clips X k (i, l)).
  Proof.
    intros Hp Hd Hpot Horo. pose proof (fun z => sw_toM_masked z Hp) as TM.
    split; [|split]; apply sw_clip_Supp; intros k i l Hi Hl Hm.
    - rewrite (sw_divc_masked _ _ Hd (TM _) (TM _) i l Hi Hl Hm). ring.
    - rewrite (sw_curlc_masked _ _ Hd (TM _) (TM _) i l Hi Hl Hm). unfold sw_lap, laplacian, sw_un. cbn [fst snd].
      rewrite (sw_pressure_masked pot orog k Hpot Horo i l Hi Hl Hm), (TM _ i l Hi Hl Hm). ring.
    - rewrite (sw_divc_masked _ _ Hd (TM _) (TM _) i l Hi Hl Hm). ring.
  Qed.
End SWInvariants.
End OverField.
