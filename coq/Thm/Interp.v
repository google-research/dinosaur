(** Proofs about Model/Interp.v: for every ordered field, every strictly
    increasing node list of length >= 2, all data and all queries. *)
From Dino Require Import Base.Ops Base.Sums Base.Ord Model.Interp.
Local Open Scope F_scope.

Section PadGeneric.
  Context {T : Type} (eL eR : T -> T -> T).
  Lemma both_0 n (y : nat -> T) : (2 <= n)%nat -> extr_both eL eR n y 0%nat = eL (y 0%nat) (y 1%nat).
  Proof.
    intros Hn. unfold extr_both, extr_left, extr_right.
    destruct (Nat.ltb_spec 0 n); [|lia]. destruct (Nat.ltb_spec 1 n); [|lia]. reflexivity.
  Qed.
  Lemma both_mid n (y : nat -> T) j : (j < n)%nat -> extr_both eL eR n y (S j) = y j.
  Proof.
    intros Hj. unfold extr_both, extr_left, extr_right.
    destruct (Nat.ltb_spec j n); [|lia]. reflexivity.
  Qed.
  Lemma both_last n (y : nat -> T) : extr_both eL eR n y (S n) = eR (y (n - 1)%nat) (y (n - 2)%nat).
  Proof.
    unfold extr_both, extr_left, extr_right.
    destruct (Nat.ltb_spec n n); [lia|]. reflexivity.
  Qed.
  Lemma both_pen n (y : nat -> T) : (1 <= n)%nat -> extr_both eL eR n y n = y (n - 1)%nat.
  Proof.
    intros Hn. replace n with (S (n - 1)) at 2 by lia. apply both_mid. lia.
  Qed.

  Lemma both_ind n (y : nat -> T) (P : nat -> T -> Prop) :
    (2 <= n)%nat -> P 0%nat (eL (y 0%nat) (y 1%nat)) -> (forall j, (j < n)%nat -> P (S j) (y j)) ->
    P (S n) (eR (y (n - 1)%nat) (y (n - 2)%nat)) ->
    forall i, (i < n + 2)%nat -> P i (extr_both eL eR n y i).
  Proof.
    intros Hn P0 Pm Pl [|j] Hi; [now rewrite both_0|].
    destruct (Nat.eq_dec j n) as [->|ne]; [now rewrite both_last|]. rewrite both_mid by lia. apply Pm. lia.
  Qed.
End PadGeneric.

Lemma pad_inv {T U : Type} (eL eR : T -> T -> T) (eL' eR' : U -> U -> U)
    (P : nat -> (nat -> T) -> (nat -> U) -> Prop) :
  (forall n y z, (2 <= n)%nat -> P n y z -> P (n + 2)%nat (extr_both eL eR n y) (extr_both eL' eR' n z)) ->
  forall k n y z, (2 <= n)%nat -> P n y z -> P (n + 2 * k)%nat (pad eL eR k n y) (pad eL' eR' k n z).
Proof.
  intros Hs. induction k as [|k IH]; intros n y z Hn H.
  - now replace (n + 2 * 0)%nat with n by lia.
  - replace (n + 2 * S k)%nat with ((n + 2) + 2 * k)%nat by lia. apply IH; [lia|]. now apply Hs.
Qed.

Section InterpThm.
  Context {F : Type} {o : Ops F} {Oc : OrdFieldC o}.
  Add Field FFi : (field_c : FieldTh o).

  Local Notation B := (extr_both eLF eRF).
  Local Notation Bo := (extr_both (olift2 eLF) (olift2 eRF)).

  Definition incr (n : nat) (X : nat -> F) : Prop :=
    forall i, (S i < n)%nat -> flt (X i) (X (S i)).

  Lemma incr_le n X : incr n X -> forall i j, (i <= j)%nat -> (j < n)%nat -> fle (X i) (X j).
  Proof.
    intros H i j Hij Hj. apply (chain_le X (n - 1)); [intros k Hk; apply flt_le, H|..]; lia.
  Qed.

  Lemma incr_neq n X : incr n X -> forall i, (S i < n)%nat -> X (S i) - X i <> 0.
  Proof.
    intros H i Hi. apply fpos_neq0. apply flt_sub_pos. now apply H.
  Qed.

  (** [searchsorted(side='right')] on a sorted list counts the nodes <= x, which come first *)
  Lemma ssr_count n X x :
    incr n X -> forall m, (m <= n)%nat ->
    (ssr m X x <= m)%nat /\ forall i, (i < m)%nat -> (i < ssr m X x)%nat <-> fle (X i) x.
  Proof.
    intros Hinc m. induction m as [|m IH]; intros Hm; [split; [cbn; lia|intros; lia]|].
    destruct (IH ltac:(lia)) as [Hu Hc]. cbn [ssr]. destruct (fleb (X m) x) eqn:E.
    - assert (Hall : forall i, (i <= m)%nat -> fle (X i) x).
      { intros i Hi. eapply fle_trans; [apply (incr_le n X Hinc i m); lia|exact E]. }
      assert (ssr m X x = m).
      { destruct m as [|m']; [reflexivity|]. pose proof (proj2 (Hc m' ltac:(lia)) (Hall m' ltac:(lia))). lia. }
      split; [lia|]. intros i Hi. split; [intros _; apply Hall; lia|lia].
    - rewrite Nat.add_0_r. split; [lia|]. intros i Hi. destruct (Nat.eq_dec i m) as [->|]; [|apply Hc; lia].
      split; [lia|]. intros H. unfold fle in H. congruence.
  Qed.

  Section Bracket.
    Variables (n : nat) (X : nat -> F) (x : F).
    Hypothesis Hn : (2 <= n)%nat.
    Hypothesis Hinc : incr n X.

    Lemma ssr_gt i : (i < n)%nat -> (i < ssr n X x)%nat <-> fle (X i) x.
    Proof. exact (proj2 (ssr_count n X x Hinc n (le_n n)) i). Qed.

    Lemma bracket_range : (1 <= bracket n X x)%nat /\ (bracket n X x <= n - 1)%nat.
    Proof. unfold bracket, clipn. lia. Qed.

    Lemma bracket_ub i : (i < n)%nat -> flt x (X i) -> (bracket n X x <= Nat.max i 1)%nat.
    Proof.
      intros Hi H. assert (~ (i < ssr n X x)%nat) by (intros G; exact (fle_flt_false _ _ (proj1 (ssr_gt i Hi) G) H)).
      unfold bracket, clipn. lia.
    Qed.
    Lemma bracket_lb i : (i < n)%nat -> fle (X i) x -> (Nat.min (S i) (n - 1) <= bracket n X x)%nat.
    Proof. intros Hi H. pose proof (proj2 (ssr_gt i Hi) H). unfold bracket, clipn. lia. Qed.

    Lemma bracket_below : flt x (X 0%nat) -> bracket n X x = 1%nat.
    Proof. intros H. pose proof (bracket_ub 0 ltac:(lia) H). pose proof bracket_range. lia. Qed.

    Lemma bracket_above : fle (X (n - 1)%nat) x -> bracket n X x = (n - 1)%nat.
    Proof. intros H. pose proof (bracket_lb (n - 1) ltac:(lia) H). pose proof bracket_range. lia. Qed.

    Lemma bracket_lt_1 : flt x (X 1%nat) -> bracket n X x = 1%nat.
    Proof. intros H. pose proof (bracket_ub 1 ltac:(lia) H). pose proof bracket_range. lia. Qed.

    Lemma bracket_ge_last2 : fle (X (n - 2)%nat) x -> bracket n X x = (n - 1)%nat.
    Proof. intros H. pose proof (bracket_lb (n - 2) ltac:(lia) H). pose proof bracket_range. lia. Qed.

    Lemma bracket_half_open j :
      (S j < n)%nat -> fle (X j) x -> flt x (X (S j)) -> bracket n X x = S j.
    Proof.
      intros Hj H1 H2. pose proof (bracket_lb j ltac:(lia) H1). pose proof (bracket_ub (S j) Hj H2). lia.
    Qed.

    Lemma locate :
      flt x (X 0%nat) \/
      (exists j, (S j < n)%nat /\ fle (X j) x /\ flt x (X (S j))) \/
      fle (X (n - 1)%nat) x.
    Proof.
      destruct (fle_or_lt (X 0%nat) x) as [H0|H0]; [|now left].
      destruct (fle_or_lt (X (n - 1)%nat) x) as [H1|H1]; [now right; right|].
      right; left. exists (ssr n X x - 1)%nat.
      pose proof (proj2 (ssr_gt 0 ltac:(lia)) H0).
      assert (~ (n - 1 < ssr n X x)%nat) by (intros G; exact (fle_flt_false _ _ (proj1 (ssr_gt (n - 1) ltac:(lia)) G) H1)).
      replace (S (ssr n X x - 1)) with (ssr n X x) by lia. split; [lia|]. split; [apply ssr_gt; lia|].
      apply flt_iff. intros G. apply (proj2 (ssr_gt (ssr n X x) ltac:(lia))) in G. lia.
    Qed.
  End Bracket.

  Lemma indb_delta i k : @indb F o (Nat.eqb i k) = delta k i.
  Proof. unfold indb, delta. now rewrite Nat.eqb_sym. Qed.

  Lemma sumn_pick n k (g : nat -> F) :
    (k < n)%nat -> sumn n (fun i => indb (Nat.eqb i k) * g i) = g k.
  Proof.
    intros Hk. rewrite <- (sumn_delta_l n k g Hk). apply sumn_ext.
    intros i _. now rewrite indb_delta.
  Qed.

  Lemma sumn_pick2 n a b (p q g : nat -> F) :
    (a < n)%nat -> (b < n)%nat ->
    sumn n (fun i => (p i * indb (Nat.eqb i a) + q i * indb (Nat.eqb i b)) * g i)
    = p a * g a + q b * g b.
  Proof.
    intros Ha Hb.
    rewrite (sumn_ext n _ (fun i => delta a i * (p i * g i) + delta b i * (q i * g i))).
    - rewrite sumn_add, !sumn_delta_l; auto.
    - intros i _. rewrite !indb_delta. ring.
  Qed.

  (** the straight line through nodes j, j+1 *)
  Definition segj (X Y : nat -> F) (j : nat) (x : F) : F :=
    Y j + ((x - X j) / (X (S j) - X j)) * (Y (S j) - Y j).

  Lemma seg_S X Y j x : seg X Y (S j) x = segj X Y j x.
  Proof. unfold seg, segj. now replace (S j - 1)%nat with j by lia. Qed.

  Lemma segj_affine X Y j a c x :
    X (S j) - X j <> 0 -> Y j = a * X j + c -> Y (S j) = a * X (S j) + c -> segj X Y j x = a * x + c.
  Proof. intros Hd E0 E1. unfold segj. rewrite E0, E1. field. exact Hd. Qed.

  Lemma segj_left X Y j : X (S j) - X j <> 0 -> segj X Y j (X j) = Y j.
  Proof. intros Hd. unfold segj. field. exact Hd. Qed.
  Lemma segj_right X Y j : X (S j) - X j <> 0 -> segj X Y j (X (S j)) = Y (S j).
  Proof. intros Hd. unfold segj. field. exact Hd. Qed.

  Lemma core_segj n X x :
    (2 <= n)%nat -> exists j, (S j < n)%nat /\ bracket n X x = S j /\ forall Y, interp_core n X Y x = segj X Y j x.
  Proof.
    intros Hn. destruct (bracket_range n X x Hn). exists (bracket n X x - 1)%nat.
    assert (E : bracket n X x = S (bracket n X x - 1)) by lia. split; [lia|]. split; [exact E|].
    intros Y. unfold interp_core. rewrite E at 1. apply seg_S.
  Qed.

  (** the extrapolated end nodes continue the first and the last gap *)
  Lemma eLF_gap (a b : F) : a - eLF a b = b - a.
  Proof. unfold eLF. ring. Qed.
  Lemma eRF_gap (a b : F) : eRF a b - a = a - b.
  Proof. unfold eRF. ring. Qed.

  (** the padded chords are the original chords, the first and the last one continued *)
  Section Both.
    Variables (n : nat) (X Y : nat -> F) (x : F).
    Hypothesis Hn : (2 <= n)%nat.
    Hypothesis Hinc : incr n X.

    Lemma incr_both : incr (n + 2) (B n X).
    Proof.
      intros [|j] Hi.
      - rewrite both_0, (both_mid _ _ n X 0) by lia.
        apply flt_sub. rewrite eLF_gap. apply flt_sub_pos, Hinc. lia.
      - destruct (Nat.eq_dec j (n - 1)) as [->|ne].
        + replace (S (S (n - 1))) with (S n) by lia. rewrite both_last, both_mid by lia.
          apply flt_sub. rewrite eRF_gap. apply flt_sub_pos.
          replace (n - 1)%nat with (S (n - 2)) by lia. apply Hinc. lia.
        + rewrite !both_mid by lia. apply Hinc. lia.
    Qed.

    Lemma segj_both_0 : segj (B n X) (B n Y) 0 x = segj X Y 0 x.
    Proof.
      unfold segj. rewrite !both_0, !(both_mid _ _ n _ 0), eLF_gap by lia. unfold eLF.
      field. exact (incr_neq n X Hinc 0 ltac:(lia)).
    Qed.

    Lemma segj_both_mid j : (S j < n)%nat -> segj (B n X) (B n Y) (S j) x = segj X Y j x.
    Proof. intros Hj. unfold segj. now rewrite !both_mid by lia. Qed.

    Lemma segj_both_last : segj (B n X) (B n Y) n x = segj X Y (n - 2) x.
    Proof.
      unfold segj. rewrite !both_last, !both_pen, eRF_gap by lia. unfold eRF.
      pose proof (incr_neq n X Hinc (n - 2) ltac:(lia)) as Hd.
      replace (S (n - 2)) with (n - 1)%nat in * by lia. field. exact Hd.
    Qed.

    (** one padding step does not change the linearly extrapolating interpolant, for any query *)
    Lemma core_both : interp_core (n + 2) (B n X) (B n Y) x = interp_core n X Y x.
    Proof.
      assert (Hn2 : (2 <= n + 2)%nat) by lia. pose proof incr_both as Hinc2. unfold interp_core.
      destruct (locate n X x Hn Hinc) as [H|[(j & Hj & H1 & H2)|H]].
      - rewrite (bracket_below n X x Hn Hinc H), (bracket_lt_1 (n + 2) (B n X) x Hn2 Hinc2)
          by (rewrite (both_mid _ _ n X 0) by lia; exact H).
        rewrite !seg_S. apply segj_both_0.
      - rewrite (bracket_half_open n X x Hn Hinc j Hj H1 H2), (bracket_half_open (n + 2) (B n X) x Hn2 Hinc2 (S j))
          by (rewrite ?both_mid by lia; first [lia|assumption]).
        rewrite !seg_S. now apply segj_both_mid.
      - rewrite (bracket_above n X x Hn Hinc H), (bracket_ge_last2 (n + 2) (B n X) x Hn2 Hinc2).
        2:{ replace (n + 2 - 2)%nat with (S (n - 1)) by lia. rewrite both_mid by lia. exact H. }
        replace (n + 2 - 1)%nat with (S n) by lia. replace (n - 1)%nat with (S (n - 2)) by lia.
        rewrite !seg_S. apply segj_both_last.
    Qed.
  End Both.

  Lemma pad_x_S k n (y : nat -> F) : pad_x (S k) n y = pad_x k (n + 2) (B n y).
  Proof. reflexivity. Qed.

  Lemma pad_core k n X Y x :
    (2 <= n)%nat -> incr n X ->
    incr (n + 2 * k) (pad_x k n X) /\
    interp_core (n + 2 * k) (pad_x k n X) (pad_x k n Y) x = interp_core n X Y x.
  Proof.
    intros Hn Hinc.
    apply (pad_inv eLF eRF eLF eRF (fun m X' Y' => incr m X' /\ interp_core m X' Y' x = interp_core n X Y x)); auto.
    intros m X' Y' Hm [I E]. split; [now apply incr_both|]. now rewrite core_both.
  Qed.

  Lemma pad_first k : forall n X, (2 <= n)%nat -> pad_x k n X 0%nat = win_lo k X.
  Proof.
    unfold win_lo. induction k as [|k IH]; intros n X Hn.
    - cbn. ring.
    - rewrite pad_x_S, IH by lia.
      rewrite both_0, (both_mid eLF eRF n X 0), eLF_gap by lia. unfold eLF. cbn [nsc]. ring.
  Qed.

  Lemma pad_last k : forall n X, (2 <= n)%nat -> pad_x k n X (n + 2 * k - 1)%nat = win_hi k n X.
  Proof.
    unfold win_hi. induction k as [|k IH]; intros n X Hn.
    - replace (n + 2 * 0 - 1)%nat with (n - 1)%nat by lia. cbn. ring.
    - replace (n + 2 * S k - 1)%nat with ((n + 2) + 2 * k - 1)%nat by lia.
      rewrite pad_x_S, IH by lia.
      replace (n + 2 - 1)%nat with (S n) by lia. replace (n + 2 - 2)%nat with n by lia.
      rewrite both_last, both_pen, eRF_gap by lia. unfold eRF. cbn [nsc]. ring.
  Qed.

  Lemma both_o_some n (Y : nat -> F) (G : nat -> option F) :
    (forall i, G i = Some (Y i)) -> forall i, Bo n G i = Some (B n Y i).
  Proof.
    intros HG i. unfold extr_both, extr_left, extr_right.
    destruct i as [|j].
    - destruct (Nat.ltb 0 n), (Nat.ltb 1 n); rewrite !HG; reflexivity.
    - destruct (Nat.ltb j n); rewrite !HG; reflexivity.
  Qed.

  Lemma pad_o_some k n (Y : nat -> F) (G : nat -> option F) :
    (2 <= n)%nat -> (forall i, G i = Some (Y i)) -> forall i, pad_o k n G i = Some (pad_x k n Y i).
  Proof.
    exact (pad_inv eLF eRF _ _ (fun _ Y' G' => forall i, G' i = Some (Y' i)) (fun m Y' G' _ => both_o_some m Y' G') k n Y G).
  Qed.

  Lemma nsc_nonneg k d : fle 0 d -> fle 0 (nsc k d).
  Proof. intros Hd. induction k as [|k IH]; cbn; [apply fle_refl|now apply fle_0_add]. Qed.

  (** every present entry lies on the line a*x + c *)
  Definition on_line (a c : F) (n : nat) (X : nat -> F) (D : nat -> option F) : Prop :=
    forall i, (i < n)%nat -> D i = None \/ D i = Some (a * X i + c).
  Definition all_some (n : nat) (D : nat -> option F) : Prop :=
    forall i, (i < n)%nat -> exists v, D i = Some v.

  Lemma olift2_on_line (f : F -> F -> F) u v a c p q r :
    u = None \/ u = Some (a * p + c) -> v = None \/ v = Some (a * q + c) ->
    f (a * p + c) (a * q + c) = a * r + c ->
    olift2 f u v = None \/ olift2 f u v = Some (a * r + c).
  Proof. intros [->| ->] [->| ->] E; cbn [olift2]; auto. right. now f_equal. Qed.

  Lemma olift2_some (f : F -> F -> F) u v :
    (exists u', u = Some u') -> (exists v', v = Some v') -> exists w, olift2 f u v = Some w.
  Proof. intros [u' ->] [v' ->]. cbn [olift2]. eauto. Qed.

  Lemma both_on_line a c n X D :
    (2 <= n)%nat -> on_line a c n X D -> on_line a c (n + 2) (B n X) (Bo n D).
  Proof.
    intros Hn H. refine (both_ind _ _ n D (fun i v => v = None \/ v = Some (a * B n X i + c)) Hn _ _ _).
    - rewrite both_0 by lia.
      apply (olift2_on_line eLF _ _ a c (X 0%nat) (X 1%nat)); [apply H; lia|apply H; lia|unfold eLF; ring].
    - intros j Hj. rewrite both_mid by lia. now apply H.
    - rewrite both_last.
      apply (olift2_on_line eRF _ _ a c (X (n - 1)%nat) (X (n - 2)%nat)); [apply H; lia|apply H; lia|unfold eRF; ring].
  Qed.

  Lemma both_all_some n D : (2 <= n)%nat -> all_some n D -> all_some (n + 2) (Bo n D).
  Proof.
    intros Hn H. refine (both_ind _ _ n D (fun _ v => exists w, v = Some w) Hn _ H _); apply olift2_some; apply H; lia.
  Qed.

  Section Nodes.
    Variables (n : nat) (X : nat -> F).
    Hypothesis Hn : (2 <= n)%nat.
    Hypothesis Hinc : incr n X.

    Lemma ref_inside_core Y x :
      fle (X 0%nat) x -> fle x (X (n - 1)%nat) -> interp_ref n X Y x = interp_core n X Y x.
    Proof.
      intros H0 H1. unfold interp_ref.
      rewrite (proj2 (fltb_false_le x (X 0%nat)) H0).
      now rewrite (proj2 (fltb_false_le (X (n - 1)%nat) x) H1).
    Qed.

    (** agreement with the reference piecewise-linear interpolant: on every
        closed cell [X j, X (j+1)] the value is the chord through the two
        nodes, whatever bracket the search selected at a tie. *)
    Theorem interp_ref_on_segment Y j x :
      (S j < n)%nat -> fle (X j) x -> fle x (X (S j)) ->
      interp_ref n X Y x = segj X Y j x.
    Proof.
      intros Hj H1 H2.
      assert (H0 : fle (X 0%nat) x).
      { eapply fle_trans; [apply (incr_le n X Hinc 0 j); lia|exact H1]. }
      assert (Hl : fle x (X (n - 1)%nat)).
      { eapply fle_trans; [exact H2|apply (incr_le n X Hinc); lia]. }
      rewrite ref_inside_core by assumption. unfold interp_core.
      destruct (fle_lt_or_eq _ _ H2) as [Hlt|Heq].
      - rewrite (bracket_half_open n X x Hn Hinc j Hj H1 Hlt). apply seg_S.
      - subst x. rewrite (segj_right X Y j (incr_neq n X Hinc j Hj)).
        destruct (Nat.eq_dec (S j) (n - 1)) as [e|ne].
        + rewrite bracket_above by (first [assumption|rewrite <- e; apply fle_refl]).
          rewrite <- e, seg_S. exact (segj_right X Y j (incr_neq n X Hinc j Hj)).
        + rewrite (bracket_half_open n X (X (S j)) Hn Hinc (S j)) by (first [lia|apply fle_refl|apply Hinc; lia]).
          rewrite seg_S. exact (segj_left X Y (S j) (incr_neq n X Hinc (S j) ltac:(lia))).
    Qed.

    Theorem interp_at_nodes Y j : (j < n)%nat -> interp_ref n X Y (X j) = Y j.
    Proof.
      intros Hj. destruct (Nat.eq_dec (S j) n) as [e|ne].
      - assert (Hj2 : (S (n - 2) < n)%nat) by lia.
        replace j with (S (n - 2)) by lia.
        rewrite (interp_ref_on_segment Y (n - 2)); [exact (segj_right X Y _ (incr_neq n X Hinc _ Hj2))|exact Hj2| |apply fle_refl].
        apply flt_le. now apply Hinc.
      - assert (Hj2 : (S j < n)%nat) by lia.
        rewrite (interp_ref_on_segment Y j); [exact (segj_left X Y j (incr_neq n X Hinc j Hj2))|exact Hj2|apply fle_refl|].
        apply flt_le. now apply Hinc.
    Qed.

    Theorem interp_between_neighbours Y j x :
      (S j < n)%nat -> fle (X j) x -> fle x (X (S j)) ->
      fle (fmin (Y j) (Y (S j))) (interp_ref n X Y x) /\
      fle (interp_ref n X Y x) (fmax (Y j) (Y (S j))).
    Proof.
      intros Hj A B'. rewrite (interp_ref_on_segment Y j x Hj A B'). unfold segj.
      pose proof (incr_neq n X Hinc j Hj) as Hd.
      assert (Hp : flt 0 (X (S j) - X j)) by (apply flt_sub_pos; now apply Hinc).
      apply convex_between.
      - apply fdiv_pos; auto. now apply fle_sub_1.
      - replace (1 - (x - X j) / (X (S j) - X j)) with ((X (S j) - x) / (X (S j) - X j)) by (field; assumption).
        apply fdiv_pos; auto. now apply fle_sub_1.
    Qed.

    Lemma core_affine Y a c x :
      (forall i, (i < n)%nat -> Y i = a * X i + c) -> interp_core n X Y x = a * x + c.
    Proof.
      intros HY. destruct (core_segj n X x Hn) as (j & Hj & _ & ->).
      apply segj_affine; [exact (incr_neq n X Hinc j Hj)| |]; apply HY; lia.
    Qed.

    Theorem interp_affine_exact Y a c x :
      (forall i, (i < n)%nat -> Y i = a * X i + c) ->
      fle (X 0%nat) x -> fle x (X (n - 1)%nat) ->
      interp_ref n X Y x = a * x + c.
    Proof. intros HY H0 H1. rewrite ref_inside_core by assumption. now apply core_affine. Qed.

    Theorem interp_ref_const Y c x :
      (forall i, (i < n)%nat -> Y i = c) -> interp_ref n X Y x = c.
    Proof.
      intros HY. unfold interp_ref.
      destruct (fltb (X (n - 1)%nat) x); [apply HY; lia|].
      destruct (fltb x (X 0%nat)); [apply HY; lia|].
      rewrite (core_affine Y 0 c); [ring|]. intros i Hi. rewrite (HY i Hi). ring.
    Qed.

    (** [linear_interp_with_linear_extrap] is the chord of the selected
        bracket, for every query. *)
    Lemma lin_extrap_eq_core Y x : lin_extrap n X Y x = interp_core n X Y x.
    Proof.
      destruct (core_segj n X x Hn) as (j & Hj & E & ->).
      unfold lin_extrap, base_weights. rewrite E, sumn_pick2 by lia.
      replace (S j - 1)%nat with j by lia. cbn [w_right].
      unfold w_left. destruct (Nat.ltb_spec (S j) n) as [_|]; [|lia].
      unfold w_of, segj. pose proof (incr_neq n X Hinc j Hj). field. assumption.
    Qed.

    (** the two overrides of [_dot_interp] select a whole weight vector *)
    Lemma dot_interp_cases Y x :
      dot_interp n X Y x =
      if fltb (X (n - 1)%nat) x then sumn n (fun i => indb (Nat.eqb i (n - 1)) * Y i)
      else if fltb x (X 0%nat) then sumn n (fun i => indb (Nat.eqb i 0) * Y i)
      else lin_extrap n X Y x.
    Proof.
      unfold dot_interp, lin_extrap, dot_weights.
      destruct (fltb (X (n - 1)%nat) x); [reflexivity|]. destruct (fltb x (X 0%nat)); reflexivity.
    Qed.

    (** the accelerator (matrix) path equals the default path for EVERY query *)
    Theorem dot_interp_eq_ref Y x : dot_interp n X Y x = interp_ref n X Y x.
    Proof.
      rewrite dot_interp_cases. unfold interp_ref.
      destruct (fltb (X (n - 1)%nat) x); [|destruct (fltb x (X 0%nat))];
        [apply sumn_pick; lia|apply sumn_pick; lia|apply lin_extrap_eq_core].
    Qed.

    (** documented extrapolation of [linear_interp_with_linear_extrap] *)
    Theorem linear_extrap_formula Y x :
      (flt x (X 0%nat) -> lin_extrap n X Y x = segj X Y 0 x) /\
      (fle (X (n - 1)%nat) x -> lin_extrap n X Y x = segj X Y (n - 2) x) /\
      (fle (X 0%nat) x -> fle x (X (n - 1)%nat) -> lin_extrap n X Y x = interp_ref n X Y x).
    Proof.
      rewrite lin_extrap_eq_core. unfold interp_core. repeat split.
      - intros H. rewrite bracket_below by assumption. apply seg_S.
      - intros H. rewrite bracket_above by assumption.
        replace (n - 1)%nat with (S (n - 2)) by lia. apply seg_S.
      - intros H0 H1. now rewrite ref_inside_core.
    Qed.

    Theorem lin_extrap_affine_exact Y a c x :
      (forall i, (i < n)%nat -> Y i = a * X i + c) -> lin_extrap n X Y x = a * x + c.
    Proof. intros HY. rewrite lin_extrap_eq_core. now apply core_affine. Qed.

    Lemma win_lo_le k : fle (win_lo k X) (X 0%nat).
    Proof.
      unfold win_lo. apply fle_sub_2.
      replace (X 0%nat - (X 0%nat - nsc k (X 1%nat - X 0%nat))) with (nsc k (X 1%nat - X 0%nat)) by ring.
      apply nsc_nonneg. apply fle_sub_1. apply flt_le. apply Hinc. lia.
    Qed.

    Lemma win_hi_ge k : fle (X (n - 1)%nat) (win_hi k n X).
    Proof.
      unfold win_hi. apply fle_add_r, nsc_nonneg, fle_sub_1, flt_le.
      replace (n - 1)%nat with (S (n - 2)) by lia. apply Hinc. lia.
    Qed.

    (** the end nodes after k paddings are the ends of the documented window, so the NaN tests of
        jnp.interp(.., left=nan, right=nan) on the padded nodes are the window test *)
    Lemma safe_o_window k D x :
      safe_extrap_o k n X D x =
      if in_window k n X x then seg_o (pad_x k n X) (pad_o k n D) (bracket (n + 2 * k) (pad_x k n X) x) x else None.
    Proof.
      unfold safe_extrap_o, interp_nan, in_window. rewrite pad_first, pad_last by assumption. unfold fltb.
      destruct (fleb x (win_hi k n X)); cbn [negb]; [|now rewrite andb_false_r].
      rewrite andb_true_r. now destruct (fleb (win_lo k X) x).
    Qed.

    (** Complete characterisation of [_linear_interp_with_safe_extrap]: on the
        CLOSED window it is the linearly extrapolating interpolant, strictly
        beyond it is missing. *)
    Theorem safe_extrap_char k Y x :
      safe_extrap k n X Y x =
      if in_window k n X x then Some (lin_extrap n X Y x) else None.
    Proof.
      unfold safe_extrap. rewrite safe_o_window. destruct (in_window k n X x); [|reflexivity].
      unfold seg_o.
      rewrite !(pad_o_some k n Y (fun i => Some (Y i)) Hn (fun i => eq_refl)).
      cbn [olift2]. f_equal. rewrite lin_extrap_eq_core.
      destruct (pad_core k n X Y x Hn Hinc) as [_ I2]. rewrite <- I2.
      unfold interp_core, seg. ring.
    Qed.

    Theorem safe_extrap_window k Y x :
      (flt x (win_lo k X) \/ flt (win_hi k n X) x -> safe_extrap k n X Y x = None) /\
      (fle (win_lo k X) x -> fle x (win_hi k n X) ->
       safe_extrap k n X Y x = Some (lin_extrap n X Y x)) /\
      (fle (X 0%nat) x -> fle x (X (n - 1)%nat) ->
       safe_extrap k n X Y x = Some (interp_ref n X Y x)).
    Proof.
      rewrite safe_extrap_char. unfold in_window. repeat split.
      - intros [H|H]; unfold flt in H; rewrite H; [reflexivity|now rewrite andb_false_r].
      - intros H0 H1. unfold fle in H0, H1. now rewrite H0, H1.
      - intros H0 H1.
        pose proof (fle_trans _ _ _ (win_lo_le k) H0) as A.
        pose proof (fle_trans _ _ _ H1 (win_hi_ge k)) as B'.
        unfold fle in A, B'. rewrite A, B'. cbn [andb]. f_equal.
        destruct (linear_extrap_formula Y x) as (_ & _ & L). now apply L.
    Qed.

    Theorem safe_extrap_affine_exact k Y a c x :
      (forall i, (i < n)%nat -> Y i = a * X i + c) ->
      fle (win_lo k X) x -> fle x (win_hi k n X) ->
      safe_extrap k n X Y x = Some (a * x + c).
    Proof.
      intros HY H0 H1. destruct (safe_extrap_window k Y x) as (_ & W & _).
      rewrite W by assumption. f_equal. now apply lin_extrap_affine_exact.
    Qed.

    Lemma safe_o_on_line a c k D x :
      on_line a c n X D ->
      safe_extrap_o k n X D x = None \/ safe_extrap_o k n X D x = Some (a * x + c).
    Proof.
      intros HL. rewrite safe_o_window. destruct (in_window k n X x); auto.
      destruct (pad_core k n X X x Hn Hinc) as [I1 _].
      assert (HL' : on_line a c (n + 2 * k) (pad_x k n X) (pad_o k n D))
        by exact (pad_inv eLF eRF _ _ (on_line a c) (both_on_line a c) k n X D Hn HL).
      destruct (core_segj (n + 2 * k) (pad_x k n X) x ltac:(lia)) as (j & Hj & -> & _).
      unfold seg_o. replace (S j - 1)%nat with j by lia.
      apply (olift2_on_line _ _ _ a c (pad_x k n X j) (pad_x k n X (S j))); [apply HL'; lia|now apply HL'|].
      exact (segj_affine (pad_x k n X) (fun i => a * pad_x k n X i + c) j a c x (incr_neq _ _ I1 j Hj) eq_refl eq_refl).
    Qed.

    Lemma safe_o_defined k D x :
      all_some n D -> in_window k n X x = true -> exists v, safe_extrap_o k n X D x = Some v.
    Proof.
      intros HA HW. rewrite safe_o_window, HW.
      assert (HA' : all_some (n + 2 * k) (pad_o k n D))
        by exact (pad_inv eLF eRF _ _ (fun m _ D' => all_some m D') (fun m _ D' => both_all_some m D') k n X D Hn HA).
      destruct (bracket_range (n + 2 * k) (pad_x k n X) x ltac:(lia)) as [R1 R2].
      apply olift2_some; apply HA'; lia.
    Qed.
  End Nodes.

  (** pressure -> sigma -> pressure on a column affine in pressure *)
  Section Roundtrip.
    Variables (nP nS : nat) (P sigma fld : nat -> F) (sp a c : F).
    Hypothesis HnP : (2 <= nP)%nat.
    Hypothesis HnS : (2 <= nS)%nat.
    Hypothesis HP : incr nP P.
    Hypothesis HS : incr nS sigma.
    Hypothesis Hsp : sp <> 0.
    Hypothesis Haff : forall i, (i < nP)%nat -> fld i = a * P i + c.

    Lemma p2s_char k :
      interp_pressure_to_sigma nP P fld sigma sp k
      = if in_window 1 nP P (sigma k * sp) then Some (lin_extrap nP P fld (sigma k * sp)) else None.
    Proof. exact (safe_extrap_char nP P HnP HP 1 fld (sigma k * sp)). Qed.

    Lemma p2s_on_line :
      on_line (a * sp) c nS sigma (interp_pressure_to_sigma nP P fld sigma sp).
    Proof.
      intros k Hk. rewrite p2s_char. destruct (in_window 1 nP P (sigma k * sp)); auto.
      right. f_equal. rewrite (lin_extrap_affine_exact nP P HnP HP fld a c) by exact Haff. ring.
    Qed.

    (** whenever the round trip returns a number it is the original value *)
    Theorem roundtrip_partial j :
      (j < nP)%nat ->
      roundtrip_p_s_p nP nS P sigma fld sp j = None \/
      roundtrip_p_s_p nP nS P sigma fld sp j = Some (fld j).
    Proof.
      intros Hj. unfold roundtrip_p_s_p, interp_sigma_to_pressure_o.
      destruct (safe_o_on_line nS sigma HnS HS (a * sp) c 1 _ (P j / sp) p2s_on_line) as [E|E]; auto.
      right. rewrite E. f_equal. rewrite (Haff j Hj). field. exact Hsp.
    Qed.

    (** and it does return a number on the doubly covered range *)
    Theorem roundtrip_defined j :
      (j < nP)%nat ->
      (forall k, (k < nS)%nat -> in_window 1 nP P (sigma k * sp) = true) ->
      in_window 1 nS sigma (P j / sp) = true ->
      roundtrip_p_s_p nP nS P sigma fld sp j = Some (fld j).
    Proof.
      intros Hj Hall HW.
      assert (HA : all_some nS (interp_pressure_to_sigma nP P fld sigma sp)).
      { intros k Hk. rewrite p2s_char, (Hall k Hk). eauto. }
      destruct (roundtrip_partial j Hj) as [E|E]; auto. exfalso.
      unfold roundtrip_p_s_p, interp_sigma_to_pressure_o in E.
      destruct (safe_o_defined nS sigma HnS 1 _ (P j / sp) HA HW) as [v Ev].
      rewrite Ev in E. discriminate E.
    Qed.

    (** outside the safe window of the sigma levels the result is missing *)
    Theorem roundtrip_outside j :
      in_window 1 nS sigma (P j / sp) = false ->
      roundtrip_p_s_p nP nS P sigma fld sp j = None.
    Proof.
      intros HW. unfold roundtrip_p_s_p, interp_sigma_to_pressure_o. now rewrite (safe_o_window nS sigma HnS), HW.
    Qed.
  End Roundtrip.

  (** [get_surface_pressure]: with i the bracket of 0 among the relative
      heights, the result p lies on the chord of the pressure levels over
      that bracket, and the chord of the geopotential over the same pair of
      levels, evaluated at p, equals g * orography. *)
  Theorem surface_pressure_on_segment n (L phi : nat -> F) (oro g : F) :
    (2 <= n)%nat -> incr n (rel_height phi oro g) ->
    (forall i, (S i < n)%nat -> L (S i) - L i <> 0) ->
    let i := bracket n (rel_height phi oro g) 0 in
    let p := surface_pressure n L phi oro g in
    p = seg (rel_height phi oro g) L i 0 /\ seg L phi i p = oro * g.
  Proof.
    intros Hn Hinc HL i p.
    assert (Hp : p = seg (rel_height phi oro g) L i 0).
    { unfold p, surface_pressure. now rewrite (lin_extrap_eq_core n _ Hn Hinc). }
    split; [exact Hp|]. rewrite Hp.
    destruct (bracket_range n (rel_height phi oro g) 0 Hn) as [R1 R2]. fold i in R1, R2.
    pose proof (incr_neq n _ Hinc (i - 1)%nat ltac:(lia)) as Hd.
    pose proof (HL (i - 1)%nat ltac:(lia)) as Hl.
    replace (S (i - 1)) with i in Hd, Hl by lia.
    unfold seg, rel_height in *.
    assert (Hphi : phi i - phi (i - 1)%nat <> 0).
    { intro E. apply Hd. replace (oro * g - phi i - (oro * g - phi (i - 1)%nat))
        with (- (phi i - phi (i - 1)%nat)) by ring. rewrite E. ring. }
    field. repeat split; auto.
  Qed.

  (** a chord between two ordered nodes with increasing data is increasing *)
  Lemma segj_monotone X L j x :
    flt (X j) (X (S j)) -> flt (L j) (L (S j)) ->
    (flt x (X j) -> flt (segj X L j x) (L j)) /\ (fle (X j) x -> fle (L j) (segj X L j x)) /\
    (flt x (X (S j)) -> flt (segj X L j x) (L (S j))) /\ (fle (X (S j)) x -> fle (L (S j)) (segj X L j x)).
  Proof.
    intros HX HL. unfold segj.
    assert (Hd : flt 0 (X (S j) - X j)) by now apply flt_sub_pos.
    assert (Hdn : X (S j) - X j <> 0) by now apply fpos_neq0.
    assert (Hc : flt 0 ((L (S j) - L j) * (1 / (X (S j) - X j)))).
    { apply fmul_pos_pos; [now apply flt_sub_pos|now apply finv_pos]. }
    set (c := (L (S j) - L j) * (1 / (X (S j) - X j))) in *.
    set (p := L j + (x - X j) / (X (S j) - X j) * (L (S j) - L j)).
    repeat split; intros H.
    - apply flt_sub. replace (L j - p) with ((X j - x) * c) by (unfold p, c; field; exact Hdn).
      apply fmul_pos_pos; auto. now apply flt_sub_pos.
    - apply fle_sub_2. replace (p - L j) with ((x - X j) * c) by (unfold p, c; field; exact Hdn).
      apply fle_mul_pos; [now apply fle_sub_1|now apply flt_le].
    - apply flt_sub. replace (L (S j) - p) with ((X (S j) - x) * c) by (unfold p, c; field; exact Hdn).
      apply fmul_pos_pos; auto. now apply flt_sub_pos.
    - apply fle_sub_2. replace (p - L (S j)) with ((x - X (S j)) * c) by (unfold p, c; field; exact Hdn).
      apply fle_mul_pos; [now apply fle_sub_1|now apply flt_le].
  Qed.

  (** hence interpolating increasing data keeps the bracket: the value lies in the cell of the
      data that corresponds to the cell of the query *)
  Lemma bracket_chord n X L x :
    (2 <= n)%nat -> incr n X -> incr n L -> bracket n L (interp_core n X L x) = bracket n X x.
  Proof.
    intros Hn HX HL. unfold interp_core.
    destruct (locate n X x Hn HX) as [H|[(j & Hj & H1 & H2)|H]].
    - rewrite (bracket_below n X x Hn HX H), seg_S.
      destruct (segj_monotone X L 0 x (HX 0%nat ltac:(lia)) (HL 0%nat ltac:(lia))) as (C1 & _).
      apply bracket_below; auto.
    - rewrite (bracket_half_open n X x Hn HX j Hj H1 H2), seg_S.
      destruct (segj_monotone X L j x (HX j Hj) (HL j Hj)) as (_ & C2 & C3 & _). apply bracket_half_open; auto.
    - rewrite (bracket_above n X x Hn HX H).
      destruct (segj_monotone X L (n - 2) x (HX (n - 2)%nat ltac:(lia)) (HL (n - 2)%nat ltac:(lia))) as (_ & _ & _ & C4).
      replace (S (n - 2)) with (n - 1)%nat in C4 by lia. replace (n - 1)%nat with (S (n - 2)) at 1 by lia.
      rewrite seg_S. apply bracket_above; auto.
  Qed.

  (** [get_surface_pressure] returns the pressure at which the piecewise-linear
      (linearly extrapolated) geopotential profile equals g * orography. *)
  Theorem surface_pressure_is_intercept n (L phi : nat -> F) (oro g : F) :
    (2 <= n)%nat -> incr n (rel_height phi oro g) -> incr n L ->
    lin_extrap n L phi (surface_pressure n L phi oro g) = oro * g.
  Proof.
    intros Hn Hinc HL.
    destruct (surface_pressure_on_segment n L phi oro g Hn Hinc (incr_neq n L HL)) as [_ Hv].
    rewrite (lin_extrap_eq_core n L Hn HL). unfold interp_core, surface_pressure at 1.
    rewrite (lin_extrap_eq_core n _ Hn Hinc), bracket_chord by assumption. exact Hv.
  Qed.

  Theorem bilinear_constants nlon nlat lonS latS (f : nat -> nat -> F) lonT latT c a b :
    (2 <= nlon)%nat -> (2 <= nlat)%nat -> incr nlon lonS -> incr nlat latS ->
    (forall i j, (i < nlon)%nat -> (j < nlat)%nat -> f i j = c) ->
    bilinear nlon nlat lonS latS f lonT latT a b = c.
  Proof.
    intros H1 H2 I1 I2 Hf. unfold bilinear.
    apply (interp_ref_const nlon lonS H1 I1). intros i Hi.
    apply (interp_ref_const nlat latS H2 I2). intros j Hj. now apply Hf.
  Qed.

  Theorem bilinear_identity_same_grid nlon nlat lonS latS (f : nat -> nat -> F) a b :
    (2 <= nlon)%nat -> (2 <= nlat)%nat -> incr nlon lonS -> incr nlat latS ->
    (a < nlon)%nat -> (b < nlat)%nat ->
    bilinear nlon nlat lonS latS f lonS latS a b = f a b.
  Proof.
    intros H1 H2 I1 I2 Ha Hb. unfold bilinear.
    rewrite (interp_at_nodes nlon lonS H1 I1 _ a Ha).
    now rewrite (interp_at_nodes nlat latS H2 I2 _ b Hb).
  Qed.

  Theorem nearest_constants (idx : nat -> nat) (f : nat -> F) N c t :
    (forall i, (i < N)%nat -> f i = c) -> (idx t < N)%nat -> nearest idx f t = c.
  Proof. intros Hf Hi. unfold nearest. now apply Hf. Qed.

  Theorem nearest_identity_same_grid (idx : nat -> nat) (f : nat -> F) t :
    idx t = t -> nearest idx f t = f t.
  Proof. intros H. unfold nearest. now rewrite H. Qed.
End InterpThm.
