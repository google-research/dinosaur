(** The hand-written interpolation model (Model/Interp.v) equals the transcription of
    dinosaur/vertical_interpolation.py regenerated on every run (Gen/InterpSrc.v,
    tools/translate/gen_interp.py) in the array DSL of Model/ArrDSL.v.  Elementwise operations
    of the transcription are length-checked (empty on a mismatch), so a slice / pad width that
    changes a length breaks these proofs as well as a changed formula. *)
From Dino Require Import Base.Ops Base.Sums Base.Ord Model.Sigma Model.Interp Model.ArrDSL Gen.InterpSrc Thm.SigmaSrc.
Local Open Scope F_scope.

Section InterpSrcThm.
  Context {F : Type} {o : Ops F} {Fc : FieldC o}.
  Local Notation arr := (arr F).

  (** what the combinators that only vertical_interpolation.py uses tabulate *)
  Lemma chk_len_same n : chk_len n n = n.
  Proof. unfold chk_len. now rewrite Nat.eqb_refl. Qed.

  Lemma tab_map2_chk f {a c : arr} {n g h} :
    tabulates a n g -> tabulates c n h -> tabulates (a_map2_chk f a c) n (fun k => f (g k) (h k)).
  Proof.
    intros [L E] [L' E']. split; [cbn; now rewrite L, L', chk_len_same|].
    intros k Hk. exact (f_equal2 f (E k Hk) (E' k Hk)).
  Qed.

  Lemma tab_map2b_chk f {a : arr} {c : barr} {n g h} :
    tabulates a n g -> tabulates c n h -> tabulates (a_map2b_chk f a c) n (fun k => f (g k) (h k)).
  Proof.
    intros [L E] [L' E']. split; [cbn; now rewrite L, L', chk_len_same|].
    intros k Hk. exact (f_equal2 f (E k Hk) (E' k Hk)).
  Qed.

  Lemma tab_pad_0_1 {a : arr} {n g} :
    tabulates a n g -> tabulates (a_pad 0 1 a) (S n) (fun k => if Nat.ltb (S k) (S n) then g k else 0).
  Proof. intros A. exact (tab_concat_0l (tab_const 0 0) (tab_snoc (S n) A (tab_const 1 0) eq_refl)). Qed.

  Lemma tab_pad_1_0 {a : arr} {n g} :
    tabulates a n g -> tabulates (a_pad 1 0 a) (S n) (fun k => match k with O => 0 | S j => g j end).
  Proof.
    intros A. exact (tab_cons (S n) (tab_const 1 0) (tab_concat_0r A (tab_last (tab_const 0 0))) eq_refl).
  Qed.

  Lemma tab_dot {a c : arr} {n g h} :
    tabulates a n g -> tabulates c n h -> a_dot_chk a c = sumn n (fun k => g k * h k).
  Proof. intros A C. exact (tab_sum (tab_map2_chk fmul A C)). Qed.

  Lemma tab_get i j {a : arr} {n g} : tabulates a n g -> norm_bound n 0 i = j -> (j < n)%nat -> a_get a i = g j.
  Proof. intros [L E] <- H. unfold a_get. rewrite L. now apply E. Qed.

  Lemma tab_if_chk t {a c : arr} {n g h} :
    tabulates a n g -> tabulates c n h -> tabulates (a_if_chk t a c) n (fun k => if t then g k else h k).
  Proof.
    intros [L E] [L' E']. split; [cbn; now rewrite L, L', chk_len_same|].
    intros k Hk. cbn. now rewrite E, E'.
  Qed.

  (** searchsorted(side='right') is the count of Model/Interp.v *)
  Lemma a_count_ssr n (xpf : nat -> F) x : a_count (fun v => fleb v x) (n, xpf) = ssr n xpf x.
  Proof. unfold a_count; cbn [fst snd]. induction n as [|n IH]; cbn; [reflexivity|]. now rewrite IH. Qed.

  Section Weights.
    Variables (m : nat) (xpf fpf : nat -> F) (x : F).
    Local Notation n := (S (S m)).
    Local Notation xp := (n, xpf).

    Local Notation w_of_src :=
      (a_map2_chk fdiv (a_map (fun v => x - v) (a_slice BNone (BNeg 1) xp))
                  (a_map2_chk fsub (a_slice (BPos 1) BNone xp) (a_slice BNone (BNeg 1) xp))).

    Lemma w_of_matches : tabulates w_of_src (S m) (w_of xpf x).
    Proof.
      pose proof (tab_pair n xpf) as XP.
      apply tab_map2_chk; [apply tab_map|apply tab_map2_chk];
        [apply (tab_slice 0 XP)|apply (tab_slice 1 XP)|apply (tab_slice 0 XP)]; cbn; lia.
    Qed.

    (** the weight vector for an arbitrary selected index [u] *)
    Lemma weights_matches u :
      tabulates
        (a_map2_chk fadd
           (a_map2b_chk (fun v t => v * ind t) (a_pad 0 1 (a_map (fun v => 1 - v) w_of_src))
                        (a_mapn (fun k => Nat.eqb k (u - 1)) (a_arange n)))
           (a_map2b_chk (fun v t => v * ind t) (a_pad 1 0 w_of_src) (a_mapn (fun k => Nat.eqb k u) (a_arange n))))
        n (fun i => w_left n xpf x i * indb (Nat.eqb i (u - 1)) + w_right xpf x i * indb (Nat.eqb i u)).
    Proof.
      exact (tab_map2_chk fadd
               (tab_map2b_chk _ (tab_pad_0_1 (tab_map _ w_of_matches)) (tab_pair n _))
               (tab_map2b_chk _ (tab_pad_1_0 w_of_matches) (tab_pair n _))).
    Qed.

    Lemma lin_extrap_matches : linear_interp_with_linear_extrap_src x xp (n, fpf) = lin_extrap n xpf fpf x.
    Proof.
      unfold linear_interp_with_linear_extrap_src. rewrite a_count_ssr.
      exact (tab_dot (weights_matches _) (tab_pair n fpf)).
    Qed.

    (** the two jnp.where overrides select whole weight vectors, as [dot_weights] does entry by entry *)
    Lemma dot_interp_matches : dot_interp_src x xp (n, fpf) = dot_interp n xpf fpf x.
    Proof.
      unfold dot_interp_src. rewrite a_count_ssr.
      exact (tab_dot (tab_if_chk _ (tab_pair n _) (tab_if_chk _ (tab_pair n _) (weights_matches _))) (tab_pair n fpf)).
    Qed.
  End Weights.

  (** _extrapolate_left / _right / _both on data without missing values *)
  Section Extrapolate.
    Variables (a : arr) (n : nat) (y : nat -> F).
    Hypothesis Hn : (2 <= n)%nat.
    Hypothesis A : tabulates a n y.

    Lemma extrapolate_left_matches : tabulates (extrapolate_left_src a) (S n) (extr_left eLF y).
    Proof.
      apply (tab_ext _ _ (tab_cons (S n) (tab_const 1 _) (tab_last A) eq_refl) eq_refl).
      intros [|j] _; [|reflexivity]. cbv beta iota.
      rewrite (tab_get (BPos 0) 0 A), (tab_get (BPos 1) 1 A) by (cbn; lia). reflexivity.
    Qed.

    Lemma extrapolate_right_matches : tabulates (extrapolate_right_src a) (S n) (extr_right eRF n y).
    Proof.
      apply (tab_ext _ _ (tab_snoc (S n) A (tab_const 1 _) eq_refl) eq_refl).
      intros k _. unfold extr_right. change (Nat.ltb (S k) (S n)) with (Nat.ltb k n).
      rewrite (tab_get (BNeg 1) (n - 1) A), (tab_get (BNeg 2) (n - 2) A) by (cbn; lia). reflexivity.
    Qed.
  End Extrapolate.

  Lemma extrapolate_both_matches (a : arr) n y :
    (2 <= n)%nat -> tabulates a n y -> tabulates (extrapolate_both_src a) (S (S n)) (extr_both eLF eRF n y).
  Proof.
    intros Hn A. apply extrapolate_left_matches; [lia|]. now apply extrapolate_right_matches.
  Qed.

  (** the loop `for _ in range(k): y = _extrapolate_both(y)` *)
  Lemma safe_extrap_loop_matches k : forall (a : arr) n y, (2 <= n)%nat -> tabulates a n y ->
    tabulates (Nat.iter k extrapolate_both_src a) (n + 2 * k) (pad_x k n y).
  Proof.
    induction k as [|k IH]; intros a n y Hn A.
    - now rewrite Nat.add_0_r.
    - rewrite iter_S, <- iter_shift. replace (n + 2 * S k)%nat with (S (S n) + 2 * k)%nat by lia.
      unfold pad_x. cbn [pad]. replace (n + 2)%nat with (S (S n)) by lia.
      apply IH; [lia|]. now apply extrapolate_both_matches.
  Qed.

  Lemma safe_extrap_matches k (a : arr) n y : (2 <= n)%nat -> tabulates a n y ->
    tabulates (safe_extrap_xp_src k a) (n + 2 * k) (pad_x k n y) /\
    tabulates (safe_extrap_fp_src k a) (n + 2 * k) (pad_x k n y).
  Proof. split; now apply safe_extrap_loop_matches. Qed.

  (** get_surface_pressure, one column *)
  Lemma surface_pressure_matches m (lev phi : nat -> F) oro g :
    surface_pressure_src (S (S m), lev) (S (S m), phi) oro g = surface_pressure (S (S m)) lev phi oro g.
  Proof. exact (lin_extrap_matches m (rel_height phi oro g) lev 0). Qed.

  Lemma hyb_sigma_boundaries_matches N (a b : nat -> F) sp :
    fst (hyb_sigma_boundaries_src (N, a) (N, b) sp) = N /\
    forall i, snd (hyb_sigma_boundaries_src (N, a) (N, b) sp) i = hyb_sigma_boundaries a b sp i.
  Proof. split; [apply chk_len_same|reflexivity]. Qed.

  Lemma hyb_sigma_centers_matches n (a b : nat -> F) sp :
    tabulates (hyb_sigma_centers_src (S n, a) (S n, b) sp) n (hyb_sigma_centers a b sp).
  Proof.
    assert (B : tabulates (hyb_sigma_boundaries_src (S n, a) (S n, b) sp) (S n) (hyb_sigma_boundaries a b sp)).
    { destruct (hyb_sigma_boundaries_matches (S n) a b sp) as [L E]. split; [exact L|]. intros i _. apply E. }
    eapply tab_ext; [|reflexivity|].
    - apply tab_map, tab_map2_chk; [apply (tab_slice 1 B)|apply (tab_slice 0 B)]; cbn; lia.
    - intros k _. unfold hyb_sigma_centers. now rewrite a_nat_2.
  Qed.
End InterpSrcThm.
