(** Theorems about the model of the spectral differential operators
    (property C02): for every field, every truncation (M, L), every padded
    shape (R, C), every radius r <> 0, arbitrary weight tables unless a
    hypothesis on the tables is stated. *)
From Dino Require Import Base.Ops Base.Field Base.Sums Gen.DerivExprs Model.Deriv.
(* ZifyNat registers [/] and [mod] on nat with [lia] and turns their elimination on: the parity arguments about the
   two row layouts need it.  The switch stays on in every file that imports this one (Thm/Symmetry.v and Prop/C05.v
   rely on it); importing Zify again switches it off (Thm/PrimEqFullFast.v does). *)
From Coq Require Import ZifyNat.
Local Open Scope F_scope.

(** The translator understood every construct (fails to compile otherwise). *)
Lemma gen_derivexprs_complete_ok : gen_derivexprs_complete = true.
Proof. reflexivity. Qed.

Section DerivThm.
  Context {F : Type} {o : Ops F} {Fc : FieldC o}.
  Add Field FFd : (field_c : FieldTh o).

  Lemma lit_S n : lit (S n) = lit n + 1. Proof. reflexivity. Qed.
  Lemma lit_add n k : lit (n + k) = lit n + lit k.
  Proof. induction k as [|k IH]; [rewrite Nat.add_0_r; cbn; ring|]. rewrite Nat.add_succ_r. cbn [lit]. rewrite IH. ring. Qed.
  Lemma lit_mul n k : lit (n * k) = lit n * lit k.
  Proof. induction k as [|k IH]; [rewrite Nat.mul_0_r; cbn; ring|]. rewrite Nat.mul_succ_r, lit_add, IH. cbn [lit]. ring. Qed.
  Lemma lit_pred k : (1 <= k)%nat -> lit (k - 1) = lit k - 1.
  Proof. intros H. destruct k as [|k]; [lia|]. cbn [Nat.sub lit]. rewrite Nat.sub_0_r. ring. Qed.

  Lemma laxis_lt L k : (k < L)%nat -> laxis L k = k.
  Proof. intros H. unfold laxis. destruct (Nat.ltb_spec k L); [reflexivity|lia]. Qed.
  Lemma laxis_ge L k : (L <= k)%nat -> laxis L k = 0%nat.
  Proof. intros H. unfold laxis. destruct (Nat.ltb_spec k L); [lia|reflexivity]. Qed.

  Lemma shift1_m1 n (x : nat -> F) k :
    shift1 n (-1) x k = if Nat.ltb (S k) n then x (S k) else 0.
  Proof.
    unfold shift1. change (Z.abs (-1)) with 1%Z.
    destruct (Z.leb_spec (Z.of_nat n) 1) as [H|H].
    - destruct (Nat.ltb_spec (S k) n); [lia|reflexivity].
    - change (Z.ltb 0 (-1)) with false. cbv iota. change (Z.to_nat (- -1)) with 1%nat.
      rewrite Nat.add_1_r. reflexivity.
  Qed.

  Lemma shift1_p1 n (x : nat -> F) k :
    (k < n)%nat -> shift1 n 1 x k = if Nat.eqb k 0 then 0 else x (k - 1)%nat.
  Proof.
    intros Hk. unfold shift1. change (Z.abs 1) with 1%Z.
    destruct (Z.leb_spec (Z.of_nat n) 1) as [H|H].
    - assert (k = 0)%nat by lia. subst k. reflexivity.
    - change (Z.ltb 0 1) with true. cbv iota. change (Z.to_nat 1) with 1%nat.
      destruct (Nat.ltb_spec k 1), (Nat.eqb_spec k 0); try lia; reflexivity.
  Qed.

  (** A shifted array reads at most one entry of its argument, and that inside the range.  Whatever
      holds entry by entry of the shift and of the operators built from it (extensionality, linearity)
      follows from this form without looking at the offsets again. *)
  Lemma shift1_pick n off k :
    exists (c : F) j, ((k < n)%nat -> (j < n)%nat) /\ forall x : nat -> F, shift1 n off x k = c * x j.
  Proof.
    unfold shift1.
    destruct (Z.leb (Z.of_nat n) (Z.abs off)); [exists 0, k; split; [auto|intros; ring]|].
    destruct (Z.ltb 0 off).
    - destruct (Nat.ltb_spec k (Z.to_nat off)).
      + exists 0, k. split; [auto|intros; ring].
      + exists 1, (k - Z.to_nat off)%nat. split; [lia|intros; ring].
    - destruct (Nat.ltb_spec (k + Z.to_nat (- off)) n).
      + exists 1, (k + Z.to_nat (- off))%nat. split; [auto|intros; ring].
      + exists 0, k. split; [auto|intros; ring].
  Qed.

  Lemma shift1_ext n off (x y : nat -> F) k :
    (forall j, (j < n)%nat -> x j = y j) -> (k < n)%nat -> shift1 n off x k = shift1 n off y k.
  Proof.
    (* no field law is used: statements that hold for every [Ops] rest on this lemma *)
    intros H Hk. unfold shift1.
    destruct (Z.leb (Z.of_nat n) (Z.abs off)); [reflexivity|].
    destruct (Z.ltb 0 off).
    - destruct (Nat.ltb_spec k (Z.to_nat off)); [reflexivity|apply H; lia].
    - destruct (Nat.ltb_spec (k + Z.to_nat (- off)) n); [apply H; lia|reflexivity].
  Qed.

  (** the common shape of [dlon_ref] and [dlon_fast]: row [i] is [jf i] times the next row (where
      [cf i]) or minus the previous one *)
  Definition dlon_by (jf : nat -> nat) (cf : nat -> bool) (R : nat) (x : arr2) : arr2 :=
    fun i l => lit (jf i) * (if cf i then shift_rows R (-1) x i l else - shift_rows R 1 x i l).
  Definition nbr (c : bool) (i : nat) : nat := if c then S i else (i - 1)%nat.

  Definition jmul (fast : bool) (i : nat) : nat := if fast then dfast_j 0 i else dref_j i.
  Definition dcond (fast : bool) (i : nat) : bool := if fast then dfast_cond i else dref_cond i.

  Lemma d_dlon_by fast R : d_dlon fast R = dlon_by (jmul fast) (dcond fast) R.
  Proof. destruct fast; reflexivity. Qed.

  Lemma dlon_by_unfold jf cf R (x : arr2) i l :
    (i < R)%nat ->
    dlon_by jf cf R x i l =
    lit (jf i) * (if cf i then (if Nat.ltb (S i) R then x (S i) l else 0)
                  else - (if Nat.eqb i 0 then 0 else x (i - 1)%nat l)).
  Proof. intros Hi. unfold dlon_by, shift_rows. rewrite shift1_m1, (shift1_p1 R _ i Hi). reflexivity. Qed.

  Lemma dlon_ref_unfold R (x : arr2) i l :
    (i < R)%nat ->
    dlon_ref R x i l =
    lit ((i + 1) / 2) * (if negb (Nat.eqb (i mod 2) 0)
                         then (if Nat.ltb (S i) R then x (S i) l else 0)
                         else - (if Nat.eqb i 0 then 0 else x (i - 1)%nat l)).
  Proof. exact (dlon_by_unfold dref_j dref_cond R x i l). Qed.

  Lemma dlon_fast_unfold R off (x : arr2) i l :
    (i < R)%nat ->
    dlon_fast R off x i l =
    lit (off + i / 2) * (if negb (Nat.eqb ((i + 1) mod 2) 0)
                         then (if Nat.ltb (S i) R then x (S i) l else 0)
                         else - (if Nat.eqb i 0 then 0 else x (i - 1)%nat l)).
  Proof. exact (dlon_by_unfold (dfast_j off) dfast_cond R x i l). Qed.

  Lemma d_dlon_unfold fast R (x : arr2) i l :
    (i < R)%nat ->
    d_dlon fast R x i l =
    lit (jmul fast i) * (if dcond fast i
                         then (if Nat.ltb (S i) R then x (S i) l else 0)
                         else - (if Nat.eqb i 0 then 0 else x (i - 1)%nat l)).
  Proof. rewrite d_dlon_by. apply dlon_by_unfold. Qed.

  Lemma dlon_by_pick jf cf R i :
    exists (c : F) i', ((i < R)%nat -> (i' < R)%nat) /\ forall (x : arr2) l, dlon_by jf cf R x i l = c * x i' l.
  Proof.
    unfold dlon_by, shift_rows.
    destruct (shift1_pick R (-1) i) as (c1 & i1 & H1 & E1), (shift1_pick R 1 i) as (c2 & i2 & H2 & E2).
    destruct (cf i).
    - exists (lit (jf i) * c1), i1. split; [exact H1|]. intros x l. rewrite E1. ring.
    - exists (- (lit (jf i) * c2)), i2. split; [exact H2|]. intros x l. rewrite E2. ring.
  Qed.

  Lemma d_dlon_pick fast R i :
    exists (c : F) i', ((i < R)%nat -> (i' < R)%nat) /\ forall (x : arr2) l, d_dlon fast R x i l = c * x i' l.
  Proof. rewrite d_dlon_by. apply dlon_by_pick. Qed.

  Lemma d_dlon_ext fast R (x y : arr2) i l :
    (forall i', (i' < R)%nat -> x i' l = y i' l) -> (i < R)%nat ->
    d_dlon fast R x i l = d_dlon fast R y i l.
  Proof.
    intros H Hi. rewrite d_dlon_by. unfold dlon_by, shift_rows.
    now rewrite (shift1_ext R (-1) _ (fun i' => y i' l)), (shift1_ext R 1 _ (fun i' => y i' l)).
  Qed.

  Lemma d_dlon_ext_all fast R (x y : arr2) i l :
    (forall i' l', x i' l' = y i' l') -> d_dlon fast R x i l = d_dlon fast R y i l.
  Proof. intros H. destruct (d_dlon_pick fast R i) as (c & i' & _ & E). now rewrite !E, H. Qed.

  Lemma d_dlon_lin fast R (x y : arr2) (t : F) i l :
    d_dlon fast R (fun i l => x i l + t * y i l) i l = d_dlon fast R x i l + t * d_dlon fast R y i l.
  Proof. destruct (d_dlon_pick fast R i) as (c & i' & _ & E). rewrite !E. ring. Qed.

  Lemma d_dlon_opp fast R (x : arr2) i l :
    d_dlon fast R (fun i l => - x i l) i l = - d_dlon fast R x i l.
  Proof. destruct (d_dlon_pick fast R i) as (c & i' & _ & E). rewrite !E. ring. Qed.

  Lemma d_dlon_div fast R (x : arr2) r i l :
    r <> 0 -> d_dlon fast R (fun i l => x i l / r) i l = d_dlon fast R x i l / r.
  Proof. intros Hr. destruct (d_dlon_pick fast R i) as (c & i' & _ & E). rewrite !E. field. exact Hr. Qed.

  (** beyond the R = 2M-1 (odd) rows of the reference layout the derivative of an array that vanishes there
      vanishes: row R would be the first of a pair *)
  Lemma dlon_ref_out R (x : arr2) i l :
    (R mod 2 = 1)%nat -> (R <= i)%nat -> (forall i' l', (R <= i')%nat -> x i' l' = 0) -> dlon_ref R x i l = 0.
  Proof.
    intros Hodd Hi Hx. change (dlon_ref R x i l) with (dlon_by dref_j dref_cond R x i l). unfold dlon_by, shift_rows.
    destruct (dref_cond i) eqn:E.
    - rewrite shift1_m1. destruct (Nat.ltb_spec (S i) R); [lia|ring].
    - assert (Hne : i <> R) by (intros ->; unfold dref_cond in E; rewrite Hodd in E; discriminate E).
      unfold shift1. destruct (Z.leb (Z.of_nat R) (Z.abs 1)); [ring|].
      change (Z.ltb 0 1) with true. cbv iota. change (Z.to_nat 1) with 1%nat.
      destruct (Nat.ltb i 1); [ring|]. rewrite Hx by lia. ring.
  Qed.

  (** Rows come in (cos, sin) pairs of one wavenumber, [cf] marking the first of a pair; a row that is
      its own neighbour (row 0 of the reference layout) has multiplier 0. *)
  Definition paired (jf : nat -> nat) (cf : nat -> bool) : Prop :=
    forall i, jf (nbr (cf i) i) = jf i /\
              (jf i <> 0%nat -> cf (nbr (cf i) i) = negb (cf i) /\ nbr (cf (nbr (cf i) i)) (nbr (cf i) i) = i).

  Lemma paired_ref : paired dref_j dref_cond.
  Proof.
    intros i. unfold nbr, dref_cond, dref_j.
    destruct (Nat.eqb_spec (i mod 2) 0) as [E|E]; cbn [negb].
    - destruct (Nat.eqb_spec ((i - 1) mod 2) 0); cbn [negb]; repeat split; lia.
    - destruct (Nat.eqb_spec (S i mod 2) 0); cbn [negb]; repeat split; lia.
  Qed.

  Lemma paired_fast off : paired (dfast_j off) dfast_cond.
  Proof.
    intros i. unfold nbr, dfast_cond, dfast_j.
    destruct (Nat.eqb_spec ((i + 1) mod 2) 0) as [E|E]; cbn [negb].
    - destruct (Nat.eqb_spec ((i - 1 + 1) mod 2) 0); cbn [negb]; repeat split; lia.
    - destruct (Nat.eqb_spec ((S i + 1) mod 2) 0); cbn [negb]; repeat split; lia.
  Qed.

  Lemma dlon_by_partner jf cf R (x : arr2) i l :
    paired jf cf -> (i < R)%nat -> (nbr (cf i) i < R)%nat ->
    dlon_by jf cf R x i l = (if cf i then lit (jf i) else - lit (jf i)) * x (nbr (cf i) i) l.
  Proof.
    intros P Hi Hp. rewrite dlon_by_unfold by assumption. destruct (P i) as [_ Hn].
    destruct (cf i) eqn:Ec; cbn [nbr] in *.
    - destruct (Nat.ltb_spec (S i) R); [ring|lia].
    - destruct (Nat.eqb_spec i 0) as [->|]; [|ring].
      destruct (Nat.eq_dec (jf 0%nat) 0) as [->|E]; [cbn [lit]; ring|].
      destruct (Hn E) as [Hc _]. cbn in Hc. congruence.
  Qed.

  Theorem dlon_by_twice jf cf R (x : arr2) i l :
    paired jf cf -> (i < R)%nat -> (nbr (cf i) i < R)%nat ->
    dlon_by jf cf R (dlon_by jf cf R x) i l = - (lit (jf i) * lit (jf i)) * x i l.
  Proof.
    intros P Hi Hp. rewrite dlon_by_partner by assumption. destruct (P i) as [Hj Hn].
    destruct (Nat.eq_dec (jf i) 0) as [E|E]; [rewrite E; cbn [lit]; destruct (cf i); ring|].
    destruct (Hn E) as [Hc Hb].
    rewrite dlon_by_partner, Hb, Hj, Hc by (rewrite ?Hb; assumption).
    destruct (cf i); cbn [negb]; ring.
  Qed.

  (** the layout's row count has the parity the code insists on *)
  Definition layout_ok (fast : bool) (R : nat) : Prop := (R mod 2 = if fast then 0 else 1)%nat.

  (** partner row (cos <-> sin of the same wavenumber) *)
  Definition partner (fast : bool) (i : nat) : nat :=
    if dcond fast i then S i else (i - 1)%nat.

  Lemma partner_lt fast R i : layout_ok fast R -> (i < R)%nat -> (partner fast i < R)%nat.
  Proof.
    unfold layout_ok, partner, dcond, dfast_cond, dref_cond. intros HR Hi.
    destruct fast; [destruct (Nat.eqb_spec ((i + 1) mod 2) 0)|destruct (Nat.eqb_spec (i mod 2) 0)]; cbn [negb]; lia.
  Qed.

  Lemma paired_layout fast : paired (jmul fast) (dcond fast).
  Proof. destruct fast; [exact (paired_fast 0)|exact paired_ref]. Qed.

  Lemma d_dlon_partner fast R (x : arr2) i l :
    layout_ok fast R -> (i < R)%nat ->
    (partner fast i < R)%nat /\
    d_dlon fast R x i l = (if dcond fast i then lit (jmul fast i) else - lit (jmul fast i)) * x (partner fast i) l.
  Proof.
    intros HR Hi. pose proof (partner_lt fast R i HR Hi) as Hp. split; [exact Hp|].
    rewrite d_dlon_by. exact (dlon_by_partner _ _ R x i l (paired_layout fast) Hi Hp).
  Qed.

  Theorem dlon_twice_ref R (x : arr2) i l :
    (R mod 2 = 1)%nat -> (i < R)%nat ->
    dlon_ref R (dlon_ref R x) i l = - (lit (dref_j i) * lit (dref_j i)) * x i l.
  Proof. intros HR Hi. exact (dlon_by_twice _ _ R x i l paired_ref Hi (partner_lt false R i HR Hi)). Qed.

  Theorem dlon_twice_fast R off (x : arr2) i l :
    (R mod 2 = 0)%nat -> (i < R)%nat ->
    dlon_fast R off (dlon_fast R off x) i l = - (lit (dfast_j off i) * lit (dfast_j off i)) * x i l.
  Proof. intros HR Hi. exact (dlon_by_twice _ _ R x i l (paired_fast off) Hi (partner_lt true R i HR Hi)). Qed.

  (** reference layout: row 2j-1 (cos) and row 2j (sin) of wavenumber j *)
  Theorem dlon_pairs_ref R (x : arr2) j l :
    (1 <= j)%nat -> (2 * j < R)%nat ->
    dlon_ref R x (2 * j - 1)%nat l = lit j * x (2 * j)%nat l /\
    dlon_ref R x (2 * j)%nat l = - (lit j * x (2 * j - 1)%nat l) /\
    dlon_ref R x 0%nat l = 0.
  Proof.
    intros Hj HR. repeat split.
    - rewrite dlon_ref_unfold by lia.
      replace ((2 * j - 1 + 1) / 2)%nat with j by lia.
      replace ((2 * j - 1) mod 2)%nat with 1%nat by lia. cbn [Nat.eqb negb].
      replace (S (2 * j - 1)) with (2 * j)%nat by lia.
      destruct (Nat.ltb_spec (2 * j) R); [reflexivity|lia].
    - rewrite dlon_ref_unfold by lia.
      replace ((2 * j + 1) / 2)%nat with j by lia.
      replace ((2 * j) mod 2)%nat with 0%nat by lia. cbn [Nat.eqb negb].
      destruct (Nat.eqb_spec (2 * j) 0); [lia|]. ring.
    - rewrite dlon_ref_unfold by lia. cbn. ring.
  Qed.

  (** fast layout: row 2j (cos) and row 2j+1 (sin) of wavenumber off+j *)
  Theorem dlon_pairs_fast R off (x : arr2) j l :
    (2 * j + 1 < R)%nat ->
    dlon_fast R off x (2 * j)%nat l = lit (off + j) * x (2 * j + 1)%nat l /\
    dlon_fast R off x (2 * j + 1)%nat l = - (lit (off + j) * x (2 * j)%nat l).
  Proof.
    intros HR. split.
    - rewrite dlon_fast_unfold by lia.
      replace ((2 * j) / 2)%nat with j by lia.
      replace ((2 * j + 1) mod 2)%nat with 1%nat by lia. cbn [Nat.eqb negb].
      replace (S (2 * j)) with (2 * j + 1)%nat by lia.
      destruct (Nat.ltb_spec (2 * j + 1) R); [reflexivity|lia].
    - rewrite dlon_fast_unfold by lia.
      replace ((2 * j + 1) / 2)%nat with j by lia.
      replace ((2 * j + 1 + 1) mod 2)%nat with 0%nat by lia. cbn [Nat.eqb negb].
      destruct (Nat.eqb_spec (2 * j + 1) 0); [lia|].
      replace (2 * j + 1 - 1)%nat with (2 * j)%nat by lia. ring.
  Qed.

  (** the multiplier of the longitude derivative is |m| of the modal axis *)
  Theorem dlon_index_is_wavenumber M i :
    mabs false M i = dref_j i /\ ((i < 2 * M)%nat -> mabs true M i = dfast_j 0 i).
  Proof.
    unfold mabs, maxis, dref_j, dfast_j. split.
    - destruct (Nat.eqb_spec i 0) as [->|Hi]; [reflexivity|].
      destruct (Nat.odd i) eqn:E.
      + apply Nat.odd_spec in E. destruct E as [k Hk]. lia.
      + assert (E' : Nat.even i = true) by (rewrite <- Nat.negb_odd, E; reflexivity).
        apply Nat.even_spec in E'. destruct E' as [k Hk]. lia.
    - intros Hi. destruct (Nat.ltb_spec i (2 * M)); [|lia].
      destruct (Nat.even i); lia.
  Qed.

  (** the common shape of [D1], [D2] and [Mmu]: two weighted column shifts ([Mmu C a b] is [shift2 C (-1) 1 a b]
      as it stands) *)
  Definition shift2 (C : nat) (om op : Z) (wm wp x : arr2) : arr2 :=
    fun i l => shift_cols C om (fun i l => wm i l * x i l) i l + shift_cols C op (fun i l => wp i l * x i l) i l.

  Lemma D1_shift2 L C (a b : arr2) :
    D1 L C a b = shift2 C (-1) 1 (fun i l => d1_wm (lit (laxis L l)) (a i l)) (fun i l => d1_wp (lit (laxis L l)) (b i l)).
  Proof. reflexivity. Qed.
  Lemma D2_shift2 L C (a b : arr2) :
    D2 L C a b = shift2 C (-1) 1 (fun i l => d2_wm (lit (laxis L l)) (a i l)) (fun i l => d2_wp (lit (laxis L l)) (b i l)).
  Proof. reflexivity. Qed.

  Lemma shift2_pick C om op (wm wp : arr2) i l :
    exists (c1 c2 : F) j1 j2, ((l < C)%nat -> (j1 < C)%nat /\ (j2 < C)%nat) /\
      forall x : arr2, shift2 C om op wm wp x i l = c1 * x i j1 + c2 * x i j2.
  Proof.
    destruct (shift1_pick C om l) as (c1 & j1 & H1 & E1), (shift1_pick C op l) as (c2 & j2 & H2 & E2).
    exists (c1 * wm i j1), (c2 * wp i j2), j1, j2. split; [auto|].
    intros x. unfold shift2, shift_cols. rewrite E1, E2. ring.
  Qed.

  Lemma shift2_lin C om op (wm wp x y : arr2) (t : F) i l :
    shift2 C om op wm wp (fun i l => x i l + t * y i l) i l
    = shift2 C om op wm wp x i l + t * shift2 C om op wm wp y i l.
  Proof. destruct (shift2_pick C om op wm wp i l) as (c1 & c2 & j1 & j2 & _ & E). rewrite !E. ring. Qed.

  Lemma shift2_ext_range C om op (wm wp x y : arr2) i l :
    (forall l', (l' < C)%nat -> x i l' = y i l') -> (l < C)%nat ->
    shift2 C om op wm wp x i l = shift2 C om op wm wp y i l.
  Proof.
    (* through [shift1_ext]: no field law *)
    intros H Hl. unfold shift2, shift_cols.
    rewrite (shift1_ext C om _ (fun l' => wm i l' * y i l')), (shift1_ext C op _ (fun l' => wp i l' * y i l'))
      by (try assumption; intros; now rewrite H).
    reflexivity.
  Qed.

  Lemma shift2_ext_all C om op (wm wp x y : arr2) i l :
    (forall l', x i l' = y i l') -> shift2 C om op wm wp x i l = shift2 C om op wm wp y i l.
  Proof. intros H. destruct (shift2_pick C om op wm wp i l) as (c1 & c2 & j1 & j2 & _ & E). now rewrite !E, !H. Qed.

  Lemma shift2_zero_row C om op (wm wp x : arr2) i l :
    (forall l', x i l' = 0) -> shift2 C om op wm wp x i l = 0.
  Proof. intros H. destruct (shift2_pick C om op wm wp i l) as (c1 & c2 & j1 & j2 & _ & E). rewrite E, !H. ring. Qed.

  Lemma D2_lin L C (a b x y : arr2) (t : F) i l :
    D2 L C a b (fun i l => x i l + t * y i l) i l = D2 L C a b x i l + t * D2 L C a b y i l.
  Proof. apply shift2_lin. Qed.
  Lemma D1_ext_range L C (a b x y : arr2) i l :
    (forall l', (l' < C)%nat -> x i l' = y i l') -> (l < C)%nat -> D1 L C a b x i l = D1 L C a b y i l.
  Proof. apply shift2_ext_range. Qed.
  Lemma D2_ext_range L C (a b x y : arr2) i l :
    (forall l', (l' < C)%nat -> x i l' = y i l') -> (l < C)%nat -> D2 L C a b x i l = D2 L C a b y i l.
  Proof. apply shift2_ext_range. Qed.
  Lemma D2_ext_all L C (a b x y : arr2) i l : (forall l', x i l' = y i l') -> D2 L C a b x i l = D2 L C a b y i l.
  Proof. apply shift2_ext_all. Qed.
  Lemma D2_zero_row L C (a b x : arr2) i l : (forall l', x i l' = 0) -> D2 L C a b x i l = 0.
  Proof. apply shift2_zero_row. Qed.

  Lemma D2_opp L C (a b x : arr2) i l : D2 L C a b (fun i l => - x i l) i l = - D2 L C a b x i l.
  Proof. rewrite D2_shift2. edestruct (shift2_pick C (-1) 1) as (c1 & c2 & j1 & j2 & _ & E). rewrite !E. ring. Qed.

  Lemma D2_div L C (a b x : arr2) r i l :
    r <> 0 -> D2 L C a b (fun i l => x i l / r) i l = D2 L C a b x i l / r.
  Proof.
    intros Hr. rewrite D2_shift2. edestruct (shift2_pick C (-1) 1) as (c1 & c2 & j1 & j2 & _ & E).
    rewrite !E. field. exact Hr.
  Qed.

  (** explicit entries inside the range *)
  Definition tri (C : nat) (wm wp : nat -> nat -> F) (x : arr2) : arr2 :=
    fun i l => (if Nat.ltb (S l) C then wm i (S l) * x i (S l) else 0) +
               (if Nat.eqb l 0 then 0 else wp i (l - 1)%nat * x i (l - 1)%nat).

  Lemma shift2_tri C (wm wp x : arr2) i l : (l < C)%nat -> shift2 C (-1) 1 wm wp x i l = tri C wm wp x i l.
  Proof. intros Hl. unfold shift2, tri, shift_cols. rewrite shift1_m1, (shift1_p1 C _ l Hl). reflexivity. Qed.

  Lemma tri_weights C (wm wp wm' wp' x : arr2) i l :
    (forall l', wm i l' = wm' i l') -> (forall l', wp i l' = wp' i l') -> tri C wm wp x i l = tri C wm' wp' x i l.
  Proof. intros Hm Hp. unfold tri. now rewrite Hm, Hp. Qed.

  Lemma tri_ext C (wm wp : nat -> nat -> F) (x y : arr2) i l :
    (forall l', x i l' = y i l') -> tri C wm wp x i l = tri C wm wp y i l.
  Proof. intros H. unfold tri. now rewrite !H. Qed.

  Lemma tri_ext_range C (wm wp : nat -> nat -> F) (x y : arr2) i l :
    (forall l', (l' < C)%nat -> x i l' = y i l') -> (l < C)%nat -> tri C wm wp x i l = tri C wm wp y i l.
  Proof. intros H Hl. rewrite <- !shift2_tri by assumption. now apply shift2_ext_range. Qed.

  Lemma D1_entries L C (a b x : arr2) i l :
    (l < C)%nat ->
    D1 L C a b x i l =
    tri C (fun i l => (lit (laxis L l) + 1) * a i l) (fun i l => - lit (laxis L l) * b i l) x i l.
  Proof.
    intros Hl. rewrite D1_shift2, shift2_tri by assumption.
    apply tri_weights; intros; unfold d1_wm, d1_wp; cbn [lit]; ring.
  Qed.

  Lemma D2_entries L C (a b x : arr2) i l :
    (l < C)%nat ->
    D2 L C a b x i l =
    tri C (fun i l => (lit (laxis L l) - 1) * a i l) (fun i l => - (lit (laxis L l) + (1 + 1)) * b i l) x i l.
  Proof.
    intros Hl. rewrite D2_shift2, shift2_tri by assumption.
    apply tri_weights; intros; unfold d2_wm, d2_wp; cbn [lit]; ring.
  Qed.

  Lemma Mmu_entries C (a b x : arr2) i l :
    (l < C)%nat -> Mmu C a b x i l = tri C a b x i l.
  Proof. apply shift2_tri. Qed.

  (** D2 = D1 - 2 M_mu for arbitrary weight tables: all three read the same two entries *)
  Theorem D2_eq_D1_minus_2mu L C (a b x : arr2) i l :
    (l < C)%nat ->
    D2 L C a b x i l = D1 L C a b x i l - (1 + 1) * Mmu C a b x i l.
  Proof.
    intros _. unfold D1, D2, Mmu, shift_cols, d1_om, d1_op, d2_om, d2_op.
    destruct (shift1_pick C (-1) l) as (c1 & j1 & _ & E1), (shift1_pick C 1 l) as (c2 & j2 & _ & E2).
    rewrite !E1, !E2. unfold d1_wm, d1_wp, d2_wm, d2_wp. cbn [lit]. ring.
  Qed.

  Lemma lap_eig_val L r l :
    lap_eig L r l = - lit (laxis L l) * (lit (laxis L l) + 1) / (r * r).
  Proof. unfold lap_eig, lap_eig_expr. cbn [lit]. replace (0 + 1) with 1 by ring. reflexivity. Qed.

  Lemma inv_eig_val L r l :
    (1 <= l < L)%nat -> r <> 0 -> lit l <> 0 -> lit l + 1 <> 0 ->
    inv_eig L r l = - (r * r) / (lit l * (lit l + 1)).
  Proof.
    intros Hl Hr H0 H1. unfold inv_eig.
    destruct (Nat.eqb_spec l 0); [lia|]. destruct (Nat.leb_spec L l); [lia|].
    rewrite lap_eig_val, laxis_lt by lia.
    assert (Hn : - lit l <> 0) by (intro E; apply H0; transitivity (- - lit l); [ring|rewrite E; ring]).
    field. repeat split; assumption.
  Qed.

  Theorem lap_inverse L r (x : arr2) i l :
    r <> 0 -> (1 <= l < L)%nat -> lit l <> 0 -> lit l + 1 <> 0 ->
    laplacian L r (inverse_laplacian L r x) i l = x i l /\
    inverse_laplacian L r (laplacian L r x) i l = x i l.
  Proof.
    intros Hr Hl H0 H1. unfold laplacian, inverse_laplacian.
    rewrite inv_eig_val, lap_eig_val, laxis_lt by (assumption || lia).
    split; field; repeat split; assumption.
  Qed.

  Theorem inverse_laplacian_zero L r (x : arr2) i l :
    (l = 0 \/ L <= l)%nat -> inverse_laplacian L r x i l = 0.
  Proof.
    intros H. unfold inverse_laplacian, inv_eig.
    destruct (Nat.eqb_spec l 0); [ring|]. destruct (Nat.leb_spec L l); [ring|lia].
  Qed.

  Lemma laplacian_padded L r (x : arr2) i l : (l = 0 \/ L <= l)%nat -> r <> 0 -> laplacian L r x i l = 0.
  Proof.
    intros H Hr. unfold laplacian. rewrite lap_eig_val.
    replace (laxis L l) with 0%nat.
    - cbn [lit]. field. exact Hr.
    - destruct H as [->|H]; [unfold laxis; destruct (Nat.ltb 0 L); reflexivity|now rewrite laxis_ge].
  Qed.

  (** the generated weight expressions: a^2 (4 l^2 - 1) = l^2 - m^2 and b^2(l) = a^2(l+1) *)
  Theorem weight_exprs (l m : F) :
    (lit 4 * (l * l) - lit 1 <> 0 -> a2_expr 1 l m * (lit 4 * (l * l) - lit 1) = l * l - m * m) /\
    (forall mask, b2_expr mask l m = a2_expr mask (l + lit 1) m).
  Proof.
    unfold a2_expr, b2_expr. split.
    - intros H. field. exact H.
    - intros mask. reflexivity.
  Qed.

  (** the cos^2 identity:  (D1 D1 - m^2) x = (1 - M_mu M_mu)(r^2 laplacian x)  at |m| <= l <= L-3 *)
  Section Cos2.
    Variables (L C : nat) (a b x : nat -> nat -> F) (r : F) (i l mn : nat).
    Hypothesis Hr : r <> 0.
    Hypothesis HLC : (L <= C)%nat.
    Hypothesis Hl : (l + 2 < L)%nat.
    Hypothesis Hm : (mn <= l)%nat.
    (** table hypotheses (H_b_shift, H_eps2), only at the entries that are used *)
    Hypothesis Hb0 : b i l = a i (S l).
    Hypothesis Hb1 : (1 <= l)%nat -> b i (l - 1)%nat = a i l.
    Hypothesis Ha1 : a i (S l) * a i (S l) = a2_expr 1 (lit (S l)) (lit mn).
    Hypothesis Ha0 : (1 <= l)%nat -> a i l * a i l = a2_expr 1 (lit l) (lit mn).
    (** the denominators of the code and the factor 2l+1 are invertible (true in characteristic 0) *)
    Hypothesis Hd1 : lit 4 * (lit (S l) * lit (S l)) - lit 1 <> 0.
    Hypothesis Hd0 : lit 4 * (lit l * lit l) - lit 1 <> 0.
    Hypothesis H2l1 : (1 + 1) * lit l + 1 <> 0.

    Let y : nat -> nat -> F := fun i l => laplacian L r x i l * (r * r).

    Lemma y_val k : (k < L)%nat -> y i k = - lit k * (lit k + 1) * x i k.
    Proof. intros Hk. unfold y, laplacian. rewrite lap_eig_val, laxis_lt by assumption. field. exact Hr. Qed.

    (** the diagonal entry: both sides times 2l+1 agree by the closed forms of the two squares *)
    Lemma cos2_diag :
      let e1 := a i (S l) in
      let e0 := if Nat.eqb l 0 then 0 else a i l in
      lit mn * lit mn
      = lit l * (lit l + 1) - e1 * e1 * (lit l * ((1 + 1) * lit l + (1 + 1 + 1)))
        - e0 * e0 * ((lit l + 1) * ((1 + 1) * lit l - 1)).
    Proof.
      cbv zeta.
      pose proof (proj1 (weight_exprs (lit (S l)) (lit mn)) Hd1) as E1. rewrite <- Ha1 in E1.
      set (e1 := a i (S l)) in *.
      destruct (Nat.eqb_spec l 0) as [Hl0|Hl0].
      - assert (mn = 0)%nat by lia. subst mn l. cbn [lit]. ring.
      - pose proof (proj1 (weight_exprs (lit l) (lit mn)) Hd0) as E0. rewrite <- Ha0 in E0 by lia.
        set (e0 := a i l) in *. cbn [lit] in E1, E0. apply (fmul_cancel_l _ _ _ H2l1).
        set (B := lit l * (lit l + 1) - e1 * e1 * (lit l * ((1 + 1) * lit l + (1 + 1 + 1)))
                  - e0 * e0 * ((lit l + 1) * ((1 + 1) * lit l - 1))).
        transitivity (B * ((1 + 1) * lit l + 1)
                      + lit l * (e1 * e1 * ((0 + 1 + 1 + 1 + 1) * ((lit l + 1) * (lit l + 1)) - (0 + 1))
                                 - ((lit l + 1) * (lit l + 1) - lit mn * lit mn))
                      + (lit l + 1) * (e0 * e0 * ((0 + 1 + 1 + 1 + 1) * (lit l * lit l) - (0 + 1))
                                       - (lit l * lit l - lit mn * lit mn))).
        + unfold B. ring.
        + rewrite E1, E0. ring.
    Qed.

    Theorem cos2_laplacian_identity :
      D1 L C a b (D1 L C a b x) i l - lit mn * lit mn * x i l
      = y i l - Mmu C a b (Mmu C a b y) i l.
    Proof.
      rewrite cos2_diag.
      rewrite (D1_entries L C a b (D1 L C a b x) i l) by lia.
      rewrite (Mmu_entries C a b (Mmu C a b y) i l) by lia.
      unfold tri.
      destruct (Nat.ltb_spec (S l) C) as [_|]; [|lia].
      rewrite (D1_entries L C a b x i (S l)), (Mmu_entries C a b y i (S l)) by lia.
      unfold tri.
      destruct (Nat.ltb_spec (S (S l)) C) as [_|]; [|lia].
      destruct (Nat.eqb_spec (S l) 0) as [|_]; [lia|].
      replace (S l - 1)%nat with l by lia.
      rewrite !(laxis_lt L (S l)), !(laxis_lt L (S (S l))), !(laxis_lt L l) by lia.
      rewrite !y_val by lia. rewrite Hb0.
      destruct (Nat.eqb_spec l 0) as [Hl0|Hl0].
      - rewrite Hl0. cbn [lit]. ring.
      - rewrite (D1_entries L C a b x i (l - 1)), (Mmu_entries C a b y i (l - 1)) by lia.
        unfold tri.
        replace (S (l - 1)) with l by lia.
        destruct (Nat.ltb_spec l C) as [_|]; [|lia].
        rewrite !(laxis_lt L l), !(laxis_lt L (l - 1)) by lia.
        rewrite !y_val by lia. rewrite (Hb1 ltac:(lia)).
        destruct (Nat.eqb_spec (l - 1) 0) as [Hl1|Hl1].
        + rewrite !lit_pred by lia. cbn [lit]. ring.
        + rewrite !(laxis_lt L (l - 1 - 1)) by lia. rewrite ?y_val by lia.
          rewrite (lit_pred (l - 1)) by lia. rewrite !(lit_pred l) by lia. cbn [lit]. ring.
    Qed.
  End Cos2.

  (** d_dlon commutes with every pair of weighted column shifts whose weights agree on partner rows
      (or vanish where the multiplier is zero: row 0) *)
  Definition sym_rows (fast : bool) (R : nat) (w : nat -> nat -> F) : Prop :=
    forall i l, (i < R)%nat -> jmul fast i <> 0%nat -> w i l = w (partner fast i) l.

  Lemma sym_rows_map fast R (f : nat -> F -> F) (w : arr2) :
    sym_rows fast R w -> sym_rows fast R (fun i l => f l (w i l)).
  Proof. intros S i l H1 H2. now rewrite (S i l H1 H2). Qed.

  Lemma shift2_dlon_commute fast R C om op (wm wp x : arr2) i l :
    layout_ok fast R -> (i < R)%nat -> sym_rows fast R wm -> sym_rows fast R wp ->
    d_dlon fast R (shift2 C om op wm wp x) i l = shift2 C om op wm wp (d_dlon fast R x) i l.
  Proof.
    intros HR Hi Sm Sp.
    destruct (d_dlon_partner fast R (shift2 C om op wm wp x) i l HR Hi) as [Hp ->].
    unfold shift2, shift_cols.
    destruct (shift1_pick C om l) as (c1 & j1 & _ & E1), (shift1_pick C op l) as (c2 & j2 & _ & E2).
    rewrite !E1, !E2.
    rewrite (proj2 (d_dlon_partner fast R x i j1 HR Hi)), (proj2 (d_dlon_partner fast R x i j2 HR Hi)).
    destruct (Nat.eq_dec (jmul fast i) 0) as [E|E].
    - rewrite E. cbn [lit]. destruct (dcond fast i); ring.
    - rewrite (Sm i j1 Hi E), (Sp i j2 Hi E). ring.
  Qed.

  Theorem dlon_commutes fast L R C (a b x : arr2) i l :
    layout_ok fast R -> (i < R)%nat -> (l < C)%nat -> sym_rows fast R a -> sym_rows fast R b ->
    d_dlon fast R (D1 L C a b x) i l = D1 L C a b (d_dlon fast R x) i l /\
    d_dlon fast R (D2 L C a b x) i l = D2 L C a b (d_dlon fast R x) i l /\
    d_dlon fast R (Mmu C a b x) i l = Mmu C a b (d_dlon fast R x) i l.
  Proof.
    intros HR Hi _ Sa Sb.
    pose proof (fun f => sym_rows_map fast R f a Sa) as S1.
    pose proof (fun f => sym_rows_map fast R f b Sb) as S2.
    repeat split.
    - exact (shift2_dlon_commute fast R C _ _ _ _ x i l HR Hi
               (S1 (fun l => d1_wm (lit (laxis L l)))) (S2 (fun l => d1_wp (lit (laxis L l))))).
    - exact (shift2_dlon_commute fast R C _ _ _ _ x i l HR Hi
               (S1 (fun l => d2_wm (lit (laxis L l)))) (S2 (fun l => d2_wp (lit (laxis L l))))).
    - exact (shift2_dlon_commute fast R C _ _ a b x i l HR Hi Sa Sb).
  Qed.

  Lemma clip_if_entry c L C (x : arr2) i l :
    clip_if c L C x i l = x i l * (if c then (if Nat.ltb l (C - (1 + (C - L))) then 1 else 0) else 1).
  Proof. unfold clip_if, clip. destruct c; [reflexivity|ring]. Qed.

  (** gradient, divergence and curl read their arguments inside the index range only (no field law is used) *)
  Lemma cos_lat_grad_ext fast L R C r (a b : arr2) c (x y : arr2) i l :
    (forall i' l', (i' < R)%nat -> (l' < C)%nat -> x i' l' = y i' l') -> (i < R)%nat -> (l < C)%nat ->
    fst (cos_lat_grad fast L R C r a b c x) i l = fst (cos_lat_grad fast L R C r a b c y) i l /\
    snd (cos_lat_grad fast L R C r a b c x) i l = snd (cos_lat_grad fast L R C r a b c y) i l.
  Proof.
    intros E Hi Hl. unfold cos_lat_grad, clip_if, clip.
    destruct c; cbn [fst snd]; rewrite (d_dlon_ext fast R x y i l), (D1_ext_range L C a b x y i l) by auto; split; reflexivity.
  Qed.

  Lemma div_cos_lat_ext fast L R C r (a b : arr2) c (v w : vec2) i l :
    (forall i' l', (i' < R)%nat -> (l' < C)%nat -> fst v i' l' = fst w i' l' /\ snd v i' l' = snd w i' l') ->
    (i < R)%nat -> (l < C)%nat ->
    div_cos_lat fast L R C r a b c v i l = div_cos_lat fast L R C r a b c w i l.
  Proof.
    intros E Hi Hl. unfold div_cos_lat, clip_if, clip.
    destruct c; cbv beta; rewrite (d_dlon_ext fast R (fst v) (fst w) i l), (D2_ext_range L C a b (snd v) (snd w) i l)
      by (try assumption; intros; now apply E); reflexivity.
  Qed.

  Lemma curl_cos_lat_ext fast L R C r (a b : arr2) c (v w : vec2) i l :
    (forall i' l', (i' < R)%nat -> (l' < C)%nat -> fst v i' l' = fst w i' l' /\ snd v i' l' = snd w i' l') ->
    (i < R)%nat -> (l < C)%nat ->
    curl_cos_lat fast L R C r a b c v i l = curl_cos_lat fast L R C r a b c w i l.
  Proof.
    intros E Hi Hl. unfold curl_cos_lat, clip_if, clip.
    destruct c; cbv beta; rewrite (d_dlon_ext fast R (snd v) (snd w) i l), (D2_ext_range L C a b (fst v) (fst w) i l)
      by (try assumption; intros; now apply E); reflexivity.
  Qed.

  (** the gradient is linear and reads its argument inside the index range if (i, l) is inside: both at once, a
      linear relation between three fields at the entries that can be read passes to their gradients *)
  Lemma cos_lat_grad_comb fast L R C r (a b : arr2) c (z x y : arr2) (s t : F) i l :
    (forall i' l', ((i < R)%nat -> (i' < R)%nat) -> ((l < C)%nat -> (l' < C)%nat) -> z i' l' = s * x i' l' + t * y i' l') ->
    fst (cos_lat_grad fast L R C r a b c z) i l
    = s * fst (cos_lat_grad fast L R C r a b c x) i l + t * fst (cos_lat_grad fast L R C r a b c y) i l /\
    snd (cos_lat_grad fast L R C r a b c z) i l
    = s * snd (cos_lat_grad fast L R C r a b c x) i l + t * snd (cos_lat_grad fast L R C r a b c y) i l.
  Proof.
    intros H. unfold cos_lat_grad. cbn [fst snd]. rewrite !clip_if_entry, !fdiv_mul, D1_shift2.
    destruct (d_dlon_pick fast R i) as (c0 & i' & Hi' & E0).
    edestruct (shift2_pick C (-1) 1) as (c1 & c2 & j1 & j2 & Hj & E1).
    rewrite !E0, !E1, !H by (auto; intros Hl; now destruct (Hj Hl)). split; ring.
  Qed.

  (** the gradient annihilates a field that has its (0,0) coefficient only (reference layout) *)
  Lemma cos_lat_grad_const L R C r (a b : arr2) c (x : arr2) i l :
    (forall i' l', (i' <> 0 \/ l' <> 0)%nat -> x i' l' = 0) -> (i < R)%nat -> (l < C)%nat ->
    fst (cos_lat_grad false L R C r a b c x) i l = 0 /\ snd (cos_lat_grad false L R C r a b c x) i l = 0.
  Proof.
    intros H Hi Hl. unfold cos_lat_grad. cbn [fst snd]. rewrite !clip_if_entry, !fdiv_mul.
    rewrite d_dlon_unfold, D1_entries by assumption. unfold jmul, dcond, dref_j, dref_cond, tri. split.
    - destruct (Nat.eqb_spec (i mod 2) 0) as [E|E]; cbn [negb].
      + destruct (Nat.eqb_spec i 0); [|rewrite H by lia]; ring.
      + destruct (Nat.ltb (S i) R); [rewrite H by lia|]; ring.
    - rewrite (H i (S l)) by lia.
      (* the entry below: column 0 carries the weight lit 0, the others vanish *)
      assert (Z : l <> 0%nat -> - lit (laxis L (l - 1)) * b i (l - 1)%nat * x i (l - 1)%nat = 0).
      { intros N. destruct (Nat.eq_dec (l - 1) 0) as [->|N1]; [|rewrite (H i (l - 1)%nat) by lia; ring].
        unfold laxis. destruct (Nat.ltb 0 L); cbn [lit]; ring. }
      destruct (Nat.ltb (S l) C), (Nat.eqb_spec l 0) as [E|E]; try rewrite (Z E); ring.
  Qed.

  (** divergence and curl are linear in the vector, at every index *)
  Lemma div_cos_lat_ext_all fast L R C r (a b : arr2) c (v w : vec2) i l :
    (forall i l, fst v i l = fst w i l) -> (forall i l, snd v i l = snd w i l) ->
    div_cos_lat fast L R C r a b c v i l = div_cos_lat fast L R C r a b c w i l.
  Proof.
    intros E1 E2. unfold div_cos_lat. rewrite !clip_if_entry.
    now rewrite (d_dlon_ext_all fast R _ _ i l E1), (D2_ext_all L C a b _ _ i l (E2 i)).
  Qed.
  Lemma curl_cos_lat_ext_all fast L R C r (a b : arr2) c (v w : vec2) i l :
    (forall i l, fst v i l = fst w i l) -> (forall i l, snd v i l = snd w i l) ->
    curl_cos_lat fast L R C r a b c v i l = curl_cos_lat fast L R C r a b c w i l.
  Proof.
    intros E1 E2. unfold curl_cos_lat. rewrite !clip_if_entry.
    now rewrite (d_dlon_ext_all fast R _ _ i l E2), (D2_ext_all L C a b _ _ i l (E1 i)).
  Qed.
  Lemma div_cos_lat_lin fast L R C r (a b : arr2) c (v w : vec2) (t : F) i l :
    div_cos_lat fast L R C r a b c (fun i l => fst v i l + t * fst w i l, fun i l => snd v i l + t * snd w i l) i l
    = div_cos_lat fast L R C r a b c v i l + t * div_cos_lat fast L R C r a b c w i l.
  Proof. unfold div_cos_lat. rewrite !clip_if_entry. cbn [fst snd]. rewrite d_dlon_lin, D2_lin, !fdiv_mul. ring. Qed.
  Lemma curl_cos_lat_lin fast L R C r (a b : arr2) c (v w : vec2) (t : F) i l :
    curl_cos_lat fast L R C r a b c (fun i l => fst v i l + t * fst w i l, fun i l => snd v i l + t * snd w i l) i l
    = curl_cos_lat fast L R C r a b c v i l + t * curl_cos_lat fast L R C r a b c w i l.
  Proof. unfold curl_cos_lat. rewrite !clip_if_entry. cbn [fst snd]. rewrite d_dlon_lin, D2_lin, !fdiv_mul. ring. Qed.

  Theorem div_kcross fast L R C r (a b : arr2) c (v : vec2) i l :
    r <> 0 -> (i < R)%nat -> (l < C)%nat ->
    div_cos_lat fast L R C r a b c (k_cross v) i l = - curl_cos_lat fast L R C r a b c v i l.
  Proof.
    intros Hr Hi Hl. unfold div_cos_lat, curl_cos_lat, k_cross, clip_if, clip. cbn [fst snd].
    destruct c; rewrite d_dlon_opp by assumption; field; exact Hr.
  Qed.

  Theorem curl_kcross fast L R C r (a b : arr2) c (v : vec2) i l :
    r <> 0 -> (i < R)%nat -> (l < C)%nat ->
    curl_cos_lat fast L R C r a b c (k_cross v) i l = div_cos_lat fast L R C r a b c v i l.
  Proof.
    intros Hr Hi Hl. unfold div_cos_lat, curl_cos_lat, k_cross, clip_if, clip. cbn [fst snd].
    destruct c; rewrite D2_opp by assumption; field; exact Hr.
  Qed.

  (** curl of the (cos^2-weighted) spectral gradient is 2 M_mu d_dlon / r^2, not 0:
      the sec^2 factor of the nodal path is needed *)
  Theorem curl_grad_spectral fast L R C r (a b x : arr2) i l :
    r <> 0 -> layout_ok fast R -> (i < R)%nat -> (l < C)%nat -> sym_rows fast R a -> sym_rows fast R b ->
    curl_cos_lat fast L R C r a b false (cos_lat_grad fast L R C r a b false x) i l
    = (1 + 1) * Mmu C a b (d_dlon fast R x) i l / (r * r).
  Proof.
    intros Hr HR Hi Hl Sa Sb. unfold curl_cos_lat, cos_lat_grad, clip_if. cbn [fst snd].
    rewrite d_dlon_div, D2_div by assumption.
    destruct (dlon_commutes fast L R C a b x i l HR Hi Hl Sa Sb) as (E1 & _ & _).
    rewrite E1, D2_eq_D1_minus_2mu by assumption. field. exact Hr.
  Qed.

  Theorem div_grad_spectral fast L R C r (a b x : arr2) i l :
    r <> 0 -> (i < R)%nat -> (l < C)%nat ->
    div_cos_lat fast L R C r a b false (cos_lat_grad fast L R C r a b false x) i l
    = (d_dlon fast R (d_dlon fast R x) i l + D1 L C a b (D1 L C a b x) i l
       - (1 + 1) * Mmu C a b (D1 L C a b x) i l) / (r * r).
  Proof.
    intros Hr Hi Hl. unfold div_cos_lat, cos_lat_grad, clip_if. cbn [fst snd].
    rewrite d_dlon_div, D2_div by assumption.
    rewrite D2_eq_D1_minus_2mu by assumption. field. exact Hr.
  Qed.

  (** homogeneity in the radius: degree -2 for the Laplacian, 2 for its inverse, -1 for gradient, divergence, curl *)
  Lemma laplacian_radius L r k (x : arr2) i l :
    r <> 0 -> k <> 0 -> laplacian L (k * r) x i l = laplacian L r x i l / (k * k).
  Proof. intros Hr Hk. unfold laplacian. rewrite !lap_eig_val. field. split; assumption. Qed.

  Lemma inverse_laplacian_radius L r k (x : arr2) i l :
    r <> 0 -> k <> 0 -> (1 <= l < L)%nat -> lit l <> 0 -> lit l + 1 <> 0 ->
    inverse_laplacian L (k * r) x i l = inverse_laplacian L r x i l * (k * k).
  Proof.
    intros Hr Hk Hl H0 H1. unfold inverse_laplacian.
    rewrite !inv_eig_val by (try apply fmul_nz; assumption). field. repeat split; assumption.
  Qed.

  Lemma cos_lat_grad_radius fast L R C r k (a b x : arr2) c i l :
    r <> 0 -> k <> 0 ->
    fst (cos_lat_grad fast L R C (k * r) a b c x) i l = fst (cos_lat_grad fast L R C r a b c x) i l / k /\
    snd (cos_lat_grad fast L R C (k * r) a b c x) i l = snd (cos_lat_grad fast L R C r a b c x) i l / k.
  Proof. intros Hr Hk. unfold cos_lat_grad, clip_if, clip. cbn [fst snd]. destruct c; split; field; split; assumption. Qed.

  Lemma div_cos_lat_radius fast L R C r k (a b : arr2) c (v : vec2) i l :
    r <> 0 -> k <> 0 -> div_cos_lat fast L R C (k * r) a b c v i l = div_cos_lat fast L R C r a b c v i l / k.
  Proof. intros Hr Hk. unfold div_cos_lat, clip_if, clip. destruct c; field; split; assumption. Qed.

  Lemma curl_cos_lat_radius fast L R C r k (a b : arr2) c (v : vec2) i l :
    r <> 0 -> k <> 0 -> curl_cos_lat fast L R C (k * r) a b c v i l = curl_cos_lat fast L R C r a b c v i l / k.
  Proof. intros Hr Hk. unfold curl_cos_lat, clip_if, clip. destruct c; field; split; assumption. Qed.

  Theorem radius_scaling fast L R C r k (a b x : arr2) (v : vec2) c i l :
    r <> 0 -> k <> 0 ->
    laplacian L (k * r) x i l = laplacian L r x i l / (k * k) /\
    ((1 <= l < L)%nat -> lit l <> 0 -> lit l + 1 <> 0 ->
     inverse_laplacian L (k * r) x i l = inverse_laplacian L r x i l * (k * k)) /\
    fst (cos_lat_grad fast L R C (k * r) a b c x) i l = fst (cos_lat_grad fast L R C r a b c x) i l / k /\
    snd (cos_lat_grad fast L R C (k * r) a b c x) i l = snd (cos_lat_grad fast L R C r a b c x) i l / k /\
    div_cos_lat fast L R C (k * r) a b c v i l = div_cos_lat fast L R C r a b c v i l / k /\
    curl_cos_lat fast L R C (k * r) a b c v i l = curl_cos_lat fast L R C r a b c v i l / k.
  Proof.
    intros Hr Hk.
    split; [now apply laplacian_radius|]. split; [now apply inverse_laplacian_radius|].
    split; [now apply cos_lat_grad_radius|]. split; [now apply cos_lat_grad_radius|].
    split; [now apply div_cos_lat_radius|now apply curl_cos_lat_radius].
  Qed.

  (** what the default clip removes: the top coefficient of cos(lat) d/dlat of a field of degree L-2 *)
  Theorem grad_top_clipped fast L R C r (a b x : arr2) i :
    r <> 0 -> (2 <= L <= C)%nat -> ((L < C)%nat -> x i L = 0) ->
    snd (cos_lat_grad fast L R C r a b true x) i (L - 1)%nat = 0 /\
    snd (cos_lat_grad fast L R C r a b false x) i (L - 1)%nat
    = - lit (L - 2) * b i (L - 2)%nat * x i (L - 2)%nat / r /\
    (forall l, (l + 1 < L)%nat ->
       snd (cos_lat_grad fast L R C r a b true x) i l = snd (cos_lat_grad fast L R C r a b false x) i l).
  Proof.
    intros Hr HL Hx. unfold cos_lat_grad, clip_if, clip. cbn [snd]. repeat split.
    - destruct (Nat.ltb_spec (L - 1) (C - (1 + (C - L)))); [lia|]. field. exact Hr.
    - rewrite D1_entries by lia. unfold tri.
      replace (S (L - 1)) with L by lia. replace (L - 1 - 1)%nat with (L - 2)%nat by lia.
      destruct (Nat.eqb_spec (L - 1) 0); [lia|].
      rewrite (laxis_lt L (L - 2)) by lia.
      destruct (Nat.ltb_spec L C) as [H|H].
      + rewrite (Hx H). field. exact Hr.
      + field. exact Hr.
    - intros l Hl. destruct (Nat.ltb_spec l (C - (1 + (C - L)))); [|lia]. field. exact Hr.
  Qed.

  (** identities through the nodal sec^2 step, from the two abstract hypotheses H_sec2
      ([S] = to_modal(sec^2 * to_nodal(.)), not modelled here; the hypotheses are table obligations
      checked on every basis vector of degree <= L-3 on every explored grid) *)
  Theorem vecid_sec2 fast L R C r (a b : arr2) (S : arr2 -> arr2) (psi : arr2) i l :
    r <> 0 -> (i < R)%nat -> (l < C)%nat ->
    let g := cos_lat_grad fast L R C r a b true psi in
    let sg := (S (fst g), S (snd g)) in
    (* H_sec2_curl *) d_dlon fast R (S (snd g)) i l = D2 L C a b (S (fst g)) i l ->
    (* H_sec2_div  *) d_dlon fast R (S (fst g)) i l + D2 L C a b (S (snd g)) i l = r * laplacian L r psi i l ->
    curl_cos_lat fast L R C r a b true sg i l = 0 /\
    div_cos_lat fast L R C r a b true (k_cross sg) i l = 0 /\
    div_cos_lat fast L R C r a b true sg i l = clip L C 1 (laplacian L r psi) i l.
  Proof.
    intros Hr Hi Hl g sg Hc Hd.
    assert (E1 : curl_cos_lat fast L R C r a b true sg i l = 0).
    { unfold curl_cos_lat, clip_if, clip, sg. cbn [fst snd]. rewrite Hc. field. exact Hr. }
    repeat split.
    - exact E1.
    - rewrite div_kcross by assumption. rewrite E1. ring.
    - unfold div_cos_lat, clip_if, clip, sg. cbn [fst snd]. rewrite Hd. field. exact Hr.
  Qed.
End DerivThm.
