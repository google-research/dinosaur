(** C06: A-stability of the SIL3 implicit part, for all dt >= 0 and Re z <= 0. *)
From Dino Require Import Base.Ops Base.Inst Gen.Tableaux Model.Integrators Thm.Integrators Thm.IntegratorsStab Thm.IntegratorsArk.
From Coq Require Import Reals Lra Lia Qreals.
From Coquelicot Require Import Complex.

Local Open Scope R_scope.

(** complex scalar problems are linear in the initial value: step(u) = r * u *)
Lemma Gz_one u : Gz (1, 0) u = u.
Proof. destruct u; unfold Gz; cbn. f_equal; ring. Qed.
Lemma nsq_Gz s u : nsq (Gz s u) = nsq s * nsq u.
Proof. destruct s, u; unfold nsq, Gz; cbn. ring. Qed.

Lemma ark_step_linear z dt a_ex a_im b_ex b_im u :
  ark_step (o := ROps) (vo := CVOps) F0 (Gz z) (Ginvz z) dt a_ex a_im b_ex b_im u =
  Gz (ark_step (o := ROps) (vo := CVOps) F0 (Gz z) (Ginvz z) dt a_ex a_im b_ex b_im (1, 0)) u.
Proof.
  (* s |-> s u is a homomorphism of modules that commutes with F0, z., (1 - eta z)^-1 *)
  rewrite <- (Gz_one u) at 1. symmetry.
  rewrite (ark_step_hom (fun c : R => c) (fun s => Gz s u)) with (FxB := F0) (GB := Gz z) (GiB := Ginvz z).
  - now rewrite !map_id, !(map_ext _ _ (@map_id R)), !map_id.
  - reflexivity.
  - reflexivity.
  - destruct u; unfold Gz; cbn; f_equal; ring.
  - intros [a b] [c d]; destruct u; unfold Gz; cbn; f_equal; ring.
  - intros c [a b]; destruct u; unfold Gz; cbn; f_equal; ring.
  - intros [a b]; destruct u; unfold Gz, F0; cbn; f_equal; ring.
  - intros [a b]; destruct u, z; unfold Gz; cbn; f_equal; ring.
  - intros [a b] eta; destruct u, z; unfold Gz, Ginvz, Rdiv; cbn; f_equal; ring.
Qed.

Definition RL (l : list Q) : list R := map Q2R l.
Definition RLL (l : list (list Q)) : list (list R) := map (map Q2R) l.
Definition sil3_r (z : Cplx) (dt : R) : Cplx :=
  ark_step (o := ROps) (vo := CVOps) F0 (Gz z) (Ginvz z) dt
    (RLL sil3_a_ex) (RLL sil3_a_im) (RL sil3_b_ex) (RL sil3_b_im) (1, 0).


(** bridge to the complex field of Coquelicot (same representation R * R) *)
Lemma vadd_C (a b : Cplx) : vadd a b = Cplus a b.
Proof. reflexivity. Qed.
Lemma vscal_C (c : R) (a : Cplx) : vscal c a = Cmult (RtoC c) a.
Proof. destruct a. unfold Cmult, RtoC. cbn. f_equal; ring. Qed.
Lemma Gz_C (z u : Cplx) : Gz z u = Cmult z u.
Proof. reflexivity. Qed.
Lemma Ginvz_C (z u : Cplx) (eta : R) : Dz z eta <> 0 ->
  Ginvz z u eta = Cdiv u (Cminus (RtoC 1) (Cmult (RtoC eta) z)).
Proof.
  intros H. destruct z as [x y], u as [a b].
  unfold Ginvz, Cdiv, Cmult, Cinv, Cminus, Cplus, Copp, RtoC, Dz in *. cbn [fst snd] in *.
  assert (E : ((1 + - (eta * x - 0 * y)) ^ 2 + (0 + - (eta * y + 0 * x)) ^ 2
               = (1 - eta * x) * (1 - eta * x) + eta * y * (eta * y))%R) by ring.
  f_equal; field; intro E2; apply H; rewrite <- E2; ring.
Qed.

(** numerals: rationals as complex field expressions over 1, +, *, / *)
Local Open Scope C_scope.
Fixpoint CofPos (p : positive) : C :=
  match p with
  | xH => 1
  | xO p => (1 + 1) * CofPos p
  | xI p => 1 + (1 + 1) * CofPos p
  end.
Definition CofZ (z : Z) : C :=
  match z with Z0 => 0 | Zpos p => CofPos p | Zneg p => - CofPos p end.
Lemma CofPos_ok p : CofPos p = RtoC (IZR (Zpos p)).
Proof.
  induction p as [p IH|p IH|]; cbn [CofPos]; try rewrite IH.
  - rewrite Pos2Z.inj_xI, plus_IZR, mult_IZR. unfold RtoC, Cplus, Cmult. cbn [fst snd]. f_equal; ring.
  - rewrite Pos2Z.inj_xO, mult_IZR. unfold RtoC, Cplus, Cmult. cbn [fst snd]. f_equal; ring.
  - reflexivity.
Qed.
Lemma CofZ_ok z : CofZ z = RtoC (IZR z).
Proof.
  destruct z as [|p|p]; cbn [CofZ]; [reflexivity|apply CofPos_ok|].
  rewrite CofPos_ok. change (Zneg p) with (- Zpos p)%Z. rewrite opp_IZR.
  unfold RtoC, Copp. cbn [fst snd]. f_equal; ring.
Qed.
Lemma RtoC_Q2R q : RtoC (Q2R q) = CofZ (Qnum q) / CofPos (Qden q).
Proof.
  unfold Q2R. rewrite RtoC_mult, RtoC_inv, CofZ_ok, CofPos_ok; [reflexivity|].
  apply not_0_IZR. lia.
Qed.

Lemma C_nonzero_re (c : C) : fst c <> 0%R -> c <> 0.
Proof. intros H E. apply H. rewrite E. reflexivity. Qed.

(** the implicit stability function of the generated SIL3 tableau *)
Lemma sil3_r_closed z dt : (0 <= dt)%R -> (fst z <= 0)%R ->
  let w := RtoC dt * z in
  sil3_r z dt = (CofPos 12 + CofPos 5 * w) / ((w - CofPos 3) * (w - CofPos 4)).
Proof.
  intros Hd Hx w.
  unfold sil3_r, ark_step, RLL, RL, sil3_a_ex, sil3_a_im, sil3_b_ex, sil3_b_im.
  cbn [map ark_stages wsum nth app].
  unfold F0.
  assert (HD : forall c : Q, (0 <= c)%Q -> Dz z (dt * Q2R c)%R <> 0%R).
  { intros c Hc. apply Qle_Rle in Hc. replace (Q2R 0) with 0%R in Hc by (unfold Q2R; cbn; lra).
    pose proof (Dz_ge_1 z (dt * Q2R c)%R (Rmult_le_pos _ _ Hd Hc) Hx). lra. }
  change (@fmul R ROps) with Rmult.
  rewrite !Ginvz_C by (apply HD; vm_compute; discriminate).
  repeat rewrite vscal_C.
  change (@vadd R Cplx CVOps) with Cplus. change Gz with Cmult.
  change (@vzero R Cplx CVOps) with (RtoC 0). change ((1, 0)%R : Cplx) with (RtoC 1).
  change ((0, 0)%R : Cplx) with (RtoC 0).
  repeat rewrite RtoC_mult. repeat rewrite RtoC_Q2R. cbn [CofZ CofPos Qnum Qden].
  subst w.
  match goal with |- ?a = ?b => change (@eq C a b) end.
  field.
  destruct z as [x y]. cbn [fst] in Hx.
  assert (Hxd : (dt * x <= 0)%R) by nra.
  repeat match goal with |- _ /\ _ => split end;
    apply C_nonzero_re; unfold Cminus, Cplus, Copp, Cmult, RtoC; cbn [fst snd]; lra.
Qed.

(** |D|^2 - |N|^2 = t^4 + 14 t^3 + 48 t^2 + 288 t + 2 t^2 s + 14 t s + s^2 with
    t = - Re w >= 0 and s = (Im w)^2 >= 0: only non-negative coefficients. *)
Lemma sil3_certificate (X Y : R) : (X <= 0)%R ->
  ((12 + 5 * X) * (12 + 5 * X) + (5 * Y) * (5 * Y)
   <= ((X - 3) * (X - 3) + Y * Y) * ((X - 4) * (X - 4) + Y * Y))%R.
Proof.
  intros HX. set (t := (- X)%R). set (s := (Y * Y)%R).
  assert (Ht : (0 <= t)%R) by (unfold t; lra).
  assert (Hs : (0 <= s)%R) by (unfold s; apply Rle_0_sqr).
  match goal with |- (?L <= ?Rr)%R =>
    replace Rr with (L + (t*t*t*t + 14*(t*t*t) + 48*(t*t) + 288*t + 2*(t*t*s) + 14*(t*s) + s*s))%R
      by (unfold t, s; ring)
  end.
  clearbody t s.
  assert (0 <= t*t*t*t + 14*(t*t*t) + 48*(t*t) + 288*t + 2*(t*t*s) + 14*(t*s) + s*s)%R; [|lra].
  repeat apply Rplus_le_le_0_compat; repeat apply Rmult_le_pos; try assumption; lra.
Qed.

Lemma nsq_Cmult (a b : C) : nsq (a * b) = (nsq a * nsq b)%R.
Proof. apply (nsq_Gz a b). Qed.

Lemma nsq_Cdiv_le (N D : C) : (0 < nsq D)%R -> (nsq N <= nsq D)%R -> (nsq (N / D)%C <= 1)%R.
Proof.
  intros HD HN.
  assert (D <> 0) by (intros ->; unfold nsq in HD; cbn in HD; lra).
  assert (E : N / D * D = N) by (field; assumption).
  apply (f_equal nsq) in E. rewrite nsq_Cmult in E.
  apply (Rmult_le_reg_r (nsq D)); [exact HD|]. rewrite E. lra.
Qed.

Lemma sil3_r_bound z dt : (0 <= dt)%R -> (fst z <= 0)%R -> (nsq (sil3_r z dt) <= 1)%R.
Proof.
  intros Hd Hx. rewrite (sil3_r_closed z dt Hd Hx). cbv zeta.
  destruct z as [x y]. cbn [fst] in Hx.
  set (X := (dt * x)%R). set (Y := (dt * y)%R).
  assert (HX : (X <= 0)%R) by (unfold X; nra).
  assert (EN : nsq (CofPos 12 + CofPos 5 * (RtoC dt * (x, y)))
               = ((12 + 5 * X) * (12 + 5 * X) + (5 * Y) * (5 * Y))%R)
    by (cbn [CofPos]; unfold nsq, Cmult, Cplus, RtoC, X, Y; cbn [fst snd]; ring).
  assert (ED : nsq ((RtoC dt * (x, y) - CofPos 3) * (RtoC dt * (x, y) - CofPos 4))
               = (((X - 3) * (X - 3) + Y * Y) * ((X - 4) * (X - 4) + Y * Y))%R)
    by (cbn [CofPos]; unfold nsq, Cmult, Cminus, Cplus, Copp, RtoC, X, Y; cbn [fst snd]; ring).
  apply nsq_Cdiv_le; rewrite ?EN, ED.
  - assert (0 <= Y * Y)%R by apply Rle_0_sqr. clearbody X Y.
    apply Rmult_lt_0_compat; nra.
  - now apply sil3_certificate.
Qed.

(** A-stability of the SIL3 scheme: generated tableau, every step size, every z
    in the closed left half-plane, through the zero-skipping interpreter. *)
Theorem A_stable_sil3 z u dt : (0 <= dt)%R -> (fst z <= 0)%R ->
  exists y, imex_step (o := ROps) (vo := CVOps) F0 (Gz z) (Ginvz z) dt
              (RLL sil3_a_ex) (RLL sil3_a_im) (RL sil3_b_ex) (RL sil3_b_im) u = Some y /\
            (nsq y <= nsq u)%R.
Proof.
  intros Hd Hx. eexists. split.
  - exact (imex_is_ark R_nz_false vadd_0_r vscal_0_l _ _ _ _ _ _ _ _ _).
  - rewrite ark_step_linear, nsq_Gz. fold (sil3_r z dt).
    pose proof (sil3_r_bound z dt Hd Hx).
    assert (0 <= nsq u)%R by (unfold nsq; pose proof (Rle_0_sqr (fst u)); pose proof (Rle_0_sqr (snd u)); unfold Rsqr in *; lra).
    nra.
Qed.

(** non-vacuity of the hypotheses of the generic theorems: for z = i the operator
    G_inv solves y = x + eta z y for every real eta *)
Lemma Ginvz_solves_imag (x : Cplx) (eta : R) :
  Ginvz (0, 1)%R x eta = vadd x (vscal eta (Gz (0, 1)%R (Ginvz (0, 1)%R x eta))).
Proof.
  destruct x as [a b]. unfold Ginvz, Gz, Dz. cbn [fst snd vadd vscal CVOps].
  assert (((1 - eta * 0) * (1 - eta * 0) + eta * 1 * (eta * 1))%R <> 0%R).
  { pose proof (Rle_0_sqr eta). unfold Rsqr in *. lra. }
  f_equal; field; nra.
Qed.
