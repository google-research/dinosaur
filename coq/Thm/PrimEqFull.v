(** Theorems about the END-TO-END executable model Model/PrimEqFull.v.
    (a) what is executed (every intermediate array materialised once) IS the ModalAssembly
        instance at the concrete operators of Model/SHT.v / Model/Deriv.v, on the index range;
    (b) the concrete operators are linear and the concrete laplacian kills the (0,0)-only
        field, so the modal invariance theorems of Thm/PrimEq.v hold for the executable
        composition under the remaining exactness hypotheses only
        (H_roundtrip, H_div_vel, H_div_grad, H_curl_grad);
    (c) implicit_terms_full / implicit_inverse_full are, coefficient by coefficient, the
        column operators of Model/Implicit.v, hence the resolvent identity lifts;
    (d) two executed states with the same absolute temperature, split by two reference profiles,
        have the same explicit_terms_full + implicit_terms_full on the index range. *)
From Dino Require Import Base.Ops Base.Field Base.Sums Base.Ord Model.Sigma Model.Implicit Model.PrimEq Model.SHT Model.Deriv
     Model.PrimEqFull Gen.DerivExprs Thm.SHT Thm.Deriv Thm.Implicit Thm.PrimEq.
Local Open Scope F_scope.

Section Basics.
  Context {F : Type} {o : Ops F}.

  Lemma sh_memo2_out_row n m (x : nat -> nat -> F) a j : (n <= a)%nat -> sh_memo2 n m x a j = 0.
  Proof. intros Ha. now rewrite sh_memo2_spec, (ltb_false a n Ha). Qed.

  Lemma memo3_level n m q (x : nat -> nat -> nat -> F) k a j :
    memo3 n m q x k a j = if Nat.ltb k n then sh_memo2 m q (x k) a j else 0.
  Proof.
    unfold memo3. destruct (Nat.ltb_spec k n) as [Hk|Hk].
    - now rewrite (nth_map_seq (fun k0 => map (fun a0 => map (x k0 a0) (seq 0 q)) (seq 0 m)) n k []) by assumption.
    - rewrite (nth_overflow (map _ (seq 0 n)) []) by (now rewrite map_length, seq_length). destruct a, j; reflexivity.
  Qed.
  Lemma memo3_spec n m q (x : nat -> nat -> nat -> F) k a j :
    memo3 n m q x k a j = if (Nat.ltb k n && Nat.ltb a m && Nat.ltb j q)%bool then x k a j else 0.
  Proof. rewrite memo3_level, sh_memo2_spec. destruct (Nat.ltb k n); reflexivity. Qed.
  Lemma memo3_ok n m q (x : nat -> nat -> nat -> F) k a j :
    (k < n)%nat -> (a < m)%nat -> (j < q)%nat -> memo3 n m q x k a j = x k a j.
  Proof. intros Hk Ha Hj. now rewrite memo3_spec, !ltb_true by assumption. Qed.
  Lemma memo3_out_k n m q (x : nat -> nat -> nat -> F) k a j : (n <= k)%nat -> memo3 n m q x k a j = 0.
  Proof. intros Hk. now rewrite memo3_level, (ltb_false k n Hk). Qed.
End Basics.

Section Concrete.
  Context {F : Type} {o : Ops F} {Fc : FieldC o}.
  Add Field FFpc : (field_c : FieldTh o).
  Variable g : @HGrid F.
  Let R := hR g.
  Let L := hL g.
  Let I := hI g.
  Let J := hJ g.

  Lemma tm_ok (z : nat -> nat -> F) a l : (a < R)%nat -> (l < L)%nat -> tm g z a l = to_modal g z a l.
  Proof. intros Ha Hl. unfold tm. now apply sh_memo2_ok. Qed.

  (** to_nodal and its staged forms are homogeneous and read the coefficient range only *)
  Lemma to_nodal_scal t (x y : nat -> nat -> F) i j :
    (j < J)%nat -> (forall a l, (a < R)%nat -> (l < L)%nat -> y a l = t * x a l) -> to_nodal g y i j = t * to_nodal g x i j.
  Proof.
    intros Hj H. unfold to_nodal. rewrite !synth_eq by assumption. rewrite <- sum2_scal_l.
    apply sum2_ext; intros a l Ha Hl. rewrite H by assumption. ring.
  Qed.
  Lemma nodal2_scal t (x y : nat -> nat -> F) i j :
    (forall a l, (a < R)%nat -> (l < L)%nat -> y a l = t * x a l) ->
    sh_memo2 I J (to_nodal g y) i j = t * sh_memo2 I J (to_nodal g x) i j.
  Proof.
    intros H. rewrite !sh_memo2_spec. destruct (Nat.ltb i I); cbn [andb]; [|ring].
    destruct (Nat.ltb_spec j J) as [Hj|Hj]; [now apply to_nodal_scal|ring].
  Qed.
  Lemma to_nodal3_scal K t (x y : nat -> nat -> nat -> F) k i j :
    (forall k a l, (k < K)%nat -> (a < R)%nat -> (l < L)%nat -> y k a l = t * x k a l) ->
    to_nodal3 g K y k i j = t * to_nodal3 g K x k i j.
  Proof.
    intros H. unfold to_nodal3. rewrite !memo3_level.
    destruct (Nat.ltb_spec k K) as [Hk|Hk]; [|ring]. apply nodal2_scal. intros a l. now apply H.
  Qed.

  (** get_cos_lat_vector: gradient of the velocity potential plus rotated gradient of the stream function; it is
      linear and reads (vorticity, divergence) on the coefficient range if (a, l) is in it *)
  Lemma uvm_grad (vo dv : nat -> nat -> F) a l :
    fst (uvm g vo dv) a l
    = fst (gradm g (inverse_laplacian L (hr g) dv)) a l + - snd (gradm g (inverse_laplacian L (hr g) vo)) a l /\
    snd (uvm g vo dv) a l
    = snd (gradm g (inverse_laplacian L (hr g) dv)) a l + fst (gradm g (inverse_laplacian L (hr g) vo)) a l.
  Proof. split; reflexivity. Qed.

  Lemma uvm_comb s t (vo dv vo1 dv1 vo2 dv2 : nat -> nat -> F) a l :
    (forall a' l', ((a < R)%nat -> (a' < R)%nat) -> ((l < L)%nat -> (l' < L)%nat) ->
                   vo a' l' = s * vo1 a' l' + t * vo2 a' l' /\ dv a' l' = s * dv1 a' l' + t * dv2 a' l') ->
    fst (uvm g vo dv) a l = s * fst (uvm g vo1 dv1) a l + t * fst (uvm g vo2 dv2) a l /\
    snd (uvm g vo dv) a l = s * snd (uvm g vo1 dv1) a l + t * snd (uvm g vo2 dv2) a l.
  Proof.
    intros H.
    assert (G : forall x x1 x2 : nat -> nat -> F,
               (forall a' l', ((a < R)%nat -> (a' < R)%nat) -> ((l < L)%nat -> (l' < L)%nat) ->
                              x a' l' = s * x1 a' l' + t * x2 a' l') ->
               fst (gradm g (inverse_laplacian L (hr g) x)) a l
               = s * fst (gradm g (inverse_laplacian L (hr g) x1)) a l + t * fst (gradm g (inverse_laplacian L (hr g) x2)) a l /\
               snd (gradm g (inverse_laplacian L (hr g) x)) a l
               = s * snd (gradm g (inverse_laplacian L (hr g) x1)) a l + t * snd (gradm g (inverse_laplacian L (hr g) x2)) a l).
    { intros x x1 x2 Hx. apply cos_lat_grad_comb. intros a' l' Ha' Hl'. unfold inverse_laplacian.
      rewrite (Hx a' l' Ha' Hl'). ring. }
    destruct (uvm_grad vo dv a l) as [-> ->], (uvm_grad vo1 dv1 a l) as [-> ->], (uvm_grad vo2 dv2 a l) as [-> ->].
    destruct (G vo vo1 vo2 (fun a' l' Ha' Hl' => proj1 (H a' l' Ha' Hl'))) as [-> ->].
    destruct (G dv dv1 dv2 (fun a' l' Ha' Hl' => proj2 (H a' l' Ha' Hl'))) as [-> ->]. split; ring.
  Qed.

  Lemma divm_ext_range (x y x' y' : nat -> nat -> F) a l :
    (a < R)%nat -> (l < L)%nat ->
    (forall a l, (a < R)%nat -> (l < L)%nat -> x a l = x' a l) ->
    (forall a l, (a < R)%nat -> (l < L)%nat -> y a l = y' a l) ->
    divm g x y a l = divm g x' y' a l.
  Proof.
    intros Ha Hl Hx Hy. apply div_cos_lat_ext; try assumption. intros; split; [now apply Hx|now apply Hy].
  Qed.
  Lemma curlm_ext_range (x y x' y' : nat -> nat -> F) a l :
    (a < R)%nat -> (l < L)%nat ->
    (forall a l, (a < R)%nat -> (l < L)%nat -> x a l = x' a l) ->
    (forall a l, (a < R)%nat -> (l < L)%nat -> y a l = y' a l) ->
    curlm g x y a l = curlm g x' y' a l.
  Proof.
    intros Ha Hl Hx Hy. apply curl_cos_lat_ext; try assumption. intros; split; [now apply Hx|now apply Hy].
  Qed.

  Variable c : @PEcfg F.
  Variable grav : F.
  Variable orog : nat -> nat -> F.

  (** the spectral combinations on materialised arrays are the clipped combinations of the concrete operators;
      [hum] is the humidity correction of the moist classes (dry: 0) *)
  Lemma scalar_of_is_assembly (tot mu mv : Wi -> F) a l :
    (a < R)%nat -> (l < L)%nat ->
    scalar_of g (tm g (cur tot)) (tm g (cur mu)) (tm g (cur mv)) a l
    = clip_c g (fun w' => toM_c g tot w' + - divc_c g (toM_c g mu) (toM_c g mv) w') (a, l).
  Proof.
    intros Ha Hl. unfold scalar_of, clip_c, divc_c, toM_c, unc, clipm, Deriv.clip. cbn [fst snd]. unfold cur at 1.
    rewrite (tm_ok _ a l Ha Hl).
    rewrite (divm_ext_range _ _ (to_modal g (cur mu)) (to_modal g (cur mv)) a l Ha Hl) by (intros; now apply tm_ok).
    reflexivity.
  Qed.

  Lemma vort_of_h_is_assembly (cu cv : Wi -> F) (hum : nat -> nat -> F) (hum' : Wi -> F) a l :
    (a < R)%nat -> (l < L)%nat -> hum a l = hum' (a, l) ->
    vort_of_h g (tm g (cur cu)) (tm g (cur cv)) hum a l
    = clip_c g (fun w' => - curlc_c g (toM_c g cu) (toM_c g cv) w' + hum' w') (a, l).
  Proof.
    intros Ha Hl Hh. unfold vort_of_h, clip_c, curlc_c, toM_c, unc, clipm, Deriv.clip. cbn [fst snd]. unfold cur at 1.
    rewrite Hh.
    rewrite (curlm_ext_range _ _ (to_modal g (cur cu)) (to_modal g (cur cv)) a l Ha Hl) by (intros; now apply tm_ok).
    reflexivity.
  Qed.

  Lemma div_of_h_is_assembly (cu cv ke : Wi -> F) (hum : nat -> nat -> F) (hum' : Wi -> F) a l :
    (a < R)%nat -> (l < L)%nat -> hum a l = hum' (a, l) ->
    div_of_h g grav orog (tm g (cur cu)) (tm g (cur cv)) (tm g (cur ke)) hum a l
    = clip_c g (fun w' => - divc_c g (toM_c g cu) (toM_c g cv) w' + - lap_c g (toM_c g ke) w'
                          + - grav * lap_c g (unc orog) w' + hum' w') (a, l).
  Proof.
    intros Ha Hl Hh.
    unfold div_of_h, clip_c, divc_c, lap_c, toM_c, unc, clipm, lapm, Deriv.clip, Deriv.laplacian. cbn [fst snd]. unfold cur at 1.
    rewrite Hh, (tm_ok _ a l Ha Hl).
    rewrite (divm_ext_range _ _ (to_modal g (cur cu)) (to_modal g (cur cv)) a l Ha Hl) by (intros; now apply tm_ok).
    reflexivity.
  Qed.

  Lemma hum_div_of_is_assembly (geo dn : Wi -> F) a l :
    (a < R)%nat -> (l < L)%nat ->
    hum_div_of g (tm g (cur geo)) (tm g (cur dn)) a l = - lap_c g (toM_c g geo) (a, l) - toM_c g dn (a, l).
  Proof.
    intros Ha Hl. unfold hum_div_of, lap_c, toM_c, unc, lapm, Deriv.laplacian. cbn [fst snd]. unfold cur at 1.
    now rewrite !(tm_ok _ a l Ha Hl).
  Qed.

  Theorem tracer_of_is_assembly (X : Wi -> @NCol F) (s : Wi -> nat -> F) r a l :
    (a < R)%nat -> (l < L)%nat ->
    scalar_of g (tm g (fun i j => tracer_nodal_total c true (X (i, j)) (s (i, j)) r))
                (tm g (fun i j => hsa_mu (X (i, j)) (s (i, j)) r))
                (tm g (fun i j => hsa_mv (X (i, j)) (s (i, j)) r)) a l
    = tracer_tendency_explicit_c g c X s r (a, l).
  Proof.
    exact (scalar_of_is_assembly (fun p => tracer_nodal_total c true (X p) (s p) r)
             (fun p => hsa_mu (X p) (s p) r) (fun p => hsa_mv (X p) (s p) r) a l).
  Qed.

  Theorem lnps_explicit_is_assembly (d : @Diag F) a l :
    (a < R)%nat -> (l < L)%nat ->
    lnps_explicit g c d a l = lnps_tendency_explicit_c g c (X_of g d) (a, l).
  Proof.
    intros Ha Hl. unfold lnps_tendency_explicit_c, lnps_explicit, clip_c, toM_c, unc, cur, clipm, Deriv.clip. cbn [fst snd].
    now rewrite (tm_ok _ a l Ha Hl).
  Qed.

  (** (a) the whole state: every field of explicit_terms_full is the ModalAssembly instance
      at the nodal columns of the (materialised) diagnostic state *)
  Lemma level_nth (d : @Diag F) k :
    (k < cK c)%nat ->
    nth k (map (explicit_level g c grav orog d) (seq 0 (cK c))) (lev0 (F := F)) = explicit_level g c grav orog d k.
  Proof. intros Hk. now apply nth_map_seq. Qed.

  Theorem explicit_terms_full_is_assembly (s : @State F) k a l :
    (k < cK c)%nat -> (a < R)%nat -> (l < L)%nat ->
    let X := X_of g (diagnostic_state g (cK c) s) in
    s_vort (explicit_terms_full g c grav orog s) k a l
    = vort_tendency_explicit Wi Wi (toM_c g) (curlc_c g) (clip_c g) c X (fun p => rt_dry c (X p)) (fun _ => 0) k (a, l) /\
    s_div (explicit_terms_full g c grav orog s) k a l
    = div_tendency_explicit Wi Wi (toM_c g) (divc_c g) (lap_c g) (clip_c g) c grav X (fun p => rt_dry c (X p))
                            (unc orog) (fun _ => 0) k (a, l) /\
    s_temp (explicit_terms_full g c grav orog s) k a l
    = temp_tendency_explicit Wi Wi (toM_c g) (divc_c g) (clip_c g) c X k (a, l) /\
    s_lnps (explicit_terms_full g c grav orog s) a l = lnps_tendency_explicit_c g c X (a, l).
  Proof.
    intros Hk Ha Hl X. unfold explicit_terms_full, explicit_terms_of_diag. cbv zeta.
    cbn [s_vort s_div s_temp s_lnps]. rewrite !level_nth by assumption.
    unfold explicit_level. cbv zeta. cbn [l_vort l_div l_temp].
    rewrite !sh_memo2_ok by assumption.
    split; [|split; [|split]].
    - exact (vort_of_h_is_assembly (fun p => combined_u c true (X p) (rt_dry c (X p)) k)
               (fun p => combined_v c true (X p) (rt_dry c (X p)) k) (fun _ _ => 0) (fun _ => 0) a l Ha Hl eq_refl).
    - exact (div_of_h_is_assembly (fun p => combined_u c true (X p) (rt_dry c (X p)) k)
               (fun p => combined_v c true (X p) (rt_dry c (X p)) k) (fun p => kinetic (X p) k)
               (fun _ _ => 0) (fun _ => 0) a l Ha Hl eq_refl).
    - exact (scalar_of_is_assembly (fun p => temp_nodal_total c true (X p) k)
               (fun p => hsa_mu (X p) (n_temp (X p)) k) (fun p => hsa_mv (X p) (n_temp (X p)) k) a l Ha Hl).
    - apply lnps_explicit_is_assembly; assumption.
  Qed.

  (** the surface-pressure entry without a level, and the tracer entries *)
  Lemma explicit_lnps_is_assembly (s : @State F) a l :
    (a < hR g)%nat -> (l < hL g)%nat ->
    s_lnps (explicit_terms_full g c grav orog s) a l
    = lnps_tendency_explicit_c g c (X_of g (diagnostic_state g (cK c) s)) (a, l).
  Proof.
    intros Ha Hl. unfold explicit_terms_full, explicit_terms_of_diag. cbv zeta. cbn [s_lnps].
    rewrite sh_memo2_ok by assumption. now apply lnps_explicit_is_assembly.
  Qed.

  Theorem tracer_entry_is_assembly (s : @State F) n k a l :
    (n < length (s_tr s))%nat -> (k < cK c)%nat -> (a < hR g)%nat -> (l < hL g)%nat ->
    nth n (s_tr (explicit_terms_full g c grav orog s)) zero3 k a l
    = tracer_tendency_explicit_c g c (X_of g (diagnostic_state g (cK c) s))
        (tr_of (to_nodal3 g (cK c) (nth n (s_tr s) zero3))) k (a, l).
  Proof.
    intros Hn Hk Ha Hl. unfold explicit_terms_full, explicit_terms_of_diag. cbv zeta. cbn [s_tr].
    set (d := diagnostic_state g (cK c) s).
    assert (Ld : length (d_tr d) = length (s_tr s)) by (unfold d, diagnostic_state; cbn [d_tr]; now rewrite map_length).
    rewrite (nth_map_seq _ (length (d_tr d)) n zero3) by (rewrite Ld; exact Hn).
    rewrite level_nth by exact Hk.
    unfold explicit_level. cbv zeta. cbn [l_tr].
    rewrite (nth_map_in _ (d_tr d) n zero3) by (rewrite Ld; exact Hn).
    rewrite sh_memo2_ok by assumption.
    assert (Et : nth n (d_tr d) zero3 = to_nodal3 g (cK c) (nth n (s_tr s) zero3)).
    { unfold d, diagnostic_state. cbn [d_tr]. now apply nth_map_in. }
    rewrite Et.
    exact (tracer_of_is_assembly (X_of g d) (tr_of (to_nodal3 g (cK c) (nth n (s_tr s) zero3))) k a l Ha Hl).
  Qed.
End Concrete.

(** (b) the concrete operators satisfy the linearity hypotheses of Thm/PrimEq.v, and the
    concrete laplacian kills the (0,0)-only field *)
Section ConcreteLinear.
  Context {F : Type} {o : Ops F} {Fc : FieldC o}.
  Add Field FFpl : (field_c : FieldTh o).
  Variable g : @HGrid F.

  Lemma analysis_out_row K I J f p w (z : nat -> nat -> F) a l : (K <= a)%nat -> analysis K I J f p w z a l = 0.
  Proof.
    intros Ha. unfold analysis. cbv zeta. unfold fwd_legendre.
    apply sumn_zero. intros j _. rewrite sh_memo2_out_row by assumption. ring.
  Qed.

  Theorem toM_c_lin : linear (toM_c g).
  Proof.
    split.
    - intros x y H [a l]. unfold toM_c, unc, to_modal, cur. cbn [fst snd].
      destruct (Nat.lt_ge_cases a (hR g)) as [Ha|Ha].
      + apply analysis_ext; [assumption|]. intros; apply H.
      + now rewrite !analysis_out_row by assumption.
    - intros t x y [a l]. unfold toM_c, unc, to_modal, cur. cbn [fst snd].
      destruct (Nat.lt_ge_cases a (hR g)) as [Ha|Ha].
      + rewrite (analysis_ext (hR g) (hI g) (hJ g) (hf g) (hp g) (hw g) _
                   (fun i j => t * y (i, j) + x (i, j)) a l Ha) by (intros; ring).
        rewrite analysis_linear by assumption. ring.
      + rewrite !analysis_out_row by assumption. ring.
  Qed.

  Theorem divc_c_lin : linear2 (divc_c g).
  Proof.
    split.
    - intros x1 y1 x2 y2 H1 H2 [a l]. apply div_cos_lat_ext_all; intros; [apply H1|apply H2].
    - intros t x1 y1 x2 y2 [a l].
      exact (div_cos_lat_lin false _ _ _ _ _ _ false (cur x1, cur x2) (cur y1, cur y2) t a l).
  Qed.

  Theorem curlc_c_lin : linear2 (curlc_c g).
  Proof.
    split.
    - intros x1 y1 x2 y2 H1 H2 [a l]. apply curl_cos_lat_ext_all; intros; [apply H1|apply H2].
    - intros t x1 y1 x2 y2 [a l].
      exact (curl_cos_lat_lin false _ _ _ _ _ _ false (cur x1, cur x2) (cur y1, cur y2) t a l).
  Qed.

  (** laplacian and clip_wavenumbers act coefficient by coefficient, by a factor that depends on l only *)
  Lemma lap_c_entry (x : Wi -> F) w : lap_c g x w = x w * Deriv.lap_eig (hL g) (hr g) (snd w).
  Proof. destruct w. reflexivity. Qed.
  Lemma clip_c_entry (x : Wi -> F) w : clip_c g x w = x w * (if Nat.ltb (snd w) (hL g - 1) then 1 else 0).
  Proof.
    destruct w as [a l]. unfold clip_c, unc, clipm, Deriv.clip, cur. cbn [fst snd].
    now rewrite Nat.sub_diag, Nat.add_0_r.
  Qed.

  Theorem lap_c_lin : linear (lap_c g).
  Proof.
    split.
    - intros x y H w. now rewrite !lap_c_entry, H.
    - intros t x y w. rewrite !lap_c_entry. ring.
  Qed.

  Theorem clip_c_lin : linear (clip_c g).
  Proof.
    split.
    - intros x y H w. now rewrite !clip_c_entry, H.
    - intros t x y w. rewrite !clip_c_entry. ring.
  Qed.

  (** the modal coefficients of a constant field: one entry, at (m, l) = (0, 0) *)
  Definition onem00 (v : F) (w : Wi) : F := if (Nat.eqb (fst w) 0 && Nat.eqb (snd w) 0)%bool then v else 0.

  Theorem lap_c_const (v : F) w : lap_c g (onem00 v) w = 0.
  Proof.
    destruct w as [a l]. rewrite lap_c_entry. unfold onem00. cbn [fst snd].
    destruct (Nat.eqb_spec a 0) as [->|Na]; cbn [andb]; [|ring].
    destruct (Nat.eqb_spec l 0) as [->|Nl]; [|ring].
    unfold Deriv.lap_eig, laxis. destruct (Nat.ltb 0 (hL g)); cbn [lit]; unfold lap_eig_expr; rewrite fdiv_mul; ring.
  Qed.
End ConcreteLinear.

(** (c) the implicit half: coefficient by coefficient the column operators of Model/Implicit.v *)
Section ImplicitFull.
  Context {F : Type} {o : Ops F} {Fc : FieldC o}.
  Add Field FFpi : (field_c : FieldTh o).
  Hypothesis feqb_sound : forall x y : F, feqb x y = true -> x = y.
  Variable g : @HGrid F.
  Variable c : @PEcfg F.
  Let lam (l : nat) : F := Deriv.lap_eig (hL g) (hr g) l.

  (** implicit_terms_full is Implicit.implicit_terms (dense) on the column of every coefficient *)
  Theorem implicit_terms_full_column (s : @State F) a l :
    col_eq (cK c) (col_of (implicit_terms_full g c s) a l) (Implicit.implicit_terms false c (lam l) (col_of s a l)).
  Proof. repeat split. Qed.

  Theorem implicit_terms_full_linear (al be : F) (x y z : @State F) a l :
    col_eq (cK c) (col_of z a l) (col_lin al (col_of x a l) be (col_of y a l)) ->
    col_eq (cK c) (col_of (implicit_terms_full g c z) a l)
                  (col_lin al (col_of (implicit_terms_full g c x) a l) be (col_of (implicit_terms_full g c y) a l)).
  Proof.
    intros (Hd & Ht & Hp). cbn [col_lin c_div c_temp c_lnps col_of] in Hd, Ht, Hp.
    repeat split; cbn [col_of c_div c_temp c_lnps implicit_terms_full s_div s_temp s_lnps col_lin].
    - intros k Hk.
      unfold div_tendency_implicit. rewrite !lap_c_entry. unfold div_implicit_potential, unc. cbn [fst snd].
      rewrite Hp.
      assert (E : geo_diff false c (fun k0 => s_temp z k0 a l) k
                  = geo_diff false c (fun h => al * s_temp x h a l + be * s_temp y h a l) k).
      { unfold geo_diff, geo_diff_dense. apply sumn_ext. intros k0 Hk0. now rewrite (Ht k0 Hk0). }
      rewrite E, geo_diff_lin. ring.
    - intros k Hk.
      unfold temp_tendency_implicit, temp_implicit_col, temp_implicit_dense, unc. cbn [fst snd].
      rewrite (matvec_ext (cK c) (neg_temp_weights c) (fun s0 => s_div z s0 a l)
                 (fun h => al * s_div x h a l + be * s_div y h a l) k) by (intros h Hh; now apply Hd).
      apply matvec_lin.
    - unfold lnps_implicit_col.
      rewrite (matvec_ext (cK c) (fun _ h => thickness (cb c) h) (fun s0 => s_div z s0 a l)
                 (fun h => al * s_div x h a l + be * s_div y h a l) 0%nat) by (intros h Hh; now apply Hd).
      rewrite matvec_lin. ring.
  Qed.

  (** implicit_inverse_full (state - eta * implicit_terms_full state) = state, given that the table
      handed over for total wavenumber l is a left inverse of the assembled matrix (table obligation) *)
  Theorem implicit_inverse_full_resolvent (eta : F) (invt : nat -> @Mat F) (x : @State F) a l :
    is_left_inverse (2 * cK c + 1) (invt l) (implicit_matrix c eta (lam l)) ->
    thickness (cb c) 0%nat <> 0 -> thickness (cb c) (cK c - 1)%nat <> 0 ->
    col_eq (cK c)
           (col_of (implicit_inverse_full g c eta invt (state_minus_scaled x eta (implicit_terms_full g c x))) a l)
           (col_of x a l) /\
    (forall k, s_vort (implicit_inverse_full g c eta invt (state_minus_scaled x eta (implicit_terms_full g c x))) k a l
               = s_vort x k a l).
  Proof.
    intros Hinv H0 H1. split.
    - pose proof (split_resolvent_gen feqb_sound (fun _ _ => invt l) c eta (lam l) (col_of x a l)
                    (col_of (state_minus_scaled x eta (implicit_terms_full g c x)) a l) false Hinv H0 H1) as E.
      assert (Hy : col_eq (cK c) (col_of (state_minus_scaled x eta (implicit_terms_full g c x)) a l)
                          (col_minus_scaled (col_of x a l) eta (Implicit.implicit_terms false c (lam l) (col_of x a l)))).
      { repeat split. }
      specialize (E Hy). destruct E as (Ed & Et & Ep).
      repeat split; cbn [col_of c_div c_temp c_lnps implicit_inverse_full s_div s_temp s_lnps].
      + intros k Hk. exact (Ed k Hk).
      + intros k Hk. exact (Et k Hk).
      + exact Ep.
    - intros k. cbn [implicit_inverse_full s_vort state_minus_scaled implicit_terms_full]. unfold zero3. ring.
  Qed.
End ImplicitFull.

(** out-of-range behaviour of the concrete operators (used to reduce the "for all coefficients"
    premises of the concrete-operator theorems to the finitely many in-range coefficients) *)
Section OutOfRange.
  Context {F : Type} {o : Ops F} {Fc : FieldC o}.
  Add Field FFpo : (field_c : FieldTh o).
  Variable g : @HGrid F.

  Lemma clip_c_out (x : Wi -> F) a l : (hL g - 1 <= l)%nat -> clip_c g x (a, l) = 0.
  Proof. intros Hl. rewrite clip_c_entry. cbn [snd]. rewrite (ltb_false l (hL g - 1) Hl). ring. Qed.
  Lemma toM_c_out (z : Wi -> F) a l : (hR g <= a)%nat -> toM_c g z (a, l) = 0.
  Proof. intros Ha. unfold toM_c, unc, to_modal. cbn [fst snd]. now apply analysis_out_row. Qed.
  Lemma lap_c_zero (x : Wi -> F) w : x w = 0 -> lap_c g x w = 0.
  Proof. intros H. rewrite lap_c_entry, H. ring. Qed.

  Lemma divc_c_out (x y : Wi -> F) a l :
    (hR g mod 2 = 1)%nat -> (hR g <= a)%nat ->
    (forall a' l', (hR g <= a')%nat -> x (a', l') = 0) -> (forall a' l', (hR g <= a')%nat -> y (a', l') = 0) ->
    divc_c g x y (a, l) = 0.
  Proof.
    intros Hodd Ha Hx Hy. unfold divc_c, unc, divm, div_cos_lat, clip_if, d_dlon. cbn [fst snd].
    rewrite dlon_ref_out by (try assumption; intros; now apply Hx).
    rewrite D2_zero_row by (intros; now apply Hy).
    rewrite fdiv_mul. ring.
  Qed.
  Lemma curlc_c_out (x y : Wi -> F) a l :
    (hR g mod 2 = 1)%nat -> (hR g <= a)%nat ->
    (forall a' l', (hR g <= a')%nat -> x (a', l') = 0) -> (forall a' l', (hR g <= a')%nat -> y (a', l') = 0) ->
    curlc_c g x y (a, l) = 0.
  Proof.
    intros Hodd Ha Hx Hy. unfold curlc_c, unc, curlm, curl_cos_lat, clip_if, d_dlon. cbn [fst snd].
    rewrite dlon_ref_out by (try assumption; intros; now apply Hy).
    rewrite D2_zero_row by (intros; now apply Hx).
    rewrite fdiv_mul. ring.
  Qed.
  Lemma divc_toM_out (z1 z2 : Wi -> F) a l :
    (hR g mod 2 = 1)%nat -> (hR g <= a)%nat -> divc_c g (toM_c g z1) (toM_c g z2) (a, l) = 0.
  Proof. intros Hodd Ha. apply divc_c_out; try assumption; intros; now apply toM_c_out. Qed.
  Lemma curlc_toM_out (z1 z2 : Wi -> F) a l :
    (hR g mod 2 = 1)%nat -> (hR g <= a)%nat -> curlc_c g (toM_c g z1) (toM_c g z2) (a, l) = 0.
  Proof. intros Hodd Ha. apply curlc_c_out; try assumption; intros; now apply toM_c_out. Qed.
  Lemma clip_c_zero (x : Wi -> F) w : x w = 0 -> clip_c g x w = 0.
  Proof. intros H. rewrite clip_c_entry, H. ring. Qed.
End OutOfRange.

(** (d) two EXECUTED states with the same absolute temperature.
    Range-restricted extensionality of the assembled operators; the only use of an axiom is
    [functional_extensionality] to identify two nodal-column RECORDS whose level functions agree pointwise. *)
From Coq Require Import FunctionalExtensionality.

Section Lift.
  Context {F : Type} {o : Ops F} {Fc : FieldC o}.
  Add Field FFpx : (field_c : FieldTh o).

  Lemma ncol_ext (x y : @NCol F) :
    (forall k, n_u x k = n_u y k) -> (forall k, n_v x k = n_v y k) -> (forall k, n_vort x k = n_vort y k) ->
    (forall k, n_div x k = n_div y k) -> (forall k, n_temp x k = n_temp y k) ->
    n_gx x = n_gx y -> n_gy x = n_gy y -> n_sec2 x = n_sec2 y -> n_f x = n_f y -> x = y.
  Proof.
    destruct x, y. cbn. intros Hu Hv Hw Hd Ht -> -> -> ->.
    apply functional_extensionality in Hu. apply functional_extensionality in Hv. apply functional_extensionality in Hw.
    apply functional_extensionality in Hd. apply functional_extensionality in Ht. now subst.
  Qed.

  Lemma synth_zero K L J f p i j : synth K L J f p (fun _ _ => (0 : F)) i j = 0.
  Proof.
    unfold synth, inv_fourier. apply sumn_zero. intros a Ha.
    destruct (Nat.lt_ge_cases j J) as [Hj|Hj].
    - rewrite sh_memo2_ok by assumption. unfold inv_legendre.
      rewrite (sumn_zero L (fun l => p a j l * 0)) by (intros; ring). ring.
    - unfold sh_memo2. rewrite (nth_map_seq (fun a0 => map (inv_legendre L p (fun _ _ => 0) a0) (seq 0 J)) K a []) by assumption.
      rewrite nth_overflow by (rewrite map_length, seq_length; exact Hj). ring.
  Qed.

  Variable g : @HGrid F.
  Let R := hR g.
  Let L := hL g.
  Let I := hI g.
  Let J := hJ g.

  Lemma toM_c_ext_range (z z' : Wi -> F) a l :
    (a < R)%nat -> (forall i j, (i < I)%nat -> (j < J)%nat -> z (i, j) = z' (i, j)) -> toM_c g z (a, l) = toM_c g z' (a, l).
  Proof. intros Ha H. unfold toM_c, unc, to_modal, cur. cbn [fst snd]. apply analysis_ext; assumption. Qed.
  Lemma divc_c_ext_range (x y x' y' : Wi -> F) a l :
    (a < R)%nat -> (l < L)%nat ->
    (forall a l, (a < R)%nat -> (l < L)%nat -> x (a, l) = x' (a, l)) ->
    (forall a l, (a < R)%nat -> (l < L)%nat -> y (a, l) = y' (a, l)) ->
    divc_c g x y (a, l) = divc_c g x' y' (a, l).
  Proof. intros Ha Hl Hx Hy. unfold divc_c, unc. cbn [fst snd]. apply divm_ext_range; assumption. Qed.
  Lemma curlc_c_ext_range (x y x' y' : Wi -> F) a l :
    (a < R)%nat -> (l < L)%nat ->
    (forall a l, (a < R)%nat -> (l < L)%nat -> x (a, l) = x' (a, l)) ->
    (forall a l, (a < R)%nat -> (l < L)%nat -> y (a, l) = y' (a, l)) ->
    curlc_c g x y (a, l) = curlc_c g x' y' (a, l).
  Proof. intros Ha Hl Hx Hy. unfold curlc_c, unc. cbn [fst snd]. apply curlm_ext_range; assumption. Qed.
  Lemma clip_c_ext_pt (x x' : Wi -> F) w : x w = x' w -> clip_c g x w = clip_c g x' w.
  Proof. intros H. now rewrite !clip_c_entry, H. Qed.

  Variable c : @PEcfg F.
  Variable grav : F.

  (** the assembled explicit operators read the nodal columns on the node range only *)
  Section AssemblyExt.
    Variables X X' : Wi -> @NCol F.
    Hypothesis HX : forall i j, (i < I)%nat -> (j < J)%nat -> X (i, j) = X' (i, j).
    Lemma toM_X_ext (f : @NCol F -> F) a l :
      (a < R)%nat -> toM_c g (fun p => f (X p)) (a, l) = toM_c g (fun p => f (X' p)) (a, l).
    Proof. intros Ha. apply toM_c_ext_range; [assumption|]. intros i j Hi Hj. now rewrite (HX i j Hi Hj). Qed.
    Lemma divc_X_ext (f1 f2 : @NCol F -> F) a l :
      (a < R)%nat -> (l < L)%nat ->
      divc_c g (toM_c g (fun p => f1 (X p))) (toM_c g (fun p => f2 (X p))) (a, l)
      = divc_c g (toM_c g (fun p => f1 (X' p))) (toM_c g (fun p => f2 (X' p))) (a, l).
    Proof. intros Ha Hl. apply divc_c_ext_range; try assumption; intros a' l' Ha' _; now apply toM_X_ext. Qed.
    Lemma curlc_X_ext (f1 f2 : @NCol F -> F) a l :
      (a < R)%nat -> (l < L)%nat ->
      curlc_c g (toM_c g (fun p => f1 (X p))) (toM_c g (fun p => f2 (X p))) (a, l)
      = curlc_c g (toM_c g (fun p => f1 (X' p))) (toM_c g (fun p => f2 (X' p))) (a, l).
    Proof. intros Ha Hl. apply curlc_c_ext_range; try assumption; intros a' l' Ha' _; now apply toM_X_ext. Qed.

    Lemma temp_assembly_ext r a l : (a < R)%nat -> (l < L)%nat ->
      temp_tendency_explicit Wi Wi (toM_c g) (divc_c g) (clip_c g) c X r (a, l)
      = temp_tendency_explicit Wi Wi (toM_c g) (divc_c g) (clip_c g) c X' r (a, l).
    Proof.
      intros Ha Hl. unfold temp_tendency_explicit. apply clip_c_ext_pt.
      rewrite (toM_X_ext (fun x => temp_nodal_total c true x r) a l Ha).
      rewrite (divc_X_ext (fun x => hsa_mu x (n_temp x) r) (fun x => hsa_mv x (n_temp x) r) a l Ha Hl).
      reflexivity.
    Qed.
    Lemma div_assembly_ext (orog : Wi -> F) r a l : (a < R)%nat -> (l < L)%nat ->
      div_tendency_explicit Wi Wi (toM_c g) (divc_c g) (lap_c g) (clip_c g) c grav X (fun p => rt_dry c (X p)) orog (fun _ => 0) r (a, l)
      = div_tendency_explicit Wi Wi (toM_c g) (divc_c g) (lap_c g) (clip_c g) c grav X' (fun p => rt_dry c (X' p)) orog (fun _ => 0) r (a, l).
    Proof.
      intros Ha Hl. unfold div_tendency_explicit. apply clip_c_ext_pt.
      rewrite (divc_X_ext (fun x => combined_u c true x (rt_dry c x) r) (fun x => combined_v c true x (rt_dry c x) r) a l Ha Hl).
      rewrite !lap_c_entry, (toM_X_ext (fun x => kinetic x r) a l Ha).
      reflexivity.
    Qed.
    Lemma vort_assembly_ext r a l : (a < R)%nat -> (l < L)%nat ->
      vort_tendency_explicit Wi Wi (toM_c g) (curlc_c g) (clip_c g) c X (fun p => rt_dry c (X p)) (fun _ => 0) r (a, l)
      = vort_tendency_explicit Wi Wi (toM_c g) (curlc_c g) (clip_c g) c X' (fun p => rt_dry c (X' p)) (fun _ => 0) r (a, l).
    Proof.
      intros Ha Hl. unfold vort_tendency_explicit. apply clip_c_ext_pt.
      rewrite (curlc_X_ext (fun x => combined_u c true x (rt_dry c x) r) (fun x => combined_v c true x (rt_dry c x) r) a l Ha Hl).
      reflexivity.
    Qed.
    Lemma lnps_assembly_ext a l : (a < R)%nat -> (l < L)%nat ->
      lnps_tendency_explicit_c g c X (a, l) = lnps_tendency_explicit_c g c X' (a, l).
    Proof.
      intros Ha Hl. unfold lnps_tendency_explicit_c. apply clip_c_ext_pt.
      exact (toM_X_ext (fun x => log_pressure_tendency c x) a l Ha).
    Qed.
  End AssemblyExt.
End Lift.

Section SplitInvariance.
  Context {F : Type} {o : Ops F} {Fc : FieldC o}.
  Add Field FFps : (field_c : FieldTh o).
  Hypothesis two_nz : two <> 0.
  Hypothesis feqb_sound : forall x y : F, feqb x y = true -> x = y.
  Variable g : @HGrid F.
  Variable c : @PEcfg F.
  Hypothesis th2_nz : forall k, (S k < cK c)%nat -> thickness (cb c) k + thickness (cb c) (S k) <> 0.
  Variable grav : F.
  Variable orog : nat -> nat -> F.
  (** two states that share vorticity, divergence, lnps and tracers, with temperature variations temp1, temp2 *)
  Variable s0 : @State F.
  Variables temp1 temp2 : nat -> nat -> nat -> F.
  Variables T1 T2 : nat -> F.
  Variable v00 : F.

  (** absolute temperature: modal (level k) and nodal *)
  Definition Tm_abs (k : nat) (w : Wi) : F := temp1 k (fst w) (snd w) + T1 k * onem00 v00 w.
  Definition T_abs (k : nat) (p : Wi) : F := if Nat.ltb k (cK c) then toN_c g (Tm_abs k) p else T1 k.

  (** table hypothesis: the (0,0)-only spectrum with coefficient v00 is the constant one on the node range *)
  Hypothesis H_one : forall i j, (i < hI g)%nat -> (j < hJ g)%nat -> to_nodal g (cur (onem00 v00)) i j = 1.

  Lemma to_nodal3_guard (x : nat -> nat -> nat -> F) k i j :
    (i < hI g)%nat -> (j < hJ g)%nat ->
    to_nodal3 g (cK c) x k i j = lev_guard (cK c) (fun k => to_nodal g (x k) i j) k.
  Proof.
    intros Hi Hj. unfold to_nodal3, lev_guard. destruct (Nat.ltb_spec k (cK c)).
    - rewrite memo3_ok by assumption. reflexivity.
    - now apply memo3_out_k.
  Qed.

  Lemma node_eq (t : nat -> nat -> nat -> F) (Ti : nat -> F) :
    (forall k a l, (k < cK c)%nat -> (a < hR g)%nat -> (l < hL g)%nat ->
                   t k a l = Tm_abs k (a, l) - Ti k * onem00 v00 (a, l)) ->
    (forall k, (cK c <= k)%nat -> T1 k = Ti k) ->
    forall i j, (i < hI g)%nat -> (j < hJ g)%nat ->
    X_of g (diagnostic_state g (cK c) (with_stemp s0 t)) (i, j) = Xs Wi (X_ideal g (cK c) s0) T_abs Ti (i, j).
  Proof.
    intros Hrel Hb i j Hi Hj.
    apply ncol_ext;
      cbv beta iota zeta delta [Xs with_temp X_of X_ideal diagnostic_state n_u n_v n_vort n_div n_temp n_gx n_gy n_sec2 n_f
                                d_u d_v d_vort d_div d_temp d_gx d_gy with_stemp s_vort s_div s_temp s_lnps fst snd].
    - intros k. now apply to_nodal3_guard.
    - intros k. now apply to_nodal3_guard.
    - intros k. now apply to_nodal3_guard.
    - intros k. rewrite to_nodal3_guard by assumption. unfold lev_guard, dv_of.
      destruct (Nat.ltb k (cK c)); [reflexivity|].
      unfold toN_c, unc, to_nodal, cur. cbn [fst snd]. symmetry. apply synth_zero.
    - intros k. rewrite to_nodal3_guard by assumption. unfold lev_guard, T_abs.
      destruct (Nat.ltb_spec k (cK c)) as [Hk|Hk].
      + unfold toN_c, unc, to_nodal, cur. cbn [fst snd].
        rewrite (synth_ext (hR g) (hL g) (hJ g) (hf g) (hp g) (t k)
                   (fun a l => (- Ti k) * onem00 v00 (a, l) + Tm_abs k (a, l)) i j Hj)
          by (intros a l Ha Hl; rewrite (Hrel k a l Hk Ha Hl); ring).
        rewrite (synth_linear (hR g) (hL g) (hJ g) (hf g) (hp g) (- Ti k) (fun a l => onem00 v00 (a, l))
                   (fun a l => Tm_abs k (a, l)) i j Hj).
        pose proof (H_one i j Hi Hj) as E1. unfold to_nodal, cur in E1. rewrite E1. ring.
      + rewrite (Hb k Hk). ring.
    - now apply sh_memo2_ok.
    - now apply sh_memo2_ok.
    - reflexivity.
    - reflexivity.
  Qed.

  Let X := X_ideal g (cK c) s0.
  Let dv := dv_of (cK c) s0.
  Let lnps := unc (s_lnps s0).
  (** the same absolute temperature, levelwise, on the coefficient range: a shift of the (0,0) coefficient *)
  Hypothesis Htemp : forall k a l, (k < cK c)%nat -> (a < hR g)%nat -> (l < hL g)%nat ->
      temp1 k a l + T1 k * onem00 v00 (a, l) = temp2 k a l + T2 k * onem00 v00 (a, l).
  (** profiles are K-vectors: as index functions they agree beyond the K entries the code has *)
  Hypothesis Hbeyond : forall k, (cK c <= k)%nat -> T1 k = T2 k.
  (** exactness facts about the grid tables, on the (unmaterialised) nodal columns of the shared fields *)
  Hypothesis H_roundtrip : forall s w, clip_c g (toM_c g (toN_c g (dv s))) w = dv s w.
  Hypothesis H_div_vel : forall r w,
      clip_c g (divc_c g (toM_c g (fun p => n_u (X p) r * n_sec2 (X p))) (toM_c g (fun p => n_v (X p) r * n_sec2 (X p)))) w
      = clip_c g (toM_c g (fun p => n_div (X p) r)) w.
  Hypothesis H_div_grad : forall w,
      clip_c g (divc_c g (toM_c g (fun p => n_gx (X p) * n_sec2 (X p))) (toM_c g (fun p => n_gy (X p) * n_sec2 (X p)))) w
      = lap_c g lnps w.
  Hypothesis H_curl_grad : forall w,
      clip_c g (curlc_c g (toM_c g (fun p => n_gx (X p) * n_sec2 (X p))) (toM_c g (fun p => n_gy (X p) * n_sec2 (X p)))) w = 0.

  Let s1 := with_stemp s0 temp1.
  Let s2 := with_stemp s0 temp2.

  Lemma temp1_of_abs k a l : (k < cK c)%nat -> (a < hR g)%nat -> (l < hL g)%nat ->
    temp1 k a l = Tm_abs k (a, l) - T1 k * onem00 v00 (a, l).
  Proof. intros. unfold Tm_abs. cbn [fst snd]. ring. Qed.
  Lemma temp2_of_abs k a l : (k < cK c)%nat -> (a < hR g)%nat -> (l < hL g)%nat ->
    temp2 k a l = Tm_abs k (a, l) - T2 k * onem00 v00 (a, l).
  Proof. intros Hk Ha Hl. unfold Tm_abs. cbn [fst snd]. rewrite (Htemp k a l Hk Ha Hl). ring. Qed.

  (** the implicit halves in the shape of the modal theorems *)
  Lemma temp_implicit_shape (ci : @PEcfg F) (t : nat -> nat -> nat -> F) k a l :
    cK ci = cK c ->
    s_temp (implicit_terms_full g ci (with_stemp s0 t)) k a l = temp_tendency_implicit Wi ci dv k (a, l).
  Proof.
    intros HK. cbn [implicit_terms_full s_temp with_stemp s_div].
    unfold temp_tendency_implicit, temp_implicit_col, temp_implicit_dense. rewrite HK.
    apply matvec_ext. intros h Hh. unfold dv, dv_of, unc. cbn [fst snd].
    destruct (Nat.ltb_spec h (cK c)); [reflexivity|lia].
  Qed.
  Lemma div_implicit_shape (ci : @PEcfg F) (t : nat -> nat -> nat -> F) (Ti : nat -> F) k a l :
    cK ci = cK c -> (a < hR g)%nat -> (l < hL g)%nat ->
    (forall k a l, (k < cK c)%nat -> (a < hR g)%nat -> (l < hL g)%nat ->
                   t k a l = Tm_abs k (a, l) - Ti k * onem00 v00 (a, l)) ->
    s_div (implicit_terms_full g ci (with_stemp s0 t)) k a l
    = div_tendency_implicit Wi (lap_c g) ci (Tms Wi Tm_abs (onem00 v00) Ti) lnps k (a, l).
  Proof.
    intros HK Ha Hl Hrel. cbn [implicit_terms_full s_div with_stemp s_temp s_lnps].
    unfold div_tendency_implicit. rewrite !lap_c_entry. unfold div_implicit_potential, unc. cbn [fst snd].
    f_equal. f_equal. f_equal.
    unfold geo_diff, geo_diff_dense. rewrite HK. apply sumn_ext. intros k0 Hk0.
    unfold Tms. now rewrite (Hrel k0 a l Hk0 Ha Hl).
  Qed.

  Theorem whole_state_split_invariance k a l :
    (k < cK c)%nat -> (a < hR g)%nat -> (l < hL g)%nat ->
    let c1 := with_tref c T1 in let c2 := with_tref c T2 in
    let E1 := explicit_terms_full g c1 grav orog s1 in let I1 := implicit_terms_full g c1 s1 in
    let E2 := explicit_terms_full g c2 grav orog s2 in let I2 := implicit_terms_full g c2 s2 in
    s_vort E1 k a l + s_vort I1 k a l = s_vort E2 k a l + s_vort I2 k a l /\
    s_div E1 k a l + s_div I1 k a l = s_div E2 k a l + s_div I2 k a l /\
    s_temp E1 k a l + s_temp I1 k a l = s_temp E2 k a l + s_temp I2 k a l /\
    s_lnps E1 a l + s_lnps I1 a l = s_lnps E2 a l + s_lnps I2 a l.
  Proof.
    intros Hk Ha Hl. cbv zeta.
    destruct (explicit_terms_full_is_assembly g (with_tref c T1) grav orog s1 k a l Hk Ha Hl) as (Ev1 & Ed1 & Et1 & El1).
    destruct (explicit_terms_full_is_assembly g (with_tref c T2) grav orog s2 k a l Hk Ha Hl) as (Ev2 & Ed2 & Et2 & El2).
    cbv zeta in Ev1, Ed1, Et1, El1, Ev2, Ed2, Et2, El2.
    change (cK (with_tref c T1)) with (cK c) in *. change (cK (with_tref c T2)) with (cK c) in *.
    pose proof (node_eq temp1 T1 temp1_of_abs (fun k _ => eq_refl)) as N1.
    pose proof (node_eq temp2 T2 temp2_of_abs Hbeyond) as N2.
    fold s1 in N1. fold s2 in N2.
    split; [|split; [|split]].
    - rewrite Ev1, Ev2.
      rewrite (vort_assembly_ext g (with_tref c T1) _ _ N1 k a l Ha Hl).
      rewrite (vort_assembly_ext g (with_tref c T2) _ _ N2 k a l Ha Hl).
      cbn [implicit_terms_full s_vort]. apply (f_equal (fun x => x + zero3 k a l)).
      apply vorticity_modal_invariance; auto using toM_c_lin, curlc_c_lin, clip_c_lin.
    - rewrite Ed1, Ed2.
      rewrite (div_assembly_ext g (with_tref c T1) grav _ _ N1 (unc orog) k a l Ha Hl).
      rewrite (div_assembly_ext g (with_tref c T2) grav _ _ N2 (unc orog) k a l Ha Hl).
      unfold s1, s2.
      rewrite (div_implicit_shape (with_tref c T1) temp1 T1 k a l eq_refl Ha Hl temp1_of_abs).
      rewrite (div_implicit_shape (with_tref c T2) temp2 T2 k a l eq_refl Ha Hl temp2_of_abs).
      apply divergence_modal_invariance; auto using toM_c_lin, divc_c_lin, lap_c_lin, clip_c_lin, lap_c_const.
    - rewrite Et1, Et2.
      rewrite (temp_assembly_ext g (with_tref c T1) _ _ N1 k a l Ha Hl).
      rewrite (temp_assembly_ext g (with_tref c T2) _ _ N2 k a l Ha Hl).
      unfold s1, s2.
      rewrite (temp_implicit_shape (with_tref c T1) temp1 k a l eq_refl).
      rewrite (temp_implicit_shape (with_tref c T2) temp2 k a l eq_refl).
      apply temperature_modal_invariance with (toN := toN_c g); auto using toM_c_lin, divc_c_lin, clip_c_lin.
    - rewrite El1, El2.
      rewrite (lnps_assembly_ext g (with_tref c T1) _ _ N1 a l Ha Hl).
      rewrite (lnps_assembly_ext g (with_tref c T2) _ _ N2 a l Ha Hl).
      reflexivity.
  Qed.
End SplitInvariance.

Section ConcreteMoistWhole.
  Context {F : Type} {o : Ops F} {Fc : FieldC o}.
  Variable g : @HGrid F.
  Variable c : @PEcfg F.
  Variable m : @Moist F.
  Variable grav : F.
  Variable orog : nat -> nat -> F.

  (** every coefficient of vorticity, divergence, temperature, lnps of explicit_terms_full_moist is the ModalAssembly
      instance (virtual temperature [rt_full], humidity corrections, moist adiabatic term) at the nodal columns,
      nodal humidity, nodal grad(q) and nodal laplacian(lnps) of the materialised diagnostic arrays *)
  Theorem explicit_terms_full_moist_is_assembly (cloud : bool) (s : @State F) k a l :
    (k < cK c)%nat -> (a < hR g)%nat -> (l < hL g)%nat ->
    let d := diagnostic_state g (cK c) s in
    let md := moist_diag g (cK c) s in
    let X := X_of g d in
    let rt := rt_full g cloud c m d in
    let q := trn d 0 in
    let gqx := gq_of (m_gqx md) in let gqy := gq_of (m_gqy md) in
    let lapn := fun p : Wi => m_lap md (fst p) (snd p) in
    let E := explicit_terms_full_moist g cloud c m grav orog s in
    s_vort E k a l
    = vort_tendency_explicit Wi Wi (toM_c g) (curlc_c g) (clip_c g) c X rt
                             (fun w' => humidity_curl_modal Wi Wi (toM_c g) c m X gqx gqy k w') k (a, l) /\
    s_div E k a l
    = div_tendency_explicit Wi Wi (toM_c g) (divc_c g) (lap_c g) (clip_c g) c grav X rt (unc orog)
                            (fun w' => humidity_div_modal Wi Wi (toM_c g) (lap_c g) c m X q gqx gqy lapn k w') k (a, l) /\
    s_temp E k a l = temp_tendency_explicit_moist Wi Wi (toM_c g) (divc_c g) (clip_c g) c m X q k (a, l) /\
    s_lnps E a l = lnps_tendency_explicit_c g c X (a, l).
  Proof.
    intros Hk Ha Hl. cbv zeta. unfold explicit_terms_full_moist, explicit_terms_of_diag_moist. cbv zeta.
    cbn [s_vort s_div s_temp s_lnps].
    rewrite !(nth_map_seq (explicit_level_moist g cloud c m grav orog (diagnostic_state g (cK c) s) (moist_diag g (cK c) s))
                (cK c) k (lev0 (F := F)) Hk).
    unfold explicit_level_moist. cbv zeta. cbn [l_vort l_div l_temp].
    rewrite !sh_memo2_ok by assumption.
    set (X := X_of g (diagnostic_state g (cK c) s)). set (rt := rt_full g cloud c m (diagnostic_state g (cK c) s)).
    set (q := trn (diagnostic_state g (cK c) s) 0).
    set (gqx := gq_of (m_gqx (moist_diag g (cK c) s))). set (gqy := gq_of (m_gqy (moist_diag g (cK c) s))).
    split; [|split; [|split]].
    - exact (vort_of_h_is_assembly g (fun p => combined_u c true (X p) (rt p) k) (fun p => combined_v c true (X p) (rt p) k)
               _ (humidity_curl_modal Wi Wi (toM_c g) c m X gqx gqy k) a l Ha Hl (tm_ok g _ a l Ha Hl)).
    - exact (div_of_h_is_assembly g grav orog (fun p => combined_u c true (X p) (rt p) k)
               (fun p => combined_v c true (X p) (rt p) k) (fun p => kinetic (X p) k) _ _ a l Ha Hl
               (hum_div_of_is_assembly g (fun p => humidity_geo_nodal c false m (X p) (q p) k)
                  (fun p => humidity_div_nodal c m (X p) (q p) (gqx p) (gqy p) (m_lap (moist_diag g (cK c) s) (fst p) (snd p)) k)
                  a l Ha Hl)).
    - exact (scalar_of_is_assembly g (fun p => temp_nodal_total_moist c true m (X p) (q p) k)
               (fun p => hsa_mu (X p) (n_temp (X p)) k) (fun p => hsa_mv (X p) (n_temp (X p)) k) a l Ha Hl).
    - apply lnps_explicit_is_assembly; assumption.
  Qed.
End ConcreteMoistWhole.
