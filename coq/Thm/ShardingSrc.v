(** Link between the hand-written model (Model/Sharding.v) and the terms that
    tools/translate/gen_sharding.py regenerates from dinosaur/jax_numpy_utils.py
    on every run (Gen/ShardingSrc.v): chunk indices, operand offsets,
    permutations, loop bounds, guards, comparison operators and index ranges of
    the source are the ones the theorems of Thm/Sharding.v are about - for EVERY
    axis size, not only the <= 8 devices the correspondence can exercise. *)
From Dino Require Import Base.Ops Base.Sums Model.Sigma Model.Sharding Gen.ShardingSrc.

Section SourceLink.
  Lemma eqb1_Z n b : b = (Z.of_nat n =? 1)%Z -> Nat.eqb n 1 = b.
  Proof.
    intros ->. destruct (Nat.eqb_spec n 1), (Z.eqb_spec (Z.of_nat n) 1); try reflexivity; lia.
  Qed.

  Lemma odd_Z n b : b = negb (Z.of_nat n mod 2 =? 0)%Z -> Nat.eqb (n mod 2) 1 = b.
  Proof.
    intros ->. change 2%Z with (Z.of_nat 2). rewrite <- Nat2Z.inj_mod.
    pose proof (Nat.mod_upper_bound n 2 ltac:(lia)).
    destruct (Nat.eqb_spec (n mod 2) 1), (Z.eqb_spec (Z.of_nat (n mod 2)) 0); cbn; try reflexivity; lia.
  Qed.

  Theorem allgather_matches_source :
    src_complete = true /\
    (forall n, Nat.eqb n 1 = src_ag_trivial (Z.of_nat n) /\ Nat.eqb (n mod 2) 1 = src_ag_reject (Z.of_nat n)) /\
    (forall n d i, ag_chunk_index n d i = Z.to_nat (src_ag_chunk_index (Z.of_nat n) (Z.of_nat d) i)) /\
    (forall q c j : nat, Z.of_nat (q * c + j) = (src_ag_slice_start (Z.of_nat q) (Z.of_nat c) + Z.of_nat j)%Z) /\
    (forall i : Z, src_ag_fwd_arg i = (- i)%Z /\ src_ag_bwd_arg i = (i + 1)%Z) /\
    (forall n j, perm_fwd n j = Z.to_nat (src_ag_perm_fwd (Z.of_nat n) (Z.of_nat j)) /\
                 perm_bwd n j = Z.to_nat (src_ag_perm_bwd (Z.of_nat n) (Z.of_nat j))) /\
    src_ag_init_arg = 0%Z /\
    (forall n, Z.of_nat 1 = src_ag_loop_lo (Z.of_nat n) /\ Z.of_nat (n / 2) = src_ag_loop_hi (Z.of_nat n)).
  Proof.
    repeat apply conj.
    - reflexivity.
    - intros n. split; [apply eqb1_Z|apply odd_Z]; reflexivity.
    - reflexivity.
    - intros q c j. unfold src_ag_slice_start. lia.
    - split; reflexivity.
    - split; reflexivity.
    - reflexivity.
    - intros n. split; [reflexivity|]. exact (Nat2Z.inj_div n 2).
  Qed.

  Theorem reducescatter_matches_source :
    src_complete = true /\
    (forall n, Nat.eqb n 1 = src_rs_trivial (Z.of_nat n) /\ Nat.eqb (n mod 2) 1 = src_rs_reject (Z.of_nat n)) /\
    (forall n d i, rs_chunk_index n d i = Z.to_nat (src_rs_chunk_index (Z.of_nat n) (Z.of_nat d) i)) /\
    (forall q c j : nat, Z.of_nat (q * c + j) = (src_rs_slice_start (Z.of_nat q) (Z.of_nat c) + Z.of_nat j)%Z) /\
    (forall i : Z, src_rs_fwd_arg i = (- i)%Z /\ src_rs_bwd_arg i = (i + 1)%Z) /\
    (forall n j, perm_fwd n j = Z.to_nat (src_rs_perm_fwd (Z.of_nat n) (Z.of_nat j)) /\
                 perm_bwd n j = Z.to_nat (src_rs_perm_bwd (Z.of_nat n) (Z.of_nat j))) /\
    (src_rs_init_fwd_arg = 0%Z /\ src_rs_init_bwd_arg = 1%Z) /\
    (forall n, Z.of_nat 1 = src_rs_loop_lo (Z.of_nat n) /\ Z.of_nat (n / 2) = src_rs_loop_hi (Z.of_nat n)).
  Proof.
    repeat apply conj.
    - reflexivity.
    - intros n. split; [apply eqb1_Z|apply odd_Z]; reflexivity.
    - intros n d i. unfold rs_chunk_index, src_rs_chunk_index. now rewrite Nat2Z.inj_div.
    - intros q c j. unfold src_rs_slice_start. lia.
    - split; reflexivity.
    - split; reflexivity.
    - reflexivity.
    - reflexivity.
    - intros n. split; [reflexivity|]. exact (Nat2Z.inj_div n 2).
  Qed.

  Theorem cumsum_matches_source :
    src_complete = true /\
    (forall rv i d, pc_op rv i d = src_pc_op rv (Z.of_nat i) (Z.of_nat d)) /\
    (forall rv n k, (0 < n)%nat ->
       Z.of_nat (pc_index rv k) = (src_pc_range_lo rv (Z.of_nat n) + Z.of_nat k)%Z /\
       Z.of_nat (n - 1) = (src_pc_range_hi rv (Z.of_nat n) - src_pc_range_lo rv (Z.of_nat n))%Z) /\
    (forall rv, src_pc_last_index rv = if rv then 0%Z else (-1)%Z).
  Proof.
    repeat apply conj.
    - reflexivity.
    - intros rv i d. unfold pc_op, src_pc_op. destruct rv.
      + destruct (Nat.ltb_spec d i), (Z.gtb_spec (Z.of_nat i) (Z.of_nat d)); try reflexivity; lia.
      + destruct (Nat.ltb_spec i d), (Z.ltb_spec (Z.of_nat i) (Z.of_nat d)); try reflexivity; lia.
    - intros rv n k Hn. unfold pc_index, src_pc_range_lo, src_pc_range_hi. destruct rv; split; lia.
    - reflexivity.
  Qed.
End SourceLink.
