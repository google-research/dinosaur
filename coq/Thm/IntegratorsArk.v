(** C06: the low-storage 2N + Crank-Nicolson step function is the additive
    Runge-Kutta step of its Butcher form ([lowstorage_to_butcher]); reductions of the
    additive RK step (hence of the imex interpreter) to explicit RK / DIRK; the step
    functions commute with homomorphisms of modules.
    Generic: any field of scalars, any module, arbitrary F and G. *)
From Dino Require Import Base.Ops Base.Sums Model.Integrators.
From Coq Require Import Lia.
Local Open Scope F_scope.

Class ModuleC {F V : Type} (o : Ops F) (vo : VOps F V) : Prop := {
  vadd_comm : forall x y : V, vadd x y = vadd y x;
  vadd_assoc : forall x y z : V, vadd (vadd x y) z = vadd x (vadd y z);
  vadd_0_r : forall x : V, vadd x vzero = x;
  vscal_add_r : forall (c : F) (x y : V), vscal c (vadd x y) = vadd (vscal c x) (vscal c y);
  vscal_add_l : forall (a b : F) (x : V), vscal (a + b) x = vadd (vscal a x) (vscal b x);
  vscal_mul : forall (a b : F) (x : V), vscal (a * b) x = vscal a (vscal b x);
  vscal_1 : forall x : V, vscal 1 x = x;
  vscal_0_l : forall x : V, vscal 0 x = vzero }.

Section Module.
  Context {F : Type} {o : Ops F} {Fc : FieldC o} {V : Type} {vo : VOps F V} {Mc : ModuleC o vo}.
  Add Field FFm : (field_c : FieldTh o).

  Lemma vscal_0_r (c : F) : vscal c (vzero : V) = vzero.
  Proof.
    rewrite <- (vscal_0_l (vzero : V)) at 1. rewrite <- vscal_mul.
    replace (c * 0) with (0 : F) by ring. apply vscal_0_l.
  Qed.
  Lemma vadd_0_l (x : V) : vadd vzero x = x.
  Proof. rewrite vadd_comm. apply vadd_0_r. Qed.

  (** equalities between linear combinations of atoms, decided by comparing coefficients *)
  Inductive mexp : Type :=
  | MAtom (n : nat) | MAdd (a b : mexp) | MScal (c : F) (a : mexp) | MZero.
  Fixpoint meval (env : nat -> V) (e : mexp) : V :=
    match e with
    | MAtom n => env n
    | MAdd a b => vadd (meval env a) (meval env b)
    | MScal c a => vscal c (meval env a)
    | MZero => vzero
    end.
  Fixpoint mcoef (e : mexp) (n : nat) : F :=
    match e with
    | MAtom m => if Nat.eqb m n then 1 else 0
    | MAdd a b => mcoef a n + mcoef b n
    | MScal c a => c * mcoef a n
    | MZero => 0
    end.
  Fixpoint mbound (e : mexp) (N : nat) : bool :=
    match e with
    | MAtom m => Nat.ltb m N
    | MAdd a b => mbound a N && mbound b N
    | MScal _ a => mbound a N
    | MZero => true
    end.
  Fixpoint msum (N : nat) (f : nat -> V) : V :=
    match N with O => vzero | S k => vadd (msum k f) (f k) end.

  Lemma msum_ext N (f g : nat -> V) : (forall n, (n < N)%nat -> f n = g n) -> msum N f = msum N g.
  Proof. induction N as [|N IH]; intros H; cbn; [reflexivity|]. rewrite IH, H; auto. Qed.
  Lemma msum_add N (f g : nat -> V) :
    msum N (fun n => vadd (f n) (g n)) = vadd (msum N f) (msum N g).
  Proof.
    induction N as [|N IH]; cbn; [now rewrite vadd_0_r|]. rewrite IH.
    rewrite !vadd_assoc. f_equal. rewrite <- !vadd_assoc. f_equal. apply vadd_comm.
  Qed.
  Lemma msum_scal N c (f : nat -> V) : msum N (fun n => vscal c (f n)) = vscal c (msum N f).
  Proof. induction N as [|N IH]; cbn; [now rewrite vscal_0_r|]. now rewrite IH, vscal_add_r. Qed.
  Lemma msum_zero N (f : nat -> V) : (forall n, (n < N)%nat -> f n = vzero) -> msum N f = vzero.
  Proof. induction N as [|N IH]; intros H; cbn; [reflexivity|]. rewrite IH, H, ?vadd_0_r; auto. Qed.
  Lemma msum_delta N m (env : nat -> V) : (m < N)%nat ->
    msum N (fun n => vscal (if Nat.eqb m n then 1 else 0) (env n)) = env m.
  Proof.
    induction N as [|N IH]; intros Hm; [lia|]. cbn.
    destruct (Nat.eq_dec m N) as [->|Hne].
    - rewrite Nat.eqb_refl, vscal_1, msum_zero, vadd_0_l; [reflexivity|].
      intros n Hn. destruct (Nat.eqb_spec N n); [lia|apply vscal_0_l].
    - rewrite IH by lia. destruct (Nat.eqb_spec m N); [lia|]. now rewrite vscal_0_l, vadd_0_r.
  Qed.

  Lemma meval_sum env e N : mbound e N = true ->
    meval env e = msum N (fun n => vscal (mcoef e n) (env n)).
  Proof.
    induction e as [m|a IHa b IHb|c a IHa|]; cbn [meval mcoef mbound]; intros Hb.
    - apply Nat.ltb_lt in Hb. now rewrite msum_delta.
    - apply andb_prop in Hb. destruct Hb as [Ha Hb]. rewrite IHa, IHb by assumption.
      rewrite <- msum_add. apply msum_ext. intros n _. now rewrite vscal_add_l.
    - rewrite IHa by assumption. rewrite <- msum_scal. apply msum_ext. intros n _. now rewrite vscal_mul.
    - symmetry. apply msum_zero. intros n _. apply vscal_0_l.
  Qed.

  Theorem module_eq env e1 e2 N : mbound e1 N = true -> mbound e2 N = true ->
    (forall n, (n < N)%nat -> mcoef e1 n = mcoef e2 n) -> meval env e1 = meval env e2.
  Proof.
    intros H1 H2 H. rewrite (meval_sum env e1 N H1), (meval_sum env e2 N H2).
    apply msum_ext. intros n Hn. now rewrite H.
  Qed.
End Module.

Ltac find_atom x atoms n :=
  match atoms with
  | ?h :: _ => let _ := match goal with _ => constr_eq h x end in constr:(n)
  | _ :: ?t => find_atom x t (S n)
  end.
Ltac reify_m F atoms t :=
  match t with
  | vadd ?a ?b => let ra := reify_m F atoms a in let rb := reify_m F atoms b in constr:(@MAdd F ra rb)
  | vscal ?c ?a => let ra := reify_m F atoms a in constr:(@MScal F c ra)
  | vzero => constr:(@MZero F)
  | _ => let n := find_atom t atoms O in constr:(@MAtom F n)
  end.
(** [module_eq_tac atoms]: the goal [a = b] between module expressions over the listed atoms. *)
Ltac module_eq_tac atoms :=
  match goal with
  | |- @eq ?V ?a ?b =>
      let inst := constr:(_ : VOps _ V) in
      match type of inst with
      | VOps ?F _ =>
          let ra := reify_m F atoms a in
          let rb := reify_m F atoms b in
          change (meval (fun n => nth n atoms vzero) ra = meval (fun n => nth n atoms vzero) rb);
          apply (module_eq _ _ _ (length atoms)); [reflexivity|reflexivity|];
          let n := fresh "n" in let Hn := fresh "Hn" in
          intros n Hn; cbn [length] in Hn;
          repeat (first [ lia | destruct n as [|n]; [cbn [mcoef Nat.eqb]; ring|] ])
      end
  end.
Tactic Notation "module_eq" constr(atoms) := module_eq_tac atoms.

Section Wsum.
  Context {F : Type} {o : Ops F} {Fc : FieldC o} {V : Type} {vo : VOps F V} {Mc : ModuleC o vo}.
  Add Field FFw : (field_c : FieldTh o).

  Lemma wsum_acc : forall cs (xs : list V) acc, wsum cs xs acc = vadd acc (wsum cs xs vzero).
  Proof.
    induction cs as [|c cs IH]; intros xs acc.
    - destruct xs; cbn; now rewrite vadd_0_r.
    - destruct xs as [|x xs]; cbn [wsum]; [now rewrite vadd_0_r|].
      rewrite (IH xs (vadd acc (vscal c x))), (IH xs (vadd vzero (vscal c x))).
      set (W := wsum cs xs vzero). module_eq [acc; x; W].
  Qed.

  Lemma wsum_snoc : forall cs (xs : list V) c x acc, length cs = length xs ->
    wsum (cs ++ [c]) (xs ++ [x]) acc = vadd (wsum cs xs acc) (vscal c x).
  Proof.
    induction cs as [|c0 cs IH]; intros xs c x acc Hl; destruct xs as [|x0 xs]; cbn in Hl; try discriminate.
    - reflexivity.
    - cbn [app wsum]. apply IH. lia.
  Qed.

  Lemma wsum_trunc : forall cs extra (xs : list V) acc, length cs = length xs ->
    wsum (cs ++ extra) xs acc = wsum cs xs acc.
  Proof.
    induction cs as [|c0 cs IH]; intros extra xs acc Hl; destruct xs as [|x0 xs]; cbn in Hl; try discriminate.
    - destruct extra; reflexivity.
    - cbn [app wsum]. apply IH. lia.
  Qed.

  Lemma wsum_map_scal_acc b : forall cs (xs : list V) acc,
    wsum (map (fmul b) cs) xs (vscal b acc) = vscal b (wsum cs xs acc).
  Proof.
    induction cs as [|c cs IH]; intros xs acc; [reflexivity|].
    destruct xs as [|x xs]; [reflexivity|]. cbn [map wsum].
    replace (vadd (vscal b acc) (vscal (b * c) x)) with (vscal b (vadd acc (vscal c x)))
      by (module_eq [acc; x]).
    apply IH.
  Qed.
  Lemma wsum_map_scal b cs (xs : list V) :
    wsum (map (fmul b) cs) xs vzero = vscal b (wsum cs xs vzero).
  Proof. rewrite <- wsum_map_scal_acc. now rewrite vscal_0_r. Qed.

  Lemma wsum_ladd_acc : forall c1 c2 (xs : list V) a1 a2, length c1 = length c2 ->
    wsum (ladd c1 c2) xs (vadd a1 a2) = vadd (wsum c1 xs a1) (wsum c2 xs a2).
  Proof.
    induction c1 as [|c c1 IH]; intros c2 xs a1 a2 Hl; destruct c2 as [|d c2]; cbn in Hl; try discriminate.
    - reflexivity.
    - destruct xs as [|x xs]; [reflexivity|]. unfold ladd. cbn [combine map fst snd wsum].
      replace (vadd (vadd a1 a2) (vscal (c + d) x)) with (vadd (vadd a1 (vscal c x)) (vadd a2 (vscal d x)))
        by (module_eq [a1; a2; x]).
      apply (IH c2 xs). lia.
  Qed.
  Lemma wsum_ladd c1 c2 (xs : list V) : length c1 = length c2 ->
    wsum (ladd c1 c2) xs vzero = vadd (wsum c1 xs vzero) (wsum c2 xs vzero).
  Proof. intros H. rewrite <- (wsum_ladd_acc c1 c2 xs vzero vzero H). now rewrite vadd_0_r. Qed.

  Lemma ladd_length (c1 c2 : list F) : length c1 = length c2 -> length (ladd c1 c2) = length c1.
  Proof. intros H. unfold ladd. rewrite map_length, combine_length, H. apply Nat.min_id. Qed.
  Lemma last_cons {A} (x : A) l d : last (x :: l) d = last l x.
  Proof.
    revert x d. induction l as [|y l IH]; intros x d; [reflexivity|].
    change (last (x :: y :: l) d) with (last (y :: l) d). now rewrite (IH y d), (IH y x).
  Qed.
End Wsum.

Section LsArk.
  Context {F : Type} {o : Ops F} {Fc : FieldC o} {V : Type} {vo : VOps F V} {Mc : ModuleC o vo}.
  Add Field FFl : (field_c : FieldTh o).
  Variable Fx G : V -> V.
  Variable Ginv : V -> F -> V.
  (** y = G_inv(x, eta) solves y = x + eta G(y), i.e. (1 - eta G) y = x *)
  Hypothesis Ginv_solves : forall x eta, Ginv x eta = vadd x (vscal eta (G (Ginv x eta))).
  Variable dt : F.
  Variable y0 : V.

  Lemma ls2b_acc : forall be ga al hc ue uprev ulast AE AI,
    ls2b_loop al be ga hc ue uprev ulast AE AI =
    (AE ++ fst (ls2b_loop al be ga hc ue uprev ulast [] []),
     AI ++ snd (ls2b_loop al be ga hc ue uprev ulast [] [])).
  Proof.
    induction be as [|b be IH]; intros ga al hc ue uprev ulast AE AI.
    - cbn. now rewrite !app_nil_r.
    - destruct ga as [|g ga]; [cbn; now rewrite !app_nil_r|].
      destruct al as [|a0 [|a1 al]]; try (cbn; now rewrite !app_nil_r).
      cbn [ls2b_loop]. cbv zeta.
      rewrite IH. rewrite (IH _ _ _ _ _ _ ([] ++ _) ([] ++ _)). cbn [fst snd app].
      now rewrite <- !app_assoc.
  Qed.

  (** the additive-RK value of the state reached after the stages run so far *)
  Definition lin (ue ui : list F) (fs gs : list V) : V :=
    vadd (vadd y0 (vscal dt (wsum ue fs vzero))) (vscal dt (wsum ui gs vzero)).

  Lemma ls_ark_base ue uprev ulast fsp gsp u :
    length ue = length fsp ->
    u = lin ue (uprev ++ [ulast]) fsp (gsp ++ [G u]) ->
    u = lin (ue ++ [0]) (uprev ++ [ulast]) (fsp ++ [Fx u]) (gsp ++ [G u]).
  Proof.
    intros Hl Hu. etransitivity; [exact Hu|]. unfold lin.
    rewrite (wsum_snoc ue fsp 0 (Fx u) vzero Hl).
    set (W1 := wsum ue fsp vzero). set (W3 := wsum (uprev ++ [ulast]) (gsp ++ [G u]) vzero).
    set (f := Fx u). module_eq [y0; W1; W3; f].
  Qed.

  Lemma ls_ark_loop : forall be ga al hc ue uprev ulast fsp gsp h u,
    length hc = length fsp -> length ue = length fsp -> length uprev = length fsp ->
    length gsp = length fsp ->
    h = wsum hc fsp vzero ->
    u = lin ue (uprev ++ [ulast]) fsp (gsp ++ [G u]) ->
    let rows := ls2b_loop al be ga hc ue uprev ulast [] [] in
    let st := ark_stages Fx G Ginv dt y0 (S (length fsp)) (fst rows) (snd rows)
                (fsp ++ [Fx u]) (gsp ++ [G u]) in
    ls_loop Fx G Ginv dt al be ga h u =
    lin (last (fst rows) ue ++ [0]) (last (snd rows) (uprev ++ [ulast])) (fst st) (snd st).
  Proof.
    induction be as [|b be IH]; intros ga al hc ue uprev ulast fsp gsp h u Lh Lu Lp Lg Hh Hu.
    - cbn. now apply ls_ark_base.
    - destruct ga as [|g ga]; [cbn; now apply ls_ark_base|].
      destruct al as [|a0 [|a1 al]]; try (cbn; now apply ls_ark_base).
      cbn [ls_loop ls2b_loop]. cbv zeta. rewrite ls2b_acc. cbn [app fst snd ark_stages]. cbv zeta.
      set (hc' := map (fmul b) hc ++ [1]).
      set (ue' := ladd (ue ++ [0]) (map (fmul g) hc')).
      set (mu' := half * (a1 - a0)).
      set (uprev' := uprev ++ [ulast + mu']).
      set (mu := half * dt * (a1 - a0)).
      set (f := Fx u). set (Gu := G u).
      set (h' := vadd f (vscal b h)).
      assert (Lhc' : length hc' = S (length fsp)) by (unfold hc'; rewrite app_length, map_length; cbn; lia).
      assert (Lue' : length ue' = S (length fsp)).
      { unfold ue'. rewrite ladd_length; rewrite ?app_length, ?map_length; cbn; lia. }
      assert (Lup' : length uprev' = S (length fsp)) by (unfold uprev'; rewrite app_length; cbn; lia).
      assert (Lfs' : length (fsp ++ [f]) = S (length fsp)) by (rewrite app_length; cbn; lia).
      assert (Lgs' : length (gsp ++ [Gu]) = S (length fsp)) by (rewrite app_length; cbn; lia).
      (* the register [h] stays the [hc]-weighted sum of the explicit stage values *)
      assert (Hh' : h' = wsum hc' (fsp ++ [f]) vzero).
      { unfold hc'. rewrite wsum_snoc by (rewrite map_length; lia). rewrite wsum_map_scal, <- Hh.
        unfold h'. module_eq [f; h]. }
      (* sums over the new rows *)
      set (W1 := wsum ue fsp vzero) in *. set (W2 := wsum uprev gsp vzero) in *.
      assert (Eu : u = vadd (vadd y0 (vscal dt W1)) (vscal dt (vadd W2 (vscal ulast Gu)))).
      { etransitivity; [exact Hu|]. unfold lin. rewrite wsum_snoc by lia. reflexivity. }
      assert (EE : wsum ue' (fsp ++ [f]) vzero = vadd (vadd W1 (vscal 0 f)) (vscal g h')).
      { unfold ue'. rewrite wsum_ladd by (rewrite !app_length, map_length; cbn; lia).
        rewrite wsum_snoc by lia. rewrite wsum_map_scal, <- Hh'. reflexivity. }
      assert (EI : wsum uprev' (gsp ++ [Gu]) vzero = vadd W2 (vscal (ulast + mu') Gu)).
      { unfold uprev'. rewrite wsum_snoc by lia. reflexivity. }
      (* the stage argument and the step size of the implicit solve agree *)
      assert (Earg : vadd (vadd y0 (vscal dt (wsum ue' (fsp ++ [f]) vzero)))
                          (vscal dt (wsum (uprev' ++ [mu']) (gsp ++ [Gu]) vzero))
                     = vadd (vadd u (vscal (g * dt) h')) (vscal mu Gu)).
      { rewrite wsum_trunc by lia. rewrite EE, EI. rewrite Eu at 1.
        unfold mu, mu'. module_eq [y0; W1; W2; Gu; h'; f]. }
      assert (Eeta : dt * nth (S (length fsp)) (uprev' ++ [mu']) 0 = mu).
      { rewrite app_nth2 by lia. rewrite Lup', Nat.sub_diag. cbn [nth]. unfold mu, mu'. ring. }
      rewrite Earg, Eeta.
      set (u' := Ginv (vadd (vadd u (vscal (g * dt) h')) (vscal mu Gu)) mu).
      rewrite !last_cons.
      (* invariant for the next stage *)
      assert (Hu' : u' = lin ue' (uprev' ++ [mu']) (fsp ++ [f]) ((gsp ++ [Gu]) ++ [G u'])).
      { unfold lin. rewrite (wsum_snoc uprev' (gsp ++ [Gu]) mu' (G u') vzero) by lia. rewrite EE, EI.
        unfold u' at 1. rewrite Ginv_solves. fold u'. rewrite Eu at 1.
        set (Gu' := G u'). unfold mu, mu'. module_eq [y0; W1; W2; Gu; h'; f; Gu']. }
      pose proof (IH ga (a1 :: al) hc' ue' uprev' mu' (fsp ++ [f]) (gsp ++ [Gu]) h' u'
                    ltac:(lia) ltac:(lia) ltac:(lia) ltac:(lia) Hh' Hu') as H.
      cbv zeta in H. rewrite Lfs' in H. exact H.
  Qed.

  (** The low-storage step equals the additive Runge-Kutta step with the Butcher
      arrays of [lowstorage_to_butcher]: every list of coefficients (any lengths). *)
  Theorem lowstorage_is_ark al be ga :
    ls_step Fx G Ginv dt al be ga y0 =
    (let '(ae, ai, bex, bim) := lowstorage_to_butcher al be ga in
     ark_step Fx G Ginv dt ae ai bex bim y0).
  Proof.
    unfold ls_step, lowstorage_to_butcher.
    assert (Hu0 : y0 = lin [] ([] ++ [0]) [] ([] ++ [G y0])).
    { unfold lin. cbn [app wsum]. set (g0 := G y0). module_eq [y0; g0]. }
    pose proof (ls_ark_loop be ga al [] [] [] 0 [] [] vzero y0 eq_refl eq_refl eq_refl eq_refl eq_refl Hu0) as H.
    cbv zeta in H. cbn [length app] in H.
    destruct be as [|b be]; [cbn; set (f0 := Fx y0); module_eq [y0; f0]|].
    destruct ga as [|g ga]; [cbn; set (f0 := Fx y0); module_eq [y0; f0]|].
    destruct al as [|a0 [|a1 al]]; try (cbn; set (f0 := Fx y0); module_eq [y0; f0]).
    remember (ls2b_loop (a0 :: a1 :: al) (b :: be) (g :: ga) [] [] [] 0 [] []) as rows eqn:E in *.
    assert (exists rE0 tE rI0 tI, rows = (rE0 :: tE, rI0 :: tI)) as (rE0 & tE & rI0 & tI & ER).
    { subst rows. cbn [ls2b_loop]. cbv zeta. rewrite ls2b_acc. cbn [app]. do 4 eexists. reflexivity. }
    rewrite H. clear H E. rewrite ER. cbn [fst snd]. rewrite !last_cons. unfold ark_step, lin.
    destruct (ark_stages Fx G Ginv dt y0 1 (rE0 :: tE) (rI0 :: tI) [Fx y0] [G y0]) as [fsA gsA].
    reflexivity.
  Qed.

  (** the two directly coded schemes and their hand-derived Butcher forms *)
  Theorem euler_is_ark :
    euler_step Fx Ginv dt y0 =
    (let '(ae, ai, bex, bim) := @euler_tableau F o in ark_step Fx G Ginv dt ae ai bex bim y0).
  Proof.
    unfold euler_step, euler_tableau, ark_step. cbn [ark_stages wsum nth app]. cbv zeta.
    set (f0 := Fx y0). set (g0 := G y0).
    replace (vadd (vadd y0 (vscal dt (vadd vzero (vscal 1 f0)))) (vscal dt (vadd vzero (vscal 0 g0))))
      with (vadd y0 (vscal dt f0)) by (module_eq [y0; f0; g0]).
    replace (dt * 1) with dt by ring.
    set (Y := Ginv (vadd y0 (vscal dt f0)) dt).
    assert (HY : Y = vadd (vadd y0 (vscal dt f0)) (vscal dt (G Y))) by (unfold Y at 1; apply Ginv_solves).
    set (f1 := Fx Y). set (g1 := G Y) in *.
    etransitivity; [exact HY|]. module_eq [y0; f0; g0; f1; g1].
  Qed.

  Theorem cn_rk2_is_ark :
    cn_rk2_step Fx G Ginv dt y0 =
    (let '(ae, ai, bex, bim) := @cn_rk2_tableau F o in ark_step Fx G Ginv dt ae ai bex bim y0).
  Proof.
    unfold cn_rk2_step, cn_rk2_tableau, ark_step. cbn [ark_stages wsum nth app]. cbv zeta.
    set (f0 := Fx y0). set (g0 := G y0). set (hf := @half F o).
    replace (dt * hf) with (hf * dt) by ring.
    replace (vadd (vadd y0 (vscal dt (vadd vzero (vscal 1 f0)))) (vscal dt (vadd vzero (vscal hf g0))))
      with (vadd (vadd y0 (vscal (hf * dt) g0)) (vscal dt f0)) by (module_eq [y0; f0; g0]).
    set (Y1 := Ginv (vadd (vadd y0 (vscal (hf * dt) g0)) (vscal dt f0)) (hf * dt)).
    set (f1 := Fx Y1). set (g1 := G Y1).
    replace (vadd (vadd y0 (vscal dt (vadd (vadd vzero (vscal hf f0)) (vscal hf f1))))
                  (vscal dt (vadd (vadd vzero (vscal hf g0)) (vscal 0 g1))))
      with (vadd (vadd y0 (vscal (hf * dt) g0)) (vscal dt (vscal hf (vadd f1 f0))))
      by (module_eq [y0; f0; g0; f1; g1]).
    set (Y2 := Ginv (vadd (vadd y0 (vscal (hf * dt) g0)) (vscal dt (vscal hf (vadd f1 f0)))) (hf * dt)).
    assert (HY : Y2 = vadd (vadd (vadd y0 (vscal (hf * dt) g0)) (vscal dt (vscal hf (vadd f1 f0))))
                           (vscal (hf * dt) (G Y2))) by (unfold Y2 at 1; apply Ginv_solves).
    set (f2 := Fx Y2). set (g2 := G Y2) in *.
    etransitivity; [exact HY|]. module_eq [y0; f0; g0; f1; g1; f2; g2].
  Qed.
End LsArk.

(** Reductions of the additive RK step (hence, by [imex_is_ark], of the
    interpreter of imex_runge_kutta) when one part vanishes. *)
Section ArkReduce.
  Context {F : Type} {o : Ops F} {V : Type} {vo : VOps F V}.
  Hypothesis vadd_0_r' : forall x : V, vadd x vzero = x.
  Hypothesis vscal_0_r' : forall c : F, vscal c (vzero : V) = vzero.
  Variable Fx G : V -> V.
  Variable Ginv : V -> F -> V.
  Variable dt : F.
  Variable y0 : V.

  Lemma wsum_zeros : forall cs (xs : list V) acc, Forall (eq vzero) xs -> wsum cs xs acc = acc.
  Proof.
    induction cs as [|c cs IH]; intros xs acc H; [destruct xs; reflexivity|].
    destruct xs as [|x xs]; [reflexivity|]. inversion H as [|? ? Hx Hxs]; subst.
    cbn [wsum]. rewrite vscal_0_r', vadd_0_r'. now apply IH.
  Qed.

  Lemma ark_stages_explicit : forall rex rim i fs gs,
    length rex = length rim -> Forall (eq vzero) gs ->
    fst (ark_stages Fx (fun _ => vzero) (fun x _ => x) dt y0 i rex rim fs gs) = erk_stages Fx dt y0 rex fs /\
    Forall (eq vzero) (snd (ark_stages Fx (fun _ => vzero) (fun x _ => x) dt y0 i rex rim fs gs)).
  Proof.
    induction rex as [|re rex IH]; intros rim i fs gs Hl Hg.
    - split; [reflexivity|destruct rim; exact Hg].
    - destruct rim as [|ri rim]; [cbn in Hl; discriminate|].
      cbn [ark_stages erk_stages]. cbv zeta.
      rewrite (wsum_zeros ri gs vzero Hg), vscal_0_r', vadd_0_r'.
      apply IH; [cbn in Hl; lia|]. apply Forall_app. split; [exact Hg|constructor; [reflexivity|constructor]].
  Qed.

  Theorem ark_reduces_to_explicit a_ex a_im b_ex b_im : length a_ex = length a_im ->
    ark_step Fx (fun _ => vzero) (fun x _ => x) dt a_ex a_im b_ex b_im y0 = erk_step Fx dt a_ex b_ex y0.
  Proof.
    intros Hl. unfold ark_step, erk_step.
    destruct (ark_stages_explicit a_ex a_im 1 [Fx y0] [vzero] Hl) as [H1 H2];
      [constructor; [reflexivity|constructor]|].
    destruct (ark_stages Fx (fun _ => vzero) (fun x _ => x) dt y0 1 a_ex a_im [Fx y0] [vzero]) as [fs gs].
    cbn [fst snd] in *. subst fs. now rewrite (wsum_zeros b_im gs vzero H2), vscal_0_r', vadd_0_r'.
  Qed.

  Lemma ark_stages_implicit : forall rex rim i fs gs,
    length rex = length rim -> Forall (eq vzero) fs ->
    snd (ark_stages (fun _ => vzero) G Ginv dt y0 i rex rim fs gs) = dirk_stages G Ginv dt y0 i rim gs /\
    Forall (eq vzero) (fst (ark_stages (fun _ => vzero) G Ginv dt y0 i rex rim fs gs)).
  Proof.
    induction rex as [|re rex IH]; intros rim i fs gs Hl Hf.
    - destruct rim; [|cbn in Hl; discriminate]. split; [reflexivity|exact Hf].
    - destruct rim as [|ri rim]; [cbn in Hl; discriminate|].
      cbn [ark_stages dirk_stages]. cbv zeta.
      rewrite (wsum_zeros re fs vzero Hf), vscal_0_r', vadd_0_r'.
      apply IH; [cbn in Hl; lia|]. apply Forall_app. split; [exact Hf|constructor; [reflexivity|constructor]].
  Qed.

  Theorem ark_reduces_to_implicit a_ex a_im b_ex b_im : length a_ex = length a_im ->
    ark_step (fun _ => vzero) G Ginv dt a_ex a_im b_ex b_im y0 = dirk_step G Ginv dt a_im b_im y0.
  Proof.
    intros Hl. unfold ark_step, dirk_step.
    destruct (ark_stages_implicit a_ex a_im 1 [vzero] [G y0] Hl) as [H1 H2];
      [constructor; [reflexivity|constructor]|].
    destruct (ark_stages (fun _ => vzero) G Ginv dt y0 1 a_ex a_im [vzero] [G y0]) as [fs gs].
    cbn [fst snd] in *. subst gs. now rewrite (wsum_zeros b_ex fs vzero H2), vscal_0_r', vadd_0_r'.
  Qed.
End ArkReduce.

(** The step functions commute with module homomorphisms [Psi] over a homomorphism [psi] of
    the scalars (every coefficient list) *)
Section StepHom.
  Context {FA VA FB VB : Type} {oFA : Ops FA} {voA : VOps FA VA} {oFB : Ops FB} {voB : VOps FB VB}.
  Variables (psi : FA -> FB) (Psi : VA -> VB).
  Hypothesis psi0 : psi 0 = 0.
  Hypothesis psi1 : psi 1 = 1.
  Hypothesis psi_add : forall a b, psi (a + b) = psi a + psi b.
  Hypothesis psi_mul : forall a b, psi (a * b) = psi a * psi b.
  Hypothesis psi_sub : forall a b, psi (a - b) = psi a - psi b.
  Hypothesis psi_half : psi half = half.
  Hypothesis Psi_zero : Psi vzero = vzero.
  Hypothesis Psi_add : forall x y, Psi (vadd x y) = vadd (Psi x) (Psi y).
  Hypothesis Psi_scal : forall c x, Psi (vscal c x) = vscal (psi c) (Psi x).
  Variables (FxA GA : VA -> VA) (GiA : VA -> FA -> VA) (FxB GB : VB -> VB) (GiB : VB -> FB -> VB).
  Hypothesis HF : forall x, Psi (FxA x) = FxB (Psi x).
  Hypothesis HG : forall x, Psi (GA x) = GB (Psi x).
  Hypothesis HGi : forall x e, Psi (GiA x e) = GiB (Psi x) (psi e).

  Ltac push := repeat first [ rewrite HGi | rewrite Psi_add | rewrite Psi_scal | rewrite HF | rewrite HG
                            | rewrite psi_mul | rewrite psi_sub | rewrite psi_add | rewrite psi_half
                            | rewrite psi1 ].

  Lemma euler_hom dt u : Psi (euler_step FxA GiA dt u) = euler_step FxB GiB (psi dt) (Psi u).
  Proof. unfold euler_step. cbv zeta. push. reflexivity. Qed.

  Lemma rk2_hom dt u : Psi (cn_rk2_step FxA GA GiA dt u) = cn_rk2_step FxB GB GiB (psi dt) (Psi u).
  Proof. unfold cn_rk2_step. cbv zeta. push. reflexivity. Qed.

  Lemma leapfrog_hom dt alpha p c :
    Psi (snd (leapfrog_step FxA GA GiA dt alpha (p, c))) =
    snd (leapfrog_step FxB GB GiB (psi dt) (psi alpha) (Psi p, Psi c)).
  Proof. unfold leapfrog_step, two. cbv zeta. cbn [snd]. push. reflexivity. Qed.

  Lemma ls_loop_hom dt : forall be ga al h u,
    Psi (ls_loop FxA GA GiA dt al be ga h u) =
    ls_loop FxB GB GiB (psi dt) (map psi al) (map psi be) (map psi ga) (Psi h) (Psi u).
  Proof.
    induction be as [|b be IH]; intros ga al h u; [reflexivity|].
    destruct ga as [|gm ga]; [reflexivity|].
    destruct al as [|a0 [|a1 al]]; try reflexivity.
    cbn [ls_loop map]. cbv zeta.
    specialize (IH ga (a1 :: al)). cbn [map] in IH. rewrite IH. push. reflexivity.
  Qed.
  Lemma ls_step_hom dt al be ga u :
    Psi (ls_step FxA GA GiA dt al be ga u) =
    ls_step FxB GB GiB (psi dt) (map psi al) (map psi be) (map psi ga) (Psi u).
  Proof. unfold ls_step. now rewrite ls_loop_hom, Psi_zero. Qed.

  Lemma wsum_hom : forall cs xs acc,
    Psi (wsum cs xs acc) = wsum (map psi cs) (map Psi xs) (Psi acc).
  Proof.
    induction cs as [|c cs IH]; intros xs acc; [destruct xs; reflexivity|].
    destruct xs as [|x xs]; [reflexivity|]. cbn [wsum map]. rewrite IH. push. reflexivity.
  Qed.
  Lemma ark_stages_hom dt y0 : forall rex rim i fs gs,
    ark_stages FxB GB GiB (psi dt) (Psi y0) i (map (map psi) rex) (map (map psi) rim) (map Psi fs) (map Psi gs) =
    (map Psi (fst (ark_stages FxA GA GiA dt y0 i rex rim fs gs)),
     map Psi (snd (ark_stages FxA GA GiA dt y0 i rex rim fs gs))).
  Proof.
    induction rex as [|re rex IH]; intros rim i fs gs; [reflexivity|].
    destruct rim as [|ri rim]; [reflexivity|].
    cbn [ark_stages map]. cbv zeta.
    rewrite <- IH. rewrite !map_app. cbn [map].
    assert (E : psi (nth i ri 0) = nth i (map psi ri) 0).
    { rewrite <- (map_nth psi ri 0 i). now rewrite psi0. }
    push. rewrite !wsum_hom, Psi_zero, E. reflexivity.
  Qed.
  Lemma ark_step_hom dt a_ex a_im b_ex b_im y0 :
    Psi (ark_step FxA GA GiA dt a_ex a_im b_ex b_im y0) =
    ark_step FxB GB GiB (psi dt) (map (map psi) a_ex) (map (map psi) a_im) (map psi b_ex) (map psi b_im) (Psi y0).
  Proof.
    unfold ark_step.
    pose proof (ark_stages_hom dt y0 a_ex a_im 1 [FxA y0] [GA y0]) as H.
    cbn [map] in H. rewrite HF, HG in H. rewrite H.
    destruct (ark_stages FxA GA GiA dt y0 1 a_ex a_im [FxA y0] [GA y0]) as [fs gs]. cbn [fst snd].
    push. rewrite !wsum_hom, Psi_zero. reflexivity.
  Qed.
End StepHom.

Section Test.
  Context {F : Type} {o : Ops F} {Fc : FieldC o} {V : Type} {vo : VOps F V} {Mc : ModuleC o vo}.
  Add Field FFt : (field_c : FieldTh o).
  Goal forall (a b : F) (x y : V), vadd (vscal a (vadd x y)) (vscal b x) = vadd (vscal a y) (vscal (a + b) x).
  Proof. intros. module_eq [x; y]. Qed.
End Test.
