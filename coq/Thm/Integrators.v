(** Property C06 (IMEX integrators): the order conditions and the linear test equation
    decided on the coefficients of the *generated* Gen/Tableaux.v, the length validation,
    the reductions to the explicit / implicit method, and the zero-skipping interpreter. *)
From Dino Require Import Base.Ops Base.Sums Gen.Tableaux Model.Integrators.
From Coq Require Import Lia Qabs.
Local Open Scope F_scope.

(** the translation is complete (fail-closed switch of the translator) *)
Lemma gen_complete_ok : gen_complete = true.
Proof. reflexivity. Qed.

Definition TQ := @T Q.
Definition euler_tab : TQ := @euler_tableau Q QOps.
Definition rk2_tab : TQ := @cn_rk2_tableau Q QOps.
Definition rk3_tab : TQ := lowstorage_to_butcher rk3_alphas rk3_betas rk3_gammas.
Definition rk4_tab : TQ := lowstorage_to_butcher rk4_alphas rk4_betas rk4_gammas.
Definition sil3_tab : TQ := (sil3_a_ex, sil3_a_im, sil3_b_ex, sil3_b_im).

Definition zeroq (x : Q) : bool := Qeq_bool x 0.
Definition eps13 : Q := 1 # 10000000000000.

Lemma all_zero_spec (l : list Q) : all_zero l = true <-> Forall (fun x => x == 0)%Q l.
Proof.
  unfold all_zero. rewrite forallb_forall, Forall_forall.
  split; intros H x Hx; specialize (H x Hx); cbn in *; now apply Qeq_bool_iff.
Qed.
Lemma fabsb_Q (x : Q) : (@fabsb Q QOps x == Qabs x)%Q.
Proof.
  unfold fabsb; cbn. destruct (Qle_bool 0 x) eqn:E.
  - apply Qle_bool_iff in E. now rewrite Qabs_pos.
  - assert (x <= 0)%Q.
    { destruct (Qlt_le_dec 0 x) as [H|H]; auto. apply Qlt_le_weak, Qle_bool_iff in H. congruence. }
    now rewrite Qabs_neg.
Qed.
Lemma all_within_spec (eps : Q) (l : list Q) :
  all_within eps l = true <-> Forall (fun x => Qabs x <= eps)%Q l.
Proof.
  unfold all_within. rewrite forallb_forall, Forall_forall.
  split; intros H x Hx; specialize (H x Hx); cbn in *.
  - apply Qle_bool_iff in H. now rewrite <- fabsb_Q.
  - apply Qle_bool_iff. now rewrite fabsb_Q.
Qed.

(** Named checkers: functions of the tableau, so that a derived Butcher form is
    evaluated once per check (call by value).  [eps = 0] means exact. *)
Definition additive_order1_ok (eps : Q) (t : TQ) := all_within eps (order1 t).
Definition additive_order2_ok (eps : Q) (t : TQ) := all_within eps (order1 t ++ order2 t ++ c_consistency t).
Definition additive_order3_ok (eps : Q) (t : TQ) := all_within eps (order3 t).
Definition explicit_order3_ok (eps : Q) (t : TQ) := all_within eps [ex_order3_bushy t; ex_order3_tall t].
Definition explicit_order3_tall_ok (eps : Q) (t : TQ) := all_within eps [ex_order3_tall t].
Definition explicit_order3_bushy_ok (eps : Q) (t : TQ) := all_within eps [ex_order3_bushy t].
Definition explicit_order4_ok (eps : Q) (t : TQ) := all_within eps (ex_order4 t).
Definition explicit_order4_tall_ok (eps : Q) (t : TQ) := all_within eps [ex_order4_tall t].
Definition explicit_order5_bushy_ok (eps : Q) (t : TQ) := all_within eps [ex_order5_bushy t].
Definition coupling_bIcEcE_ok (eps : Q) (t : TQ) := all_within eps [oc_bcc t false true true].

Lemma order_euler :
  additive_order1_ok 0 euler_tab = true /\ additive_order2_ok 0 euler_tab = false.
Proof. split; vm_compute; reflexivity. Qed.

(** Crank-Nicolson + Heun: all 2 + 4 additive conditions of order <= 2; equal
    stage times; order 3 fails (already for the explicit part alone). *)
Lemma order_cn_rk2 :
  additive_order2_ok 0 rk2_tab = true /\
  additive_order3_ok 0 rk2_tab = false /\ explicit_order3_tall_ok 0 rk2_tab = false.
Proof. repeat (match goal with |- _ /\ _ => split end); vm_compute; reflexivity. Qed.

(** Williamson RK3 + CN (generated alphas/betas/gammas -> Butcher form): order 2
    as an additive scheme (exact), order 3 for the explicit part (exact), the
    order-3 coupling conditions fail and the explicit order-4 conditions fail. *)
Lemma order_cn_rk3 :
  additive_order2_ok 0 rk3_tab = true /\ explicit_order3_ok 0 rk3_tab = true /\
  additive_order3_ok 0 rk3_tab = false /\ explicit_order4_ok 0 rk3_tab = false.
Proof. repeat (match goal with |- _ /\ _ => split end); vm_compute; reflexivity. Qed.

(** Carpenter-Kennedy RK4 + CN, 13-digit decimals: every condition of additive
    order 2 and of explicit order 3 and 4 (and the stage-time consistency) holds
    to 1e-13 (one unit of the last tabulated digit); the order-3 coupling
    condition b_im.(c_ex c_ex) = 1/3 is violated by more than 1e-3 and explicit
    order 5 by more than 1e-5. *)
Lemma order_cn_rk4 :
  additive_order2_ok eps13 rk4_tab = true /\
  explicit_order3_ok eps13 rk4_tab = true /\ explicit_order4_ok eps13 rk4_tab = true /\
  coupling_bIcEcE_ok (1 # 1000) rk4_tab = false /\
  explicit_order5_bushy_ok (1 # 100000) rk4_tab = false.
Proof.
  (* One boolean, taken apart afterwards: the Butcher form [rk4_tab] is then derived once, also by
     coqchk, which replays [vm_compute] by lazy reduction and for which every conjunct proved on its
     own is a conversion problem of its own.  [andb_prop] and a final [exact], because [repeat split],
     [assumption] or [rewrite .. in] would compare these closed terms by evaluating them. *)
  assert (H : additive_order2_ok eps13 rk4_tab && explicit_order3_ok eps13 rk4_tab &&
              explicit_order4_ok eps13 rk4_tab && negb (coupling_bIcEcE_ok (1 # 1000) rk4_tab) &&
              negb (explicit_order5_bushy_ok (1 # 100000) rk4_tab) = true) by (vm_compute; reflexivity).
  apply andb_prop in H. destruct H as [H E5]. apply andb_prop in H. destruct H as [H E4].
  apply andb_prop in H. destruct H as [H E3]. apply andb_prop in H. destruct H as [E1 E2].
  apply negb_true_iff in E4, E5. exact (conj E1 (conj E2 (conj E3 (conj E4 E5)))).
Qed.

(** SIL3: additive order 2 (exact); explicit part: the order-3 tall tree holds
    (order 3 for linear F) while the bushy tree fails (order 2 for nonlinear F);
    the order-4 tall tree fails (linear order is exactly 3); coupling order 3 fails. *)
Lemma order_sil3 :
  additive_order2_ok 0 sil3_tab = true /\
  explicit_order3_tall_ok 0 sil3_tab = true /\ explicit_order3_bushy_ok 0 sil3_tab = false /\
  explicit_order4_tall_ok 0 sil3_tab = false /\ additive_order3_ok 0 sil3_tab = false.
Proof. repeat (match goal with |- _ /\ _ => split end); vm_compute; reflexivity. Qed.

(** The generated RK4 coefficients are the Carpenter-Kennedy (1994) RK4(3)5[2N]
    coefficients (published as rationals A_k, B_k, c_k) to 6e-13. *)
Definition ck_A : list Q :=
  [0; -567301805773 # 1357537059087; -2404267990393 # 2016746695238;
   -3550918686646 # 2091501179385; -1275806237668 # 842570457699]%Q.
Definition ck_B : list Q :=
  [1432997174477 # 9575080441755; 5161836677717 # 13612068292357; 1720146321549 # 2090206949498;
   3134564353537 # 4481467310338; 2277821191437 # 14882151754819]%Q.
Definition ck_c : list Q :=
  [0; 1432997174477 # 9575080441755; 2526269341429 # 6820363962896;
   2006345519317 # 3224310063776; 2802321613138 # 2924317926251; 1]%Q.
Definition close_lists (eps : Q) (l1 l2 : list Q) : bool :=
  Nat.eqb (length l1) (length l2) &&
  forallb (fun p => Qle_bool (Qabs (fst p - snd p)) eps) (combine l1 l2).
Lemma rk4_near_carpenter_kennedy :
  let eps := (6 # 10000000000000)%Q in
  close_lists eps rk4_betas ck_A = true /\ close_lists eps rk4_gammas ck_B = true /\
  close_lists eps rk4_alphas ck_c = true.
Proof. cbv zeta. repeat (match goal with |- _ /\ _ => split end); vm_compute; reflexivity. Qed.

(** Linear test equation: Taylor coefficients of the one-step multiplier.
    The step functions of the model are run in Q[[x,y]]/(x^N, y^N) (F = x.,
    G = y., G_inv(., eta) = (1 - eta y)^-1 .) on the series 1 with dt = 1; the
    coefficient of x^i y^j must be 1/(i! j!) for i + j <= order. *)
Section SeriesRun.
  Let N := 6%nat.
  Let vo := @SerOps Q QOps N.
  Let Fx := @smulx Q QOps N.
  Let G := @smuly Q QOps.
  Let Gi := @sinv Q QOps N.
  Definition ser_euler := euler_step (vo := vo) Fx Gi 1%Q (sone N).
  Definition ser_rk2 := cn_rk2_step (vo := vo) Fx G Gi 1%Q (sone N).
  Definition ser_rk3 := ls_step (vo := vo) Fx G Gi 1%Q rk3_alphas rk3_betas rk3_gammas (sone N).
  Definition ser_rk4 := ls_step (vo := vo) Fx G Gi 1%Q rk4_alphas rk4_betas rk4_gammas (sone N).
  Definition ser_sil3 := imex_step (vo := vo) Fx G Gi 1%Q sil3_a_ex sil3_a_im sil3_b_ex sil3_b_im (sone N).
  (** exp(c (x + y)) truncated: coefficient c^(i+j)/(i! j!) *)
  Fixpoint factq (n : nat) : Q := match n with O => 1 | S k => Qred (inject_Z (Z.of_nat n) * factq k) end.
  Definition exp_coef (c : Q) (i j : nat) : Q := Qred (Qpower c (Z.of_nat (i + j)) / (factq i * factq j)).
  Definition ser_exp (c : Q) : @ser Q :=
    map (fun i => map (fun j => exp_coef c i j) (seq 0 N)) (seq 0 N).
  Definition ser_leapfrog (alpha : Q) :=
    snd (leapfrog_step (vo := vo) Fx G Gi 1%Q alpha (ser_exp (-1), sone N)).
End SeriesRun.

(** all coefficients of total degree <= p agree within eps *)
Definition taylor_upto (eps : Q) (p : nat) (a b : @ser Q) : bool :=
  forallb (fun i => forallb (fun j => Nat.ltb p (i + j) ||
     Qle_bool (Qabs (@scoef Q QOps a i j - @scoef Q QOps b i j)) eps) (seq 0 (S p))) (seq 0 (S p)).
(** pure powers of x (G-free part) up to degree p *)
Definition taylor_x_upto (eps : Q) (p : nat) (a b : @ser Q) : bool :=
  forallb (fun i => Qle_bool (Qabs (@scoef Q QOps a i 0 - @scoef Q QOps b i 0)) eps) (seq 0 (S p)).
Definition some_ser (x : option (@ser Q)) : @ser Q := match x with Some s => s | None => [] end.
Definition is_some_ser (x : option (@ser Q)) : bool := match x with Some _ => true | None => false end.

Lemma linear_taylor_series :
  let E := ser_exp 1 in
  (taylor_upto 0 1 ser_euler E = true /\ taylor_upto 0 2 ser_euler E = false) /\
  (* CN + Heun: order 2, not 3 (not even for the explicit part) *)
  (taylor_upto 0 2 ser_rk2 E = true /\ taylor_x_upto 0 3 ser_rk2 E = false) /\
  (* RK3 + CN: order 2 in (x,y), 3 in x alone, not 3 in (x,y), not 4 in x *)
  (taylor_upto 0 2 ser_rk3 E = true /\ taylor_x_upto 0 3 ser_rk3 E = true /\
   taylor_upto 0 3 ser_rk3 E = false /\ taylor_x_upto 0 4 ser_rk3 E = false) /\
  (* RK4 + CN (decimals): the same with orders 2 / 4 to 1e-13, failing beyond by > 1e-5 *)
  (taylor_upto eps13 2 ser_rk4 E = true /\ taylor_x_upto eps13 4 ser_rk4 E = true /\
   taylor_upto (1 # 100000) 3 ser_rk4 E = false /\ taylor_x_upto (1 # 100000) 5 ser_rk4 E = false) /\
  (* SIL3: order 2 in (x,y), 3 in x alone (linear F), not 3 in (x,y), not 4 in x *)
  (is_some_ser ser_sil3 = true /\
   taylor_upto 0 2 (some_ser ser_sil3) E = true /\ taylor_x_upto 0 3 (some_ser ser_sil3) E = true /\
   taylor_upto 0 3 (some_ser ser_sil3) E = false /\ taylor_x_upto 0 4 (some_ser ser_sil3) E = false).
Proof.
  (* the four RK4 checks as one boolean, as in [order_cn_rk4]: the series [ser_rk4] is then run
     once by a checker that replays the evaluation lazily; the closed RK4 conjunct is placed with
     [exact] before the others are split *)
  assert (H : taylor_upto eps13 2 ser_rk4 (ser_exp 1) && taylor_x_upto eps13 4 ser_rk4 (ser_exp 1) &&
              negb (taylor_upto (1 # 100000) 3 ser_rk4 (ser_exp 1)) &&
              negb (taylor_x_upto (1 # 100000) 5 ser_rk4 (ser_exp 1)) = true) by (vm_compute; reflexivity).
  apply andb_prop in H. destruct H as [H E4]. apply andb_prop in H. destruct H as [H E3].
  apply andb_prop in H. destruct H as [E1 E2]. apply negb_true_iff in E3, E4.
  cbv zeta. split; [|split; [|split; [|split]]].
  4: exact (conj E1 (conj E2 (conj E3 E4))).
  all: repeat (match goal with |- _ /\ _ => split end); vm_compute; reflexivity.
Qed.

(** Leapfrog: started from exact snapshots exp(-(x+y)) and 1, the future snapshot
    agrees with exp(x+y) to total degree 2 exactly when alpha = 1/2 is used
    (the generated default); for alpha = 1 only to degree 1. *)
Lemma leapfrog_second_order_series :
  taylor_upto 0 2 (ser_leapfrog leapfrog_alpha_default) (ser_exp 1) = true /\
  taylor_upto 0 3 (ser_leapfrog leapfrog_alpha_default) (ser_exp 1) = false /\
  taylor_upto 0 1 (ser_leapfrog 1) (ser_exp 1) = true /\
  taylor_upto 0 2 (ser_leapfrog 1) (ser_exp 1) = false.
Proof. repeat (match goal with |- _ /\ _ => split end); vm_compute; reflexivity. Qed.

(** length validation (the acceptance predicates are generated) *)
Lemma ls_lengths_validated (la lb lg : nat) :
  ls_rejects la lb lg = false <-> (la = S lb /\ lb = lg).
Proof. unfold ls_rejects. cbv zeta. rewrite orb_false_iff, !negb_false_iff, !Z.eqb_eq. lia. Qed.

Lemma py_set_card4 (a b c d : Z) :
  Z.ltb 1 (py_set_card [a; b; c; d]) = false <-> (a = b /\ b = c /\ c = d).
Proof.
  unfold py_set_card, py_dedup, existsb.
  destruct (Z.eqb_spec a b), (Z.eqb_spec a c), (Z.eqb_spec a d), (Z.eqb_spec b c),
    (Z.eqb_spec b d), (Z.eqb_spec c d); cbn; split; intros H; try discriminate; try lia; try reflexivity.
Qed.

Lemma py_any_enum_from_false (f : Z -> Z -> bool) (rows : list Z) (k : Z) :
  py_any_enum_from k f rows = false <->
  forall i, (i < length rows)%nat -> f (k + Z.of_nat i)%Z (nth i rows 0%Z) = false.
Proof.
  revert k. induction rows as [|r t IH]; intros k; cbn [py_any_enum_from length].
  - split; auto. intros _ i Hi. lia.
  - rewrite orb_false_iff, IH. split.
    + intros [H0 H] [|i] Hi; cbn [nth].
      * now rewrite Z.add_0_r.
      * replace (k + Z.of_nat (S i))%Z with (k + 1 + Z.of_nat i)%Z by lia. apply H. cbn in Hi. lia.
    + intros H. split.
      * specialize (H 0%nat). cbn in H. rewrite Z.add_0_r in H. apply H. lia.
      * intros i Hi. specialize (H (S i)). cbn [nth] in H.
        replace (k + 1 + Z.of_nat i)%Z with (k + Z.of_nat (S i))%Z by lia. apply H. cbn. lia.
Qed.

Lemma rows_shape (off : Z) (rows : list nat) :
  py_any_enum (fun py_i py_rowlen : Z => negb (Z.eqb py_rowlen (py_i + off))) (py_lens rows) = false <->
  forall i, (i < length rows)%nat -> Z.of_nat (nth i rows 0%nat) = (Z.of_nat i + off)%Z.
Proof.
  unfold py_any_enum. rewrite py_any_enum_from_false. unfold py_lens. rewrite map_length.
  split; intros H i Hi; specialize (H i Hi).
  - rewrite negb_false_iff, Z.eqb_eq in H. cbn in H.
    rewrite (nth_indep _ 0%Z (Z.of_nat 0)) in H by (now rewrite map_length).
    now rewrite map_nth in H.
  - rewrite negb_false_iff, Z.eqb_eq. cbn.
    rewrite (nth_indep _ 0%Z (Z.of_nat 0)) by (now rewrite map_length).
    now rewrite map_nth.
Qed.

Lemma tableau_validated (a_ex_rows a_im_rows : list nat) (n_b_ex n_b_im : nat) :
  tableau_rejects a_ex_rows a_im_rows n_b_ex n_b_im = false <->
  (S (length a_ex_rows) = n_b_ex /\ S (length a_im_rows) = n_b_ex /\ n_b_im = n_b_ex /\
   (forall i, (i < length a_ex_rows)%nat -> nth i a_ex_rows 0%nat = (i + 1)%nat) /\
   (forall i, (i < length a_im_rows)%nat -> nth i a_im_rows 0%nat = (i + 2)%nat)).
Proof.
  unfold tableau_rejects.
  rewrite !orb_false_iff, py_set_card4, (rows_shape 1), (rows_shape 2).
  split.
  - intros (H1 & H2 & H3). repeat split; try lia.
    + intros i Hi. specialize (H2 i Hi). lia.
    + intros i Hi. specialize (H3 i Hi). lia.
  - intros (H1 & H2 & H3 & H4 & H5). repeat split; try lia.
    + intros i Hi. specialize (H4 i Hi). lia.
    + intros i Hi. specialize (H5 i Hi). lia.
Qed.

(** Reduction to the underlying explicit / implicit method
    (any carrier, any vector space; only the two module laws x + 0 = x and
    c.0 = 0 are needed, stated as hypotheses). *)
Section Reduction.
  Context {F : Type} {o : Ops F} {V : Type} {vo : VOps F V}.
  Hypothesis vadd_0_r : forall x : V, vadd x vzero = x.
  Hypothesis vscal_0 : forall c : F, vscal c (vzero : V) = vzero.
  Lemma vadd_scal0_r (x : V) (c : F) : vadd x (vscal c vzero) = x.
  Proof. now rewrite vscal_0, vadd_0_r. Qed.
  Variable Fx G : V -> V.
  Variable Ginv : V -> F -> V.

  Let G0 : V -> V := fun _ => vzero.
  Let Gid : V -> F -> V := fun x _ => x.
  Let F0 : V -> V := fun _ => vzero.

  (** G = 0, G_inv = id: forward Euler, Heun, the explicit 2N Runge-Kutta scheme *)
  Lemma euler_reduces_to_explicit dt u :
    euler_step Fx Gid dt u = vadd u (vscal dt (Fx u)).
  Proof. reflexivity. Qed.

  Lemma cn_rk2_reduces_to_explicit dt u :
    cn_rk2_step Fx G0 Gid dt u =
    (let k1 := Fx u in let k2 := Fx (vadd u (vscal dt k1)) in
     vadd u (vscal dt (vscal half (vadd k2 k1)))).
  Proof. unfold cn_rk2_step, G0, Gid. cbv zeta. now rewrite !vadd_scal0_r. Qed.

  Lemma ls_reduces_to_explicit dt : forall be ga al h u,
    length al = S (length be) ->
    ls_loop Fx G0 Gid dt al be ga h u = ls_explicit_loop Fx dt be ga h u.
  Proof.
    induction be as [|b be IH]; intros ga al h u Hl; [reflexivity|].
    destruct ga as [|g ga]; [reflexivity|].
    destruct al as [|a0 [|a1 al]]; try (cbn in Hl; lia).
    cbn [ls_loop ls_explicit_loop]. unfold G0 at 1, Gid at 1.
    rewrite vadd_scal0_r. apply IH. cbn in *. lia.
  Qed.

  (** F = 0: backward Euler, one Crank-Nicolson step, the chain of
      Crank-Nicolson substeps of sizes dt (alpha_{k+1} - alpha_k) *)
  Lemma euler_reduces_to_implicit dt u :
    euler_step F0 Ginv dt u = backward_euler_step Ginv dt u.
  Proof. unfold euler_step, backward_euler_step, F0. now rewrite vadd_scal0_r. Qed.

  Lemma cn_rk2_reduces_to_implicit dt u :
    cn_rk2_step F0 G Ginv dt u = cn_substep G Ginv (half * dt) u.
  Proof.
    unfold cn_rk2_step, cn_substep, F0. cbv zeta.
    now rewrite !vadd_0_r, !vscal_0, !vadd_0_r.
  Qed.

  Lemma ls_reduces_to_implicit dt : forall be ga al u,
    length be = length ga -> length al = S (length be) ->
    ls_loop F0 G Ginv dt al be ga vzero u = cn_chain G Ginv dt al u.
  Proof.
    induction be as [|b be IH]; intros ga al u Hg Hl.
    - destruct al as [|a0 [|a1 al]]; try (cbn in Hl; lia). reflexivity.
    - destruct ga as [|g ga]; [cbn in Hg; lia|].
      destruct al as [|a0 [|a1 al]]; try (cbn in Hl; lia).
      cbn [ls_loop].
      change (cn_chain G Ginv dt (a0 :: a1 :: al) u)
        with (cn_chain G Ginv dt (a1 :: al) (cn_substep G Ginv (half * dt * (a1 - a0)) u)).
      unfold cn_substep.
      replace (vadd (F0 u) (vscal b vzero)) with (vzero : V)
        by (unfold F0; now rewrite vscal_0, vadd_0_r).
      rewrite vscal_0, vadd_0_r.
      apply IH; cbn in *; lia.
  Qed.
End Reduction.

(** The zero-skipping, lazily evaluating interpreter [imex_step] computes the
    additive Runge-Kutta step [ark_step], for every tableau (all shapes), every
    carrier and module with x + 0 = x and 0.x = 0, every F, G, G_inv. *)
Section ImexIsArk.
  Context {F : Type} {o : Ops F} {V : Type} {vo : VOps F V}.
  Hypothesis nz_false_zero : forall c : F, nz c = false -> c = 0.
  Hypothesis vadd_0_r : forall x : V, vadd x vzero = x.
  Hypothesis vscal_0_l : forall x : V, vscal 0 x = vzero.
  Variable Fx G : V -> V.
  Variable Ginv : V -> F -> V.

  Definition ok_at (c : F) (x : option V) (x' : V) : Prop := x = Some x' \/ nz c = false.

  Lemma wsum_skip_ok : forall cs xs xs' acc,
    length xs = length xs' ->
    (forall j, (j < length xs)%nat -> ok_at (nth j cs 0) (nth j xs None) (nth j xs' vzero)) ->
    wsum_skip cs xs acc = Some (wsum cs xs' acc).
  Proof.
    induction cs as [|c cs IH]; intros xs xs' acc Hl H.
    - destruct xs; reflexivity.
    - destruct xs as [|x xs], xs' as [|x' xs']; cbn in Hl; try discriminate; [reflexivity|].
      cbn [wsum_skip wsum].
      assert (H0 := H 0%nat ltac:(cbn; lia)). cbn [nth] in H0.
      assert (Hs : forall j, (j < length xs)%nat -> ok_at (nth j cs 0) (nth j xs None) (nth j xs' vzero)).
      { intros j Hj. apply (H (S j)). cbn. lia. }
      destruct (nz c) eqn:E.
      + destruct H0 as [->|H0]; [|congruence]. apply IH; [lia|exact Hs].
      + rewrite (nz_false_zero c E), vscal_0_l, vadd_0_r. apply IH; [lia|exact Hs].
  Qed.

  Definition INV (rows : list (list F)) (b : list F) (l : list (option V)) (l' : list V) : Prop :=
    length l = length l' /\
    forall j, (j < length l)%nat ->
      nth j l None = Some (nth j l' vzero) \/
      ((forall row, In row rows -> nz (nth j row 0) = false) /\ nz (nth j b 0) = false).

  Lemma INV_row re rows b l l' : INV (re :: rows) b l l' ->
    forall j, (j < length l)%nat -> ok_at (nth j re 0) (nth j l None) (nth j l' vzero).
  Proof.
    intros [_ H] j Hj. destruct (H j Hj) as [E|[E _]]; [now left|right]. apply E. now left.
  Qed.
  Lemma INV_b rows b l l' : INV rows b l l' ->
    forall j, (j < length l)%nat -> ok_at (nth j b 0) (nth j l None) (nth j l' vzero).
  Proof. intros [_ H] j Hj. destruct (H j Hj) as [E|[_ E]]; [now left|now right]. Qed.
  Lemma INV_weaken rows b l l' : INV rows b l l' -> INV [] b l l'.
  Proof.
    intros [Hl H]. split; [exact Hl|]. intros j Hj. destruct (H j Hj) as [E|[_ E]]; [now left|right].
    split; [intros row []|exact E].
  Qed.
  Lemma existsb_false_all {A} (f : A -> bool) l : existsb f l = false -> forall x, In x l -> f x = false.
  Proof.
    induction l as [|a l IH]; cbn; intros H x Hx; [contradiction|].
    apply orb_false_iff in H. destruct H as [H1 H2]. destruct Hx as [<-|Hx]; auto.
  Qed.
  Lemma INV_step re rows b l l' y : INV (re :: rows) b l l' ->
    INV rows b (l ++ [if needed (length l) rows b then Some y else None]) (l' ++ [y]).
  Proof.
    intros [Hl H]. split; [rewrite !app_length; cbn; lia|].
    intros j Hj. rewrite app_length in Hj. cbn in Hj.
    destruct (Nat.eq_dec j (length l)) as [->|Hne].
    - rewrite nth_middle. rewrite Hl at 2. rewrite nth_middle.
      destruct (needed (length l) rows b) eqn:E; [now left|right].
      unfold needed in E. apply orb_false_iff in E. destruct E as [E1 E2]. split; [|exact E2].
      intros row Hr. exact (existsb_false_all _ _ E1 row Hr).
    - assert (Hj' : (j < length l)%nat) by lia.
      rewrite !app_nth1 by lia.
      destruct (H j Hj') as [E|[E1 E2]]; [now left|right]. split; [|exact E2].
      intros row Hr. apply E1. now right.
  Qed.

  Lemma stages_ok dt y0 b_ex b_im : forall rex rim fs gs fs' gs',
    length fs = length gs -> INV rex b_ex fs fs' -> INV rim b_im gs gs' ->
    exists fsL gsL,
      imex_stages Fx G Ginv dt y0 b_ex b_im (length fs) rex rim fs gs = Some (fsL, gsL) /\
      INV [] b_ex fsL (fst (ark_stages Fx G Ginv dt y0 (length fs) rex rim fs' gs')) /\
      INV [] b_im gsL (snd (ark_stages Fx G Ginv dt y0 (length fs) rex rim fs' gs')).
  Proof.
    induction rex as [|re rex IH]; intros rim fs gs fs' gs' Hfg If Ig.
    - exists fs, gs. split; [reflexivity|]. cbn [ark_stages fst snd].
      split; [exact If|exact (INV_weaken _ _ _ _ Ig)].
    - destruct rim as [|ri rim].
      + exists fs, gs. split; [reflexivity|]. cbn [ark_stages fst snd].
        split; [exact (INV_weaken _ _ _ _ If)|exact Ig].
      + cbn [imex_stages ark_stages].
        rewrite (wsum_skip_ok re fs fs' vzero (proj1 If) (INV_row _ _ _ _ _ If)).
        rewrite (wsum_skip_ok ri gs gs' vzero (proj1 Ig) (INV_row _ _ _ _ _ Ig)).
        cbv zeta.
        set (Y := Ginv (vadd (vadd y0 (vscal dt (wsum re fs' vzero))) (vscal dt (wsum ri gs' vzero)))
                       (dt * nth (length fs) ri 0)%F).
        pose proof (INV_step _ _ _ _ _ (Fx Y) If) as If2.
        pose proof (INV_step _ _ _ _ _ (G Y) Ig) as Ig2.
        rewrite <- Hfg in Ig2.
        assert (Hl2 : length (fs ++ [if needed (length fs) rex b_ex then Some (Fx Y) else None]) =
                      length (gs ++ [if needed (length fs) rim b_im then Some (G Y) else None]))
          by (rewrite !app_length; cbn; lia).
        destruct (IH rim _ _ _ _ Hl2 If2 Ig2) as (fsL & gsL & E & I1 & I2).
        rewrite app_length in E, I1, I2. cbn [length] in E, I1, I2. rewrite Nat.add_1_r in E, I1, I2.
        exists fsL, gsL. repeat split; auto; try apply I1; try apply I2.
  Qed.

  Theorem imex_is_ark dt a_ex a_im b_ex b_im y0 :
    imex_step Fx G Ginv dt a_ex a_im b_ex b_im y0 = Some (ark_step Fx G Ginv dt a_ex a_im b_ex b_im y0).
  Proof.
    unfold imex_step, ark_step.
    assert (If : INV a_ex b_ex [Some (Fx y0)] [Fx y0]).
    { split; [reflexivity|]. intros [|j] Hj; [now left|cbn in Hj; lia]. }
    assert (Ig : INV a_im b_im [Some (G y0)] [G y0]).
    { split; [reflexivity|]. intros [|j] Hj; [now left|cbn in Hj; lia]. }
    destruct (stages_ok dt y0 b_ex b_im a_ex a_im [Some (Fx y0)] [Some (G y0)] [Fx y0] [G y0] eq_refl If Ig) as (fsL & gsL & E & I1 & I2).
    cbn [length] in E, I1, I2. rewrite E.
    destruct (ark_stages Fx G Ginv dt y0 1 a_ex a_im [Fx y0] [G y0]) as [fsA gsA]. cbn [fst snd] in I1, I2.
    rewrite (wsum_skip_ok b_ex fsL fsA vzero (proj1 I1) (INV_b _ _ _ _ I1)).
    rewrite (wsum_skip_ok b_im gsL gsA vzero (proj1 I2) (INV_b _ _ _ _ I2)).
    reflexivity.
  Qed.
End ImexIsArk.
