(** C08, the filters of Model/Filters.v are linear and diagonal in the state:
    run at dual numbers with the attenuation table as a constant, the tangent of
    [rescale] / [filter_tree] is the same filter applied to the tangent (for
    every state), and the filter is its own transpose entry by entry.
    (The IMEX step functions of Model/Integrators.v are NOT treated here:
    C08_linear_jvp_is_self covers linear maps given as matrices only.) *)
From Dino Require Import Base.Ops Base.Sums Base.Ord Model.Dual Model.Filters Thm.Dual.
Local Open Scope F_scope.

Section FilterLin.
  Context {F : Type} {o : Ops F} {Fc : FieldC o}.
  Add Field FFl : (field_c : FieldTh o).

  (** a leaf with tangent, a constant leaf *)
  Definition darr (x dx : @arr F) : @arr (dual F) := (fst x, fun idx => mkdual (snd x idx) (snd dx idx)).
  Definition carr (s : @arr F) : @arr (dual F) := (fst s, fun idx => dconst (snd s idx)).

  Theorem rescale_jvp_is_self (sc x dx : @arr F) idx : fst dx = fst x ->
    fst (rescale (carr sc) (darr x dx)) = fst (rescale sc x) /\
    snd (rescale (carr sc) (darr x dx)) idx = mkdual (snd (rescale sc x) idx) (snd (rescale sc dx) idx).
  Proof.
    intros E. unfold rescale, carr, darr. cbn [fst snd]. rewrite E.
    destruct (preserves_shape (fst x) (fst sc)); cbn [fst snd]; split; try reflexivity.
    apply dual_eq; cbn; ring.
  Qed.

  Theorem filter_tree_jvp_is_self (sc : @arr F) (t dt : list (@arr F)) :
    Forall2 (fun x dx => fst dx = fst x) t dt ->
    Forall2 (fun y p => fst y = fst (fst p) /\ forall idx, snd y idx = mkdual (snd (fst p) idx) (snd (snd p) idx))
            (filter_tree (carr sc) (map (fun p => darr (fst p) (snd p)) (combine t dt)))
            (combine (filter_tree sc t) (filter_tree sc dt)).
  Proof.
    unfold filter_tree. induction 1 as [|x dx t dt E _ IH]; cbn [combine map]; constructor; [|exact IH].
    cbn [fst snd]. split; [apply (rescale_jvp_is_self sc x dx nil E)|].
    intros idx. apply (rescale_jvp_is_self sc x dx idx E).
  Qed.

  (** diagonal, hence self-adjoint entry by entry (reverse mode = the filter itself) *)
  Theorem rescale_self_adjoint (sc x y : @arr F) idx : fst y = fst x ->
    snd (rescale sc x) idx * snd y idx = snd x idx * snd (rescale sc y) idx.
  Proof.
    intros E. unfold rescale. rewrite E.
    destruct (preserves_shape (fst x) (fst sc)); cbn [fst snd]; ring.
  Qed.
End FilterLin.
