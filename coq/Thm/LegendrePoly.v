(** Polynomial structure of the Legendre table of dinosaur/associated_legendre.py
    (coefficient-list model of Model/Legendre.v, section LegendrePoly; the recurrence step
    and the radicand 1 - x*x are the GENERATED expressions of Gen/Legendre.v run on coefficient
    lists).  For every field, every [sq], every node tables, all sizes n_m <= n_l:
      p[m,i,l] = y_i^m * peval (leg_q m l) (x_i),   degree (leg_q m l) <= l - m,
    under y_i^2 = 1 - x_i^2 the Gram integrand p[m,i,l] p[m,i,l'] is the value at x_i of ONE
    polynomial [leg_gram_poly m l l'] of degree <= l + l', and for a quadrature rule that
    integrates the monomials x^n, n <= D, like a linear functional Int, the discrete Gram entry is
    Int of that polynomial whenever l + l' <= D: it does not depend on the nodes. *)
From Dino Require Import Base.Ops Base.Field Base.Sums Model.SHT Thm.SHT Gen.Legendre Gen.DerivExprs Model.Legendre Thm.Legendre.
Local Open Scope F_scope.

Section PolyEval.
  Context {F : Type} {o : Ops F} {Fc : FieldC o}.
  Add Field FFpe : (field_c : FieldTh o).

  Lemma peval_padd (p q : list F) t : peval (padd p q) t = peval p t + peval q t.
  Proof.
    revert q; induction p as [|a p IH]; intros [|b q]; cbn [padd peval]; try ring.
    rewrite IH. ring.
  Qed.
  Lemma peval_pscale c (p : list F) t : peval (pscale c p) t = c * peval p t.
  Proof. unfold pscale. induction p as [|a p IH]; cbn [map peval]; [ring|]. rewrite IH. ring. Qed.
  Lemma peval_popp (p : list F) t : peval (popp p) t = - peval p t.
  Proof. unfold popp. induction p as [|a p IH]; cbn [map peval]; [ring|]. rewrite IH. ring. Qed.
  Lemma peval_psub (p q : list F) t : peval (psub p q) t = peval p t - peval q t.
  Proof. unfold psub. rewrite peval_padd, peval_popp. ring. Qed.
  Lemma peval_pmulx (p : list F) t : peval (pmulx p) t = t * peval p t.
  Proof. unfold pmulx. cbn [peval]. ring. Qed.
  Lemma peval_pmul (p q : list F) t : peval (pmul p q) t = peval p t * peval q t.
  Proof.
    induction p as [|a p IH]; cbn [pmul peval]; [ring|].
    rewrite peval_padd, peval_pscale, peval_pmulx, IH. ring.
  Qed.
  Lemma peval_pconst (c t : F) : peval (pconst c) t = c.
  Proof. unfold pconst. cbn [peval]. ring. Qed.
  Lemma peval_pX (t : F) : peval pX t = t.
  Proof. unfold pX. cbn [peval]. ring. Qed.
  Lemma peval_llit n (t : F) : peval (@llit (list F) PolyOps n) t = llit n.
  Proof.
    induction n as [|n IH]; [cbn; reflexivity|].
    change (@llit (list F) PolyOps (S n)) with (padd (@llit (list F) PolyOps n) (pconst 1)).
    rewrite peval_padd, IH, peval_pconst. reflexivity.
  Qed.
  Lemma peval_ppow (p : list F) n t : peval (ppow p n) t = lpow (peval p t) n.
  Proof. induction n as [|n IH]; cbn [ppow lpow]; [apply peval_pconst|]. now rewrite peval_pmul, IH. Qed.
  Lemma lpow_mul (a b : F) n : lpow (a * b) n = lpow a n * lpow b n.
  Proof. induction n as [|n IH]; cbn [lpow]; [ring|]. rewrite IH. ring. Qed.

End PolyEval.

#[global] Hint Rewrite @peval_padd @peval_pscale @peval_popp @peval_psub @peval_pmulx @peval_pmul @peval_pconst @peval_pX
  @peval_llit @peval_ppow using assumption : peval.

Section Poly.
  Context {F : Type} {o : Ops F} {Fc : FieldC o}.
  Add Field FFpoly : (field_c : FieldTh o).

  (** the generated expressions commute with evaluation *)
  Lemma peval_leg_step (a b X p1 p2 : list F) t :
    peval (@leg_step (list F) PolyOps a b X p1 p2) t
    = leg_step (peval a t) (peval b t) (peval X t) (peval p1 t) (peval p2 t).
  Proof.
    unfold leg_step. cbn [fadd fmul fsub fopp PolyOps]. autorewrite with peval. ring.
  Qed.
  Lemma peval_leg_y2 (X : list F) t : peval (@leg_y2 (list F) PolyOps X) t = leg_y2 (peval X t).
  Proof.
    unfold leg_y2. cbn [fadd fmul fsub fopp PolyOps]. autorewrite with peval. ring.
  Qed.

  Lemma length_padd (p q : list F) : length (padd p q) = Nat.max (length p) (length q).
  Proof. revert q; induction p as [|a p IH]; intros [|b q]; cbn [padd length Nat.max]; auto; try (now rewrite IH). Qed.
  Lemma length_pscale c (p : list F) : length (pscale c p) = length p.
  Proof. apply map_length. Qed.
  Lemma length_popp (p : list F) : length (popp p) = length p.
  Proof. apply map_length. Qed.
  Lemma length_psub (p q : list F) : length (psub p q) = Nat.max (length p) (length q).
  Proof. unfold psub. now rewrite length_padd, length_popp. Qed.
  Lemma length_pmul (p q : list F) : (length (pmul p q) <= length p + Nat.pred (length q))%nat.
  Proof.
    induction p as [|a p IH]; cbn [pmul length]; [lia|].
    rewrite length_padd, length_pscale. unfold pmulx. cbn [length]. lia.
  Qed.
  Lemma length_leg_step (a b X p1 p2 : list F) n :
    (length a <= 1)%nat -> (length b <= 1)%nat -> (length X <= 2)%nat ->
    (length p1 <= n + 1)%nat -> (length p2 <= n)%nat ->
    (length (@leg_step (list F) PolyOps a b X p1 p2) <= n + 2)%nat.
  Proof.
    intros Ha Hb HX H1 H2. unfold leg_step. cbn [fadd fmul fsub fopp PolyOps].
    pose proof (length_pmul a (psub (pmul X p1) (pmul b p2))) as H0. rewrite length_psub in H0.
    pose proof (length_pmul X p1). pose proof (length_pmul b p2). lia.
  Qed.
  Lemma length_leg_y2_X : (length (@leg_y2 (list F) PolyOps pX) <= 3)%nat.
  Proof.
    unfold leg_y2. cbn [fadd fmul fsub fopp PolyOps].
    rewrite length_psub. pose proof (length_pmul pX pX) as H. unfold pX in *. cbn [length Nat.pred] in *.
    assert (length (@llit (list F) PolyOps 1) <= 1)%nat by (cbn; lia). lia.
  Qed.
  Lemma length_ppow (p : list F) n : (length p <= 3)%nat -> (length (ppow p n) <= 2 * n + 1)%nat.
  Proof.
    intros Hp. induction n as [|n IH]; cbn [ppow]; [cbn; lia|].
    pose proof (length_pmul p (ppow p n)). lia.
  Qed.

  Section Tables.
    Variable sq : F -> F.

    Lemma leg_qs_length m k :
      (length (fst (leg_qs sq m k)) <= k + 1)%nat /\ (length (snd (leg_qs sq m k)) <= k)%nat.
    Proof.
      induction k as [|k [IH1 IH2]]; cbn [leg_qs fst snd]; [cbn; lia|]. split; [|lia].
      replace (S k + 1)%nat with (k + 2)%nat by lia.
      apply length_leg_step; cbn [pconst pX length]; lia.
    Qed.
    Theorem leg_q_degree m l : (length (leg_q sq m l) <= l - m + 1)%nat.
    Proof. unfold leg_q. apply leg_qs_length. Qed.

    Theorem leg_gram_poly_degree m l l' : (m <= l)%nat -> (m <= l')%nat ->
      (length (leg_gram_poly sq m l l') <= l + l' + 1)%nat.
    Proof.
      intros Hl Hl'. unfold leg_gram_poly.
      pose proof (length_pmul (ppow (@leg_y2 (list F) PolyOps pX) m) (pmul (leg_q sq m l) (leg_q sq m l'))) as H0.
      pose proof (length_ppow _ m length_leg_y2_X) as H1.
      pose proof (length_pmul (leg_q sq m l) (leg_q sq m l')) as H2.
      pose proof (leg_q_degree m l). pose proof (leg_q_degree m l'). lia.
    Qed.

    (** factorisation p[m,i,l] = y_i^m q_{m,l}(x_i), for EVERY node table *)
    Variable nx : nat.
    Variables x y : nat -> F.

    Lemma leg_diag_factor m i : leg_diag sq y m i = lpow (y i) m * leg_cdiag sq m.
    Proof.
      induction m as [|m IH]; cbn [leg_diag leg_cdiag lpow]; [ring|].
      rewrite IH.
      rewrite (proj1 (leg_steps_spec sq (llit (S m)) (y i) (lpow (y i) m * leg_cdiag sq m) 0 0 0 0 0)).
      rewrite (proj1 (leg_steps_spec sq (llit (S m)) 1 (leg_cdiag sq m) 0 0 0 0 0)).
      ring.
    Qed.

    Lemma rs_factor m i k :
      fst (rs sq x y m i k) = lpow (y i) m * peval (fst (leg_qs sq m k)) (x i) /\
      snd (rs sq x y m i k) = lpow (y i) m * peval (snd (leg_qs sq m k)) (x i).
    Proof.
      induction k as [|k [IH1 IH2]]; cbn [rs leg_qs fst snd].
      - rewrite leg_diag_factor, peval_pconst. cbn [peval]. split; ring.
      - split; [|exact IH1].
        rewrite IH1, IH2, peval_leg_step. autorewrite with peval. unfold leg_step. ring.
    Qed.

    Lemma rk_factor m i l : rk sq x y m i (l - m) = lpow (y i) m * peval (leg_q sq m l) (x i).
    Proof. apply rs_factor. Qed.

    Theorem legendre_evaluate_poly n_m n_l m i l : (n_m <= n_l)%nat -> (i < nx)%nat ->
      legendre_evaluate sq nx x y n_m n_l m i l
      = if Nat.ltb m n_m && Nat.leb m l && Nat.ltb l n_l
        then lpow (y i) m * peval (leg_q sq m l) (x i) else 0.
    Proof. intros Hml Hi. rewrite legendre_evaluate_spec by assumption. now rewrite rk_factor. Qed.

    Lemma legendre_evaluate_poly_in n_m n_l m i l :
      (n_m <= n_l)%nat -> (i < nx)%nat -> (m < n_m)%nat -> (m <= l)%nat -> (l < n_l)%nat ->
      legendre_evaluate sq nx x y n_m n_l m i l = lpow (y i) m * peval (leg_q sq m l) (x i).
    Proof. intros Hml Hi Hm H1 H2. rewrite legendre_evaluate_in by assumption. apply rk_factor. Qed.

    (** the Gram integrand is one polynomial in x (needs y^2 = 1 - x^2, the generated radicand) *)
    Theorem legendre_gram_integrand n_m n_l m i l l' :
      (n_m <= n_l)%nat -> (i < nx)%nat -> (m < n_m)%nat ->
      (m <= l)%nat -> (l < n_l)%nat -> (m <= l')%nat -> (l' < n_l)%nat ->
      y i * y i = leg_y2 (x i) ->
      legendre_evaluate sq nx x y n_m n_l m i l * legendre_evaluate sq nx x y n_m n_l m i l'
      = peval (leg_gram_poly sq m l l') (x i).
    Proof.
      intros Hml Hi Hm H1 H2 H3 H4 Hy. rewrite !legendre_evaluate_poly_in by assumption.
      unfold leg_gram_poly. autorewrite with peval. rewrite peval_leg_y2, peval_pX, <- Hy, lpow_mul. ring.
    Qed.

    (** quadrature: a rule that integrates the monomials x^n, n <= D, to mom n integrates every
        polynomial of degree <= D to the functional [pint mom] of its coefficient list *)
    Variable w : nat -> F.
    Variable mom : nat -> F.
    Variable D : nat.
    Hypothesis H_rule_exact : forall n, (n <= D)%nat -> sumn nx (fun j => w j * lpow (x j) n) = mom n.

    Lemma quadrature_poly_from (p : list F) : forall s, (s + length p <= D + 1)%nat ->
      sumn nx (fun j => w j * (lpow (x j) s * peval p (x j))) = pint_from mom s p.
    Proof.
      induction p as [|a p IH]; intros s Hs; cbn [peval pint_from].
      - apply sumn_zero. intros j _. ring.
      - cbn [length] in Hs.
        rewrite (sumn_ext nx _ (fun j => a * (w j * lpow (x j) s) + w j * (lpow (x j) (S s) * peval p (x j)))).
        2:{ intros j _. cbn [lpow]. ring. }
        rewrite sumn_add, sumn_scal_l, H_rule_exact by lia. rewrite IH by lia. reflexivity.
    Qed.
    Lemma quadrature_poly (p : list F) : (length p <= D + 1)%nat ->
      sumn nx (fun j => w j * peval p (x j)) = pint mom p.
    Proof.
      intros Hp. unfold pint. rewrite <- quadrature_poly_from by lia.
      apply sumn_ext. intros j _. cbn [lpow]. ring.
    Qed.

    (** the discrete Legendre Gram entry is the functional of a node-independent polynomial *)
    Theorem legendre_gram_is_moment_functional n_m n_l m l l' :
      (n_m <= n_l)%nat -> (m < n_m)%nat ->
      (m <= l)%nat -> (l < n_l)%nat -> (m <= l')%nat -> (l' < n_l)%nat -> (l + l' <= D)%nat ->
      (forall i, (i < nx)%nat -> y i * y i = leg_y2 (x i)) ->
      sumn nx (fun i => w i * (legendre_evaluate sq nx x y n_m n_l m i l * legendre_evaluate sq nx x y n_m n_l m i l'))
      = pint mom (leg_gram_poly sq m l l').
    Proof.
      intros Hml Hm H1 H2 H3 H4 HD Hy.
      rewrite <- quadrature_poly by (pose proof (leg_gram_poly_degree m l l' H1 H3); lia).
      apply sumn_ext. intros i Hi. f_equal. apply (legendre_gram_integrand n_m n_l); auto.
    Qed.

    (** hence the table obligation [H_legendre_orth_deg] of the round-trip theorems (basis.p[a] =
        evaluate(M, L, x)[|m(a)|]) reduces to a statement about the functional and the coefficient
        lists only - no node, no weight occurs in the premise [H_functional] *)
    Theorem legendre_orth_deg_from_functional M L :
      (M <= L)%nat ->
      (forall i, (i < nx)%nat -> y i * y i = leg_y2 (x i)) ->
      (forall m l l', (m < M)%nat -> (m <= l)%nat -> (l < L)%nat -> (m <= l')%nat -> (l' < L)%nat -> (l + l' <= D)%nat ->
         pint mom (leg_gram_poly sq m l l') = delta l l') ->
      H_legendre_orth_deg (modal_rows_real M) L nx
        (fun a j l => legendre_evaluate sq nx x y M L (mabs_real a) j l) w mabs_real D.
    Proof.
      intros HML Hy Hfun a l l' Ha H1 H2 H3 H4 HD.
      pose proof (mabs_real_lt M a Ha) as Hm.
      rewrite (legendre_gram_is_moment_functional M L (mabs_real a) l l') by assumption.
      now apply Hfun.
    Qed.
  End Tables.
End Poly.

(** with [Model/SHT.v]'s predicate: on a grid that resolves its truncation (2(L-1) <= exact_degree),
    a rule exact to [exact_degree spacing J] gives the FULL orthonormality hypothesis of the round
    trip from the functional statement alone *)
Theorem legendre_orth_resolves {F : Type} {o : Ops F} {Fc : FieldC o}
  (sq : F -> F) (J : nat) (x y w mom : nat -> F) (spacing I M L : nat) :
  resolves spacing I J M L = true ->
  (forall n, (n <= exact_degree spacing J)%nat -> sumn J (fun j => w j * lpow (x j) n) = mom n) ->
  (forall i, (i < J)%nat -> y i * y i = leg_y2 (x i)) ->
  (forall m l l', (m < M)%nat -> (m <= l)%nat -> (l < L)%nat -> (m <= l')%nat -> (l' < L)%nat ->
     pint mom (leg_gram_poly sq m l l') = delta l l') ->
  H_legendre_orth (modal_rows_real M) L J
    (fun a j l => legendre_evaluate sq J x y M L (mabs_real a) j l) w mabs_real.
Proof.
  intros Hres Hrule Hy Hfun. unfold resolves in Hres.
  rewrite !andb_true_iff, !Nat.leb_le in Hres. destruct Hres as [[[[HM HML] HI] HJ] HD].
  intros a l l' Ha H1 H2 H3 H4.
  apply (legendre_orth_deg_from_functional sq J x y w mom (exact_degree spacing J) Hrule M L HML Hy); auto; try lia.
Qed.

(** (C02) the derivative relation of the basis functions from the three-term recurrence.
    Abstract form: ANY sequences Q k, dQ k (values at a point t of q_{m,m+k} and of its formal
    derivative) that satisfy the code's three-term recurrence in normalised form (HR, with
    Q_{-1} = 0) and its formal derivative (HdR: product rule on x * q), with eps obeying
    1 + (2l-1) eps_l^2 = (2l+3) eps_{l+1}^2 (a consequence [eps2_key] of the closed form
    eps^2 = a2_expr 1 l m of Gen/DerivExprs.v), satisfy
      (1 - t^2) dQ_k - m t Q_k = (l+1) eps_l Q_{k-1} - l eps_{l+1} Q_{k+1},   l = m + k,
    i.e. (1-x^2) d/dx P_l^m = (l+1) eps_l P_{l-1}^m - l eps_{l+1} P_{l+1}^m: exactly the weights
    d1_wm = (l+1) a, d1_wp = -l b of Grid.cos_lat_d_dlat.
    The instantiation Q k := peval (leg_q ..) t, dQ k := peval (pderiv (leg_q ..)) t is section
    LegendreDerivative below; it needs the Leibniz rule of [pderiv] on [pmul]. *)
Section DerivRel.
  Context {F : Type} {o : Ops F} {Fc : FieldC o}.
  Add Field FFdr : (field_c : FieldTh o).

  (** a = b from six equations: a - b is the combination of their residuals with coefficients c_i *)
  Lemma lin_comb6 (c1 c2 c3 c4 c5 c6 l1 r1 l2 r2 l3 r3 l4 r4 l5 r5 l6 r6 a b : F) :
    l1 = r1 -> l2 = r2 -> l3 = r3 -> l4 = r4 -> l5 = r5 -> l6 = r6 ->
    a - b = c1 * (l1 - r1) + c2 * (l2 - r2) + c3 * (l3 - r3) + c4 * (l4 - r4) + c5 * (l5 - r5) + c6 * (l6 - r6) ->
    a = b.
  Proof. intros -> -> -> -> -> -> H. transitivity (a - b + b); [ring|]. rewrite H. ring. Qed.

  (** 1 + (2l-1) eps^2(m,l) = (2l+3) eps^2(m,l+1) for the closed form eps^2 = a2_expr 1 l m *)
  Lemma eps2_key (l m : F) :
    lit 4 * (l * l) - 1 <> 0 -> lit 4 * ((l + 1) * (l + 1)) - 1 <> 0 ->
    1 + ((1 + 1) * l - 1) * a2_expr 1 l m = ((1 + 1) * l + 1 + 1 + 1) * a2_expr 1 (l + 1) m.
  Proof.
    intros H1 H2. unfold a2_expr. cbn [lit] in *.
    replace (0 + 1 + 1 + 1 + 1 : F) with ((1 + 1) * (1 + 1) : F) in * by ring.
    field. split; assumption.
  Qed.

  (** the sequence shifted by one, Q_{-1} = 0: the first step of a three-term recurrence is then the general one *)
  Definition prev (Q : nat -> F) (k : nat) : F := match k with O => 0 | S k' => Q k' end.

  Lemma prev_rec (e u v w : nat -> F) : e 0%nat = 0 -> u 0%nat = v 0%nat ->
    (forall k, u (S k) = v (S k) - e (S k) * w k) -> forall k, u k = v k - e k * prev w k.
  Proof. intros He H0 HS [|k]; [rewrite H0, He; cbn [prev]; ring | apply HS]. Qed.

  (** the derivative relation from the three-term recurrence and its formal derivative.
      For a fixed order m (field value M) and point t:  Q k, dQ k are the values of q_{m,m+k} and of
      its formal derivative, e k = eps(m, m+k), Lf k = m + k.  (1-t^2) dQ k - M t Q k is the
      value of D = (1-x^2) d/dx applied to y^m q (divided by y^m). *)
  Variables (t M : F) (Q dQ e Lf : nat -> F).
  Hypothesis HL0 : Lf 0%nat = M.
  Hypothesis HLS : forall k, Lf (S k) = Lf k + 1.
  Hypothesis He0 : e 0%nat = 0.
  Hypothesis Hnz : forall k, e (S k) <> 0.
  Hypothesis HR : forall k, e (S k) * Q (S k) = t * Q k - e k * prev Q k.
  Hypothesis HdQ0 : dQ 0%nat = 0.
  Hypothesis HdR : forall k, e (S k) * dQ (S k) = Q k + t * dQ k - e k * prev dQ k.
  Hypothesis Hkey : forall k, 1 + ((1 + 1) * Lf k - 1) * (e k * e k) = ((1 + 1) * Lf k + 1 + 1 + 1) * (e (S k) * e (S k)).

  (** one-sided form.  Step k+1 follows from steps k and k-1 after multiplication by e (k+1); step k-1
      enters multiplied by e k, so that e 0 = 0 makes k = 0 an instance *)
  Lemma deriv_one_sided k :
    (1 - t * t) * dQ k - M * t * Q k = (Lf k + 1) * t * Q k - ((1 + 1) * Lf k + 1) * (e (S k) * Q (S k)).
  Proof.
    cut (e k * ((1 - t * t) * prev dQ k - M * t * prev Q k)
         = e k * (Lf k * t * prev Q k - ((1 + 1) * Lf k - 1) * (e k * Q k))
         /\ (1 - t * t) * dQ k - M * t * Q k = (Lf k + 1) * t * Q k - ((1 + 1) * Lf k + 1) * (e (S k) * Q (S k)));
      [tauto|].
    induction k as [|k [IH0 IH1]].
    - split; [rewrite He0; ring|]. rewrite HR, HdQ0, He0, HL0. ring.
    - split; [cbn [prev]; rewrite IH1, HLS; ring|].
      apply (fmul_cancel_l (e (S k))); [apply Hnz|].
      apply (lin_comb6 (1 - t * t) (- (M + Lf k) * t) t (- (1)) (Q k) (((1 + 1) * Lf k + 1 + 1 + 1) * e (S k))
               _ _ _ _ _ _ _ _ _ _ _ _ _ _ (HdR k) (HR k) IH1 IH0 (Hkey k) (HR (S k))).
      cbn [prev]. rewrite HLS. ring.
  Qed.

  (** (1 - x^2) d/dx P_l = (l+1) eps_l P_{l-1} - l eps_{l+1} P_{l+1}   (P_{m-1} = 0) *)
  Theorem deriv_relation_abstract k :
    (1 - t * t) * dQ k - M * t * Q k = (Lf k + 1) * (e k * prev Q k) - Lf k * (e (S k) * Q (S k)).
  Proof. rewrite deriv_one_sided, HR. ring. Qed.
End DerivRel.

(** formal derivative on coefficient lists: linearity and the Leibniz rule hold after evaluation at a point *)
Section PolyDeriv.
  Context {F : Type} {o : Ops F} {Fc : FieldC o}.
  Add Field FFpd : (field_c : FieldTh o).

  Lemma pdf_S n (p : list F) t :
    peval (pderiv_from (S n) p) t = peval (pderiv_from n p) t + peval p t.
  Proof.
    revert n; induction p as [|a p IH]; intros n; cbn [pderiv_from peval]; [ring|].
    rewrite (IH (S n)). cbn [llit]. ring.
  Qed.
  Lemma pdf_0 (p : list F) t : peval (pderiv_from 0 p) t = t * peval (pderiv p) t.
  Proof. destruct p as [|a p]; cbn [pderiv_from pderiv peval llit]; ring. Qed.
  Lemma pderiv_cons a (p : list F) t :
    peval (pderiv (a :: p)) t = peval p t + t * peval (pderiv p) t.
  Proof. cbn [pderiv]. rewrite pdf_S, pdf_0. ring. Qed.

  Lemma pderiv_padd (p q : list F) t :
    peval (pderiv (padd p q)) t = peval (pderiv p) t + peval (pderiv q) t.
  Proof.
    revert q; induction p as [|a p IH]; intros [|b q]; cbn [padd]; rewrite ?pderiv_cons, ?IH, ?peval_padd;
      cbn [pderiv peval]; ring.
  Qed.
  Lemma pderiv_pscale c (p : list F) t : peval (pderiv (pscale c p)) t = c * peval (pderiv p) t.
  Proof.
    induction p as [|a p IH]; [cbn [pscale map pderiv peval]; ring|].
    change (pscale c (a :: p)) with (c * a :: pscale c p). rewrite !pderiv_cons, IH, peval_pscale. ring.
  Qed.
  Lemma pderiv_popp (p : list F) t : peval (pderiv (popp p)) t = - peval (pderiv p) t.
  Proof.
    induction p as [|a p IH]; [cbn [popp map pderiv peval]; ring|].
    change (popp (a :: p)) with (- a :: popp p). rewrite !pderiv_cons, IH, peval_popp. ring.
  Qed.
  Lemma pderiv_psub (p q : list F) t :
    peval (pderiv (psub p q)) t = peval (pderiv p) t - peval (pderiv q) t.
  Proof. unfold psub. rewrite pderiv_padd, pderiv_popp. ring. Qed.
  Lemma pderiv_pmulx (p : list F) t : peval (pderiv (pmulx p)) t = peval p t + t * peval (pderiv p) t.
  Proof. unfold pmulx. apply pderiv_cons. Qed.

  Theorem pderiv_pmul (p q : list F) t :
    peval (pderiv (pmul p q)) t = peval (pderiv p) t * peval q t + peval p t * peval (pderiv q) t.
  Proof.
    induction p as [|a p IH]; [cbn [pmul pderiv peval]; ring|].
    cbn [pmul]. rewrite pderiv_padd, pderiv_pscale, pderiv_pmulx, IH, peval_pmul, pderiv_cons.
    cbn [peval]. ring.
  Qed.
  Lemma pderiv_pconst (c t : F) : peval (pderiv (pconst c)) t = 0.
  Proof. reflexivity. Qed.
  Lemma pderiv_pX (t : F) : peval (pderiv pX) t = 1.
  Proof. unfold pX. cbn [pderiv pderiv_from peval llit]. ring. Qed.

  (** derivative of the generated three-term step with constant a, b and X = x *)
  Lemma pderiv_leg_step (a b : F) (p1 p2 : list F) t :
    peval (pderiv (@leg_step (list F) PolyOps (pconst a) (pconst b) pX p1 p2)) t
    = a * (peval p1 t + t * peval (pderiv p1) t - b * peval (pderiv p2) t).
  Proof.
    unfold leg_step. cbn [fadd fmul fsub fopp PolyOps].
    rewrite pderiv_pmul, pderiv_psub, !pderiv_pmul, !pderiv_pconst, pderiv_pX. autorewrite with peval. ring.
  Qed.
End PolyDeriv.

(** (C02) the derivative relation for the code's recurrence: instantiation of
    [deriv_relation_abstract] with the coefficient lists [leg_qs] (built by the generated [leg_step]
    at [PolyOps]) and their formal derivative.
    eb k = sqrt(rad_b m k) is the code's coefficient b at step k, i.e. eps(m, m+k-1);
    ea k = sqrt(rad_a m k) the coefficient a.  Hypotheses on np.sqrt: it squares to the radicand on
    the b-radicands [Hsq], it is 0 on the zero radicand of step 1 [Hb1], a_k * b_{k+1} = 1 (the two
    radicands are reciprocal, Thm/Legendre.v rad_a_rad_b) [Hrec]; and 4 l^2 - 1 <> 0 in F [Hden]. *)
Section LegendreDerivative.
  Context {F : Type} {o : Ops F} {Fc : FieldC o}.
  Add Field FFld : (field_c : FieldTh o).
  Variable sq : F -> F.
  Variable m : nat.
  Definition leg_ea (k : nat) : F := sq (rad_a (llit m) (llit k)).
  Definition leg_eb (k : nat) : F := sq (rad_b (llit m) (llit k)).
  Hypothesis Hsq : forall k, leg_eb (S k) * leg_eb (S k) = rad_b (llit m) (llit (S k)).
  Hypothesis Hb1 : leg_eb 1 = 0.
  Hypothesis Hrec : forall k, leg_ea (S k) * leg_eb (S (S k)) = 1.
  Hypothesis Hden : forall k, lit 4 * (llit (m + k) * llit (m + k)) - 1 <> 0.

  Lemma leg_qs_fst_S k :
    fst (leg_qs sq m (S k))
    = @leg_step (list F) PolyOps (pconst (leg_ea (S k))) (pconst (leg_eb (S k))) pX
                (fst (leg_qs sq m k)) (snd (leg_qs sq m k)).
  Proof. reflexivity. Qed.

  Lemma leg_eb_nz k : leg_eb (S (S k)) <> 0.
  Proof. apply (fmul_eq1_nz _ (leg_ea (S k))). rewrite <- (Hrec k). ring. Qed.

  Lemma leg_eb_sq k : leg_eb (S k) * leg_eb (S k) = a2_expr 1 (llit (m + k)) (llit m).
  Proof. rewrite Hsq, rad_b_eps2, llit_mk. reflexivity. Qed.

  Section AtPoint.
    Variable t : F.
    Let Q (k : nat) : F := peval (fst (leg_qs sq m k)) t.
    Let dQ (k : nat) : F := peval (pderiv (fst (leg_qs sq m k))) t.
    Let e (k : nat) : F := leg_eb (S k).
    Let Lf (k : nat) : F := llit (m + k).

    (** the second component of [leg_qs] is the sequence shifted by one *)
    Lemma Q_prev k : peval (snd (leg_qs sq m k)) t = prev Q k.
    Proof. destruct k; reflexivity. Qed.
    Lemma dQ_prev k : peval (pderiv (snd (leg_qs sq m k))) t = prev dQ k.
    Proof. destruct k; reflexivity. Qed.

    Lemma Q_S k : Q (S k) = leg_ea (S k) * (t * Q k - leg_eb (S k) * prev Q k).
    Proof.
      rewrite <- Q_prev. unfold Q. rewrite leg_qs_fst_S, peval_leg_step. autorewrite with peval. unfold leg_step. ring.
    Qed.
    Lemma dQ_S k : dQ (S k) = leg_ea (S k) * (Q k + t * dQ k - leg_eb (S k) * prev dQ k).
    Proof. rewrite <- dQ_prev. unfold dQ, Q. rewrite leg_qs_fst_S, pderiv_leg_step. reflexivity. Qed.

    (** the step of the code, a_k (x q_k - b_k q_{k-1}), in normalised form: a_k b_{k+1} = 1 *)
    Lemma leg_normalise k (u : F) : e (S k) * (leg_ea (S k) * u) = u.
    Proof. transitivity (leg_ea (S k) * leg_eb (S (S k)) * u); [unfold e; ring|]. rewrite Hrec. ring. Qed.

    Lemma leg_HR k : e (S k) * Q (S k) = t * Q k - e k * prev Q k.
    Proof. rewrite Q_S. apply leg_normalise. Qed.
    Lemma leg_HdR k : e (S k) * dQ (S k) = Q k + t * dQ k - e k * prev dQ k.
    Proof. rewrite dQ_S. apply leg_normalise. Qed.
    Lemma leg_Hkey k :
      1 + ((1 + 1) * Lf k - 1) * (e k * e k) = ((1 + 1) * Lf k + 1 + 1 + 1) * (e (S k) * e (S k)).
    Proof.
      unfold e, Lf. rewrite !leg_eb_sq.
      replace (llit (m + S k) : F) with (llit (m + k) + 1 : F) by (rewrite Nat.add_succ_r; reflexivity).
      apply eps2_key; [apply Hden|].
      pose proof (Hden (S k)) as H. rewrite Nat.add_succ_r in H. exact H.
    Qed.

    Lemma peval_leg_Dm (q : list F) :
      peval (leg_Dm m q) t = (1 - t * t) * peval (pderiv q) t - llit m * t * peval q t.
    Proof.
      unfold leg_Dm. autorewrite with peval. rewrite peval_leg_y2, peval_pX, leg_y2_spec. ring.
    Qed.

    (** (1 - x^2) q_l' - m x q_l = d1_wm(l, eps_l) q_{l-1} + d1_wp(l, eps_{l+1}) q_{l+1},  l = m + k *)
    Theorem leg_q_derivative_relation k :
      peval (leg_Dm m (fst (leg_qs sq m k))) t
      = d1_wm (lit (m + k)) (leg_eb (S k)) * (match k with O => 0 | S k' => peval (fst (leg_qs sq m k')) t end)
        + d1_wp (lit (m + k)) (leg_eb (S (S k))) * peval (fst (leg_qs sq m (S k))) t.
    Proof.
      rewrite peval_leg_Dm.
      etransitivity.
      { exact (deriv_relation_abstract t (llit m) Q dQ e Lf (f_equal llit (Nat.add_0_r m))
                 (fun k => f_equal llit (Nat.add_succ_r m k)) Hb1 leg_eb_nz leg_HR eq_refl leg_HdR leg_Hkey k). }
      unfold d1_wm, d1_wp, e, Lf, Q, prev. change (@lit F o (m + k)) with (@llit F o (m + k)). cbn [lit].
      destruct k; ring.
    Qed.
  End AtPoint.
End LegendreDerivative.

(** the same on the Legendre TABLE of the code: with P[m,i,l] = evaluate(n_m, n_l, x)[m,i,l] = y_i^m q_{m,l}(x_i),
    the value of (1 - x^2) d/dx P at node i, y_i^m * ((1 - x^2) q' - m x q)(x_i) = y_i^m * leg_Dm, is the
    d1_wm / d1_wp weighted combination of the neighbouring table entries, with a = eps(m,l), b = eps(m,l+1) *)
Section LegendreDerivativeTable.
  Context {F : Type} {o : Ops F} {Fc : FieldC o}.
  Add Field FFldt : (field_c : FieldTh o).
  Variable sq : F -> F.

  Lemma leg_q_mk m k : leg_q sq m (m + k) = fst (leg_qs sq m k).
  Proof. unfold leg_q. replace (m + k - m)%nat with k by lia. reflexivity. Qed.
  Lemma leg_eps_mk m k : leg_eps sq m (m + k) = leg_eb sq m (S k).
  Proof. unfold leg_eps, leg_b, leg_eb. replace (m + k + 1 - m)%nat with (S k) by lia. reflexivity. Qed.

  Theorem legendre_derivative_relation nx (x y : nat -> F) n_m n_l m i k :
    (forall j, leg_eb sq m (S j) * leg_eb sq m (S j) = rad_b (llit m) (llit (S j))) ->
    leg_eb sq m 1 = 0 ->
    (forall j, leg_ea sq m (S j) * leg_eb sq m (S (S j)) = 1) ->
    (forall j, lit 4 * (llit (m + j)%nat * llit (m + j)%nat) - 1 <> 0) ->
    (n_m <= n_l)%nat -> (i < nx)%nat -> (m < n_m)%nat -> (m + k + 1 < n_l)%nat ->
    lpow (y i) m * peval (leg_Dm m (leg_q sq m (m + k)%nat)) (x i)
    = d1_wm (lit (m + k)%nat) (leg_eps sq m (m + k)%nat)
        * (match k with O => 0 | S k' => legendre_evaluate sq nx x y n_m n_l m i (m + k')%nat end)
      + d1_wp (lit (m + k)%nat) (leg_eps sq m (m + k + 1)%nat) * legendre_evaluate sq nx x y n_m n_l m i (m + k + 1)%nat.
  Proof.
    intros Hsq Hb1 Hrec Hden Hml Hi Hm Hk.
    assert (Hev : forall j, (m + j < n_l)%nat ->
              legendre_evaluate sq nx x y n_m n_l m i (m + j)%nat = lpow (y i) m * peval (fst (leg_qs sq m j)) (x i)).
    { intros j Hj. rewrite legendre_evaluate_poly_in, leg_q_mk by (assumption || lia). reflexivity. }
    rewrite leg_q_mk, (leg_q_derivative_relation sq m Hsq Hb1 Hrec Hden (x i) k).
    rewrite leg_eps_mk. replace (m + k + 1)%nat with (m + S k)%nat by lia. rewrite leg_eps_mk, (Hev (S k)) by lia.
    destruct k as [|k']; [ring|]. rewrite (Hev k') by lia. ring.
  Qed.
End LegendreDerivativeTable.
