(** Theorems about the sharded code paths (property C07): for every ring/field,
    every ring size n (1 or even), every chunk size and all data. *)
From Dino Require Import Base.Ops Base.Sums Base.Ord Model.Sigma Thm.Sigma Model.Sharding.
Local Open Scope F_scope.

Section ModLemmas.
  Lemma div_mod_lt g c : (0 < c)%nat -> (g = c * (g / c) + g mod c /\ g mod c < c)%nat.
  Proof. intros Hc. split; [apply Nat.div_mod|apply Nat.mod_upper_bound]; lia. Qed.

  Lemma divmod_block b q r : (r < b)%nat -> ((r + b * q) / b = q /\ (r + b * q) mod b = r)%nat.
  Proof.
    intros Hr. split.
    - symmetry. apply (Nat.div_unique _ b q r); lia.
    - symmetry. apply (Nat.mod_unique _ b q r); lia.
  Qed.

  Lemma pymod_lt n z : (0 < n)%nat -> (pymod n z < n)%nat.
  Proof.
    intros Hn. unfold pymod.
    assert (H : (0 <= z mod Z.of_nat n < Z.of_nat n)%Z) by (apply Z.mod_pos_bound; lia).
    lia.
  Qed.

  Lemma pymod_decomp n z : (0 < n)%nat -> exists q : Z, z = (Z.of_nat (pymod n z) + q * Z.of_nat n)%Z.
  Proof.
    intros Hn. exists (z / Z.of_nat n)%Z. unfold pymod.
    assert (H : (0 <= z mod Z.of_nat n < Z.of_nat n)%Z) by (apply Z.mod_pos_bound; lia).
    rewrite Z2Nat.id by lia.
    pose proof (Z.div_mod z (Z.of_nat n) ltac:(lia)) as E. lia.
  Qed.

  Lemma pymod_eq n a b k : (0 < n)%nat -> a = (b + k * Z.of_nat n)%Z -> pymod n a = pymod n b.
  Proof. intros Hn ->. unfold pymod. now rewrite Z.mod_add by lia. Qed.

  Lemma pymod_small n d : (d < n)%nat -> pymod n (Z.of_nat d) = d.
  Proof. intros Hd. unfold pymod. rewrite Z.mod_small by lia. apply Nat2Z.id. Qed.

  (** the device [z] places after device [d] on the ring; [ag_chunk_index],
      [perm_fwd] and [perm_bwd] are instances *)
  Definition rot (n d : nat) (z : Z) : nat := pymod n (Z.of_nat d + z).

  Lemma rot_lt n d z : (0 < n)%nat -> (rot n d z < n)%nat.
  Proof. apply pymod_lt. Qed.

  Lemma rot_id n d z k : (d < n)%nat -> z = (k * Z.of_nat n)%Z -> rot n d z = d.
  Proof.
    intros Hd ->. unfold rot. rewrite (pymod_eq n _ (Z.of_nat d) k) by lia. now apply pymod_small.
  Qed.

  Lemma rot_0 n d : (d < n)%nat -> rot n d 0 = d.
  Proof. intros Hd. now apply (rot_id n d 0 0). Qed.

  Lemma rot_rot n d a b : (0 < n)%nat -> rot n (rot n d a) b = rot n d (a + b).
  Proof.
    intros Hn. unfold rot. destruct (pymod_decomp n (Z.of_nat d + a) Hn) as [q Hq].
    apply (pymod_eq n _ _ (- q) Hn). lia.
  Qed.

  Lemma find_unique (p : nat -> bool) l s0 :
    In s0 l -> p s0 = true -> (forall s, In s l -> p s = true -> s = s0) -> find p l = Some s0.
  Proof.
    induction l as [|x l IH]; intros Hin Hp Hu; [destruct Hin|].
    cbn. destruct (p x) eqn:E.
    - f_equal. apply Hu; [now left|exact E].
    - destruct Hin as [->|Hin]; [congruence|].
      apply IH; auto. intros s Hs. apply Hu. now right.
  Qed.

  (** after a rotation by [s] places device d holds what device d - s had *)
  Lemma ppermute_rot {T} n (zero : T) (s : Z) perm (x : nat -> T) d :
    (forall j, perm j = rot n j s) -> (d < n)%nat -> ppermute n zero perm x d = x (rot n d (- s)).
  Proof.
    intros Hp Hd. assert (Hn : (0 < n)%nat) by lia. unfold ppermute.
    rewrite (find_unique _ _ (rot n d (- s))); [reflexivity| | |].
    - apply in_seq. pose proof (rot_lt n d (- s) Hn). lia.
    - apply Nat.eqb_eq. rewrite Hp, rot_rot, Z.add_opp_diag_l by exact Hn. now apply rot_0.
    - intros j Hj E. apply in_seq in Hj. apply Nat.eqb_eq in E.
      rewrite <- E, Hp, rot_rot, Z.add_opp_diag_r by exact Hn. symmetry. apply rot_0. lia.
  Qed.

  Lemma ppermute_fwd_eq {T} n (zero : T) (x : nat -> T) d :
    (d < n)%nat -> ppermute n zero (perm_fwd n) x d = x (rot n d (-1)).
  Proof. apply (ppermute_rot n zero 1). reflexivity. Qed.

  Lemma ppermute_bwd_eq {T} n (zero : T) (x : nat -> T) d :
    (d < n)%nat -> ppermute n zero (perm_bwd n) x d = x (rot n d 1).
  Proof. apply (ppermute_rot n zero (-1)). reflexivity. Qed.

  Lemma gather_block {T} c (x : nat -> nat -> T) q j :
    (j < c)%nat -> all_gather_tiled c x (q * c + j)%nat = x q j.
  Proof.
    intros Hj. unfold all_gather_tiled. replace (q * c + j)%nat with (j + c * q)%nat by lia.
    now destruct (divmod_block c q j Hj) as [-> ->].
  Qed.

  Lemma regather {T} c (X : nat -> T) g :
    (0 < c)%nat -> all_gather_tiled c (fun d j => X (d * c + j)%nat) g = X g.
  Proof.
    intros Hc. unfold all_gather_tiled. f_equal.
    destruct (div_mod_lt g c Hc). lia.
  Qed.

  Lemma twoway_guards h :
    (0 < h)%nat -> Nat.eqb (2 * h) 1 = false /\ Nat.eqb ((2 * h) mod 2) 1 = false /\ (2 * h / 2 = h)%nat.
  Proof.
    intros Hh. rewrite (Nat.mul_comm 2 h), Nat.mod_mul, Nat.div_mul by lia.
    repeat split. apply Nat.eqb_neq. lia.
  Qed.

  Lemma even_half n : (0 < n)%nat -> (n mod 2 = 0)%nat -> (n = 2 * (n / 2) /\ 0 < n / 2)%nat.
  Proof. intros Hn He. destruct (div_mod_lt n 2 ltac:(lia)). lia. Qed.
End ModLemmas.

Section Ring.
  Context {F : Type} {o : Ops F} {Fc : FieldC o}.
  Add Field FFsh : (field_c : FieldTh o).

  (** the devices visited by the two directions (h backwards from d + w, h
      forwards from d + w + 1) are exactly all n = 2h devices *)
  Lemma two_way_cover h (G : nat -> F) d (w : Z) :
    (0 < h)%nat ->
    sumn h (fun t => G (rot (2 * h) d (w - Z.of_nat t)))
    + sumn h (fun t => G (rot (2 * h) d (w + Z.of_nat t + 1)))
    = sumn (2 * h) G.
  Proof.
    intros Hh. set (n := (2 * h)%nat). assert (Hn : (0 < n)%nat) by (unfold n; lia).
    destruct (pymod_decomp n (Z.of_nat d + w) Hn) as [q Hq].
    set (r := pymod n (Z.of_nat d + w)) in *.
    set (K := fun t => G ((t + (r + h + 1)) mod n)%nat).
    assert (E : forall z (m : nat), (z = Z.of_nat h + 1 + Z.of_nat m - Z.of_nat n)%Z ->
                  G (rot n d (w + z)) = K m).
    { intros z m ->. unfold K, rot. f_equal. rewrite (pymod_eq n _ (Z.of_nat (m + (r + h + 1))) (q - 1) Hn) by lia.
      unfold pymod. rewrite <- Nat2Z.inj_mod. apply Nat2Z.id. }
    rewrite (sumn_ext h _ (fun t => K (h - 1 - t)%nat)) by (intros t Ht; apply (E (- Z.of_nat t)%Z); unfold n; lia).
    rewrite <- (sumn_rev h K).
    rewrite (sumn_ext h (fun t => G (rot n d (w + Z.of_nat t + 1))) (fun t => K (h + t)%nat)).
    2:{ intros t Ht. rewrite <- Z.add_assoc. apply E. unfold n. lia. }
    rewrite <- (sumn_split h h K).
    replace (h + h)%nat with n by (unfold n; lia).
    apply sumn_cyclic_shift.
  Qed.

  Lemma chunk_matmul_eq rev len (l r : nat -> F) :
    chunk_matmul rev len l r = sumn len (fun j => l j * r j).
  Proof. unfold chunk_matmul. apply sumn_ext. intros j _. destruct rev; ring. Qed.

  Lemma pc_loop_sum c rv (x : nat -> nat -> F) d k total :
    pc_loop c rv x d k total
    = total + sumn k (fun k' => ind (pc_op rv (pc_index rv k') d) * pc_sums c rv x (pc_index rv k')).
  Proof.
    induction k as [|k IH]; cbn [pc_loop sumn]; [ring|]. rewrite IH. ring.
  Qed.

  Lemma cumsum_dot_full c (y : nat -> F) : cumsum_dot c y (c - 1) = sumn c y.
  Proof.
    unfold cumsum_dot. apply sumn_ext. intros i Hi.
    destruct (Nat.leb_spec i (c - 1)); [cbn; ring|lia].
  Qed.

  Lemma pc_sums_eq c rv (x : nat -> nat -> F) e : pc_sums c rv x e = sumn c (x e).
  Proof.
    unfold pc_sums, all_gather_tiled, pc_last_partial, pc_partials. rewrite Nat.div_1_r.
    destruct rv; [apply revcumsum_dot_first | apply cumsum_dot_full].
  Qed.

  (** the loop leaves out one device, which the comparison excludes anyway *)
  Lemma pc_range rv n d (f : nat -> F) :
    (d < n)%nat ->
    sumn (n - 1) (fun k => ind (pc_op rv (pc_index rv k) d) * f (pc_index rv k))
    = sumn n (fun e => ind (pc_op rv e d) * f e).
  Proof.
    intros Hd. replace n with (S (n - 1)) at 2 by lia. unfold pc_op, pc_index. destruct rv.
    - rewrite sumn_S_first. destruct (Nat.ltb_spec d 0); [lia|]. cbn [ind Nat.add]. ring.
    - cbn [sumn]. destruct (Nat.ltb_spec (n - 1) d); [lia|]. cbn [ind]. ring.
  Qed.

  (** the mask of [revcumsum_dot] ([rv = true]) and of [cumsum_dot]; on blocks of
      length c it compares the blocks with [pc_op], inside a block the offsets *)
  Definition cs_mask (rv : bool) (i g : nat) : bool := if rv then Nat.leb g i else Nat.leb i g.

  Lemma cs_dot_eq (rv : bool) K (X : nat -> F) g :
    (if rv then revcumsum_dot K X g else cumsum_dot K X g) = sumn K (fun i => ind (cs_mask rv i g) * X i).
  Proof. destruct rv; reflexivity. Qed.

  Lemma cs_mask_block rv c e i d j :
    (i < c)%nat -> (j < c)%nat ->
    cs_mask rv (e * c + i) (d * c + j) = if Nat.eqb e d then cs_mask rv i j else pc_op rv e d.
  Proof.
    intros Hi Hj. unfold cs_mask, pc_op.
    destruct rv, (Nat.eqb_spec e d) as [->|Hne]; apply Bool.eq_true_iff_eq;
      rewrite ?Nat.leb_le, ?Nat.ltb_lt; nia.
  Qed.

  Theorem parallel_cumsum_rv (rv : bool) n c (x : nat -> nat -> F) d j :
    (d < n)%nat -> (j < c)%nat ->
    parallel_dot_cumsum n c rv x d j
    = if rv then revcumsum_dot (n * c) (all_gather_tiled c x) (d * c + j)
      else cumsum_dot (n * c) (all_gather_tiled c x) (d * c + j).
  Proof.
    intros Hd Hj. unfold parallel_dot_cumsum. rewrite pc_loop_sum, cs_dot_eq, sumn_blocks.
    rewrite (sumn_ext (n - 1) _ (fun k => ind (pc_op rv (pc_index rv k) d) * sumn c (x (pc_index rv k))))
      by (intros; now rewrite pc_sums_eq).
    rewrite (pc_range rv n d (fun e => sumn c (x e)) Hd).
    rewrite (sumn_ext n (fun q => sumn c _)
               (fun e => delta d e * pc_partials c rv x d j + ind (pc_op rv e d) * sumn c (x e))).
    - now rewrite sumn_add, (sumn_delta_l n d (fun _ => pc_partials c rv x d j)).
    - intros e He.
      rewrite (sumn_ext c _ (fun i => ind (if Nat.eqb e d then cs_mask rv i j else pc_op rv e d) * x e i))
        by (intros i Hi; now rewrite cs_mask_block, gather_block).
      unfold delta. rewrite (Nat.eqb_sym d e). destruct (Nat.eqb_spec e d) as [->|Hne].
      + rewrite <- cs_dot_eq. unfold pc_partials, pc_op. destruct rv; rewrite Nat.ltb_irrefl; cbn [ind]; ring.
      + rewrite sumn_scal_l. ring.
  Qed.

  (** [_dot_cumsum]: sharded = unsharded = sequential prefix / suffix sums *)
  Theorem parallel_cumsum_correct n c (X : nat -> F) g :
    (0 < c)%nat -> (g < n * c)%nat ->
    (forall rv, dot_cumsum true rv n c X g = dot_cumsum false rv n c X g) /\
    dot_cumsum true false n c X g = cumsum_seq X g /\
    dot_cumsum true true n c X g = revcumsum_seq (n * c) X g.
  Proof.
    intros Hc Hg. destruct (div_mod_lt g c Hc) as [E B].
    assert (Hd : (g / c < n)%nat) by (apply Nat.div_lt_upper_bound; lia).
    assert (A : forall rv, dot_cumsum true rv n c X g = dot_cumsum false rv n c X g).
    { intros rv. unfold dot_cumsum. rewrite parallel_cumsum_rv by assumption.
      replace (g / c * c + g mod c)%nat with g by lia.
      destruct rv; [unfold revcumsum_dot|unfold cumsum_dot]; apply sumn_ext; intros i Hi; now rewrite regather. }
    split; [exact A|]. split.
    - rewrite A. unfold dot_cumsum. now apply cumsum_dot_seq.
    - rewrite A. unfold dot_cumsum. now apply revcumsum_dot_seq.
  Qed.

  Section AllGatherThm.
    Variables (h c : nat) (rev : bool) (lhs : nat -> nat -> nat -> F) (rhs : nat -> nat -> F).
    Hypothesis Hh : (0 < h)%nat.
    Let n := (2 * h)%nat.

    (** product of chunk [q] of the coefficients of device d with shard [q] *)
    Definition ag_M (d a q : nat) : F :=
      chunk_matmul rev c (fun j => lhs d a (q * c + j)%nat) (rhs q).

    (** what device d adds in iteration i, when it holds the shards d - i and d + i + 1 *)
    Definition ag_term (d a i : nat) : F :=
      ag_M d a (rot n d (- Z.of_nat i)) + ag_M d a (rot n d (Z.of_nat i + 1)).

    Lemma ag_ic_eq d i (rf rb : nat -> F) a :
      rf = rhs (rot n d (- Z.of_nat i)) -> rb = rhs (rot n d (Z.of_nat i + 1)) ->
      ag_indexed_computation n c rev lhs d i rf rb a = ag_term d a i.
    Proof. intros -> ->. reflexivity. Qed.

    (** Invariant of the [fori_loop]: after the iterations i = 1..k device d
        holds shard d-k in [rhs_fwd], shard d+k+1 in [rhs_bwd], and has
        accumulated the chunks d-k..d and d+1..d+k+1. *)
    Lemma ag_invariant k :
      (k < h)%nat ->
      let s := fori_iter 1 k (ag_body n c rev lhs) (ag_init n c rev lhs rhs) in
      (forall d, (d < n)%nat -> ag_fwd s d = rhs (rot n d (- Z.of_nat k))) /\
      (forall d, (d < n)%nat -> ag_bwd s d = rhs (rot n d (Z.of_nat k + 1))) /\
      (forall d a, (d < n)%nat -> ag_acc s d a = sumn (S k) (ag_term d a)).
    Proof.
      assert (Hn : (0 < n)%nat) by (unfold n; lia).
      induction k as [|k IH]; intros Hk.
      - cbn [fori_iter]. unfold ag_init. cbn [ag_fwd ag_bwd ag_acc].
        assert (E0 : forall d, (d < n)%nat -> rhs d = rhs (rot n d (- Z.of_nat 0)))
          by (intros d Hd; now rewrite rot_0).
        repeat split; [exact E0 | intros d Hd; now apply ppermute_bwd_eq |].
        intros d a Hd. cbn [sumn].
        rewrite (ag_ic_eq d 0 _ _ a (E0 d Hd) (ppermute_bwd_eq _ _ _ d Hd)). ring.
      - specialize (IH ltac:(lia)). cbn zeta in IH. destruct IH as (IHf & IHb & IHa).
        cbn [fori_iter]. set (s := fori_iter 1 k (ag_body n c rev lhs) (ag_init n c rev lhs rhs)) in *.
        unfold ag_body. cbn [ag_fwd ag_bwd ag_acc].
        assert (Ef : forall d, (d < n)%nat ->
                   ppermute n zshard (perm_fwd n) (ag_fwd s) d = rhs (rot n d (- Z.of_nat (S k)))).
        { intros d Hd. rewrite ppermute_fwd_eq, IHf, rot_rot by (assumption || now apply rot_lt).
          f_equal. f_equal. lia. }
        assert (Eb : forall d, (d < n)%nat ->
                   ppermute n zshard (perm_bwd n) (ag_bwd s) d = rhs (rot n d (Z.of_nat (S k) + 1))).
        { intros d Hd. rewrite ppermute_bwd_eq, IHb, rot_rot by (assumption || now apply rot_lt).
          f_equal. f_equal. lia. }
        repeat split; [exact Ef|exact Eb|].
        intros d a Hd. rewrite IHa by exact Hd.
        change (sumn (S (S k)) ?f) with (sumn (S k) f + f (S k)).
        f_equal. change (1 + k)%nat with (S k). apply ag_ic_eq; [now apply Ef|now apply Eb].
    Qed.

    Lemma ag_sum_chunks d a :
      sumn n (ag_M d a) = sumn (n * c) (fun j => lhs d a j * all_gather_tiled c rhs j).
    Proof.
      rewrite sumn_blocks. apply sumn_ext. intros q Hq. unfold ag_M.
      rewrite chunk_matmul_eq. apply sumn_ext. intros j Hj. now rewrite gather_block.
    Qed.

    Lemma allgather_even_correct :
      exists out, allgather_matmul_twoway n c rev lhs rhs = Some out /\
        forall d a, (d < n)%nat ->
          out d a = sumn (n * c) (fun j => lhs d a j * all_gather_tiled c rhs j).
    Proof.
      destruct (twoway_guards h Hh) as (E1 & E2 & E3).
      unfold allgather_matmul_twoway, n. rewrite E1, E2, E3. fold n. eexists. split; [reflexivity|].
      intros d a Hd. unfold fori_loop.
      destruct (ag_invariant (h - 1) ltac:(lia)) as (_ & _ & Ha).
      rewrite Ha by exact Hd. replace (S (h - 1)) with h by lia.
      unfold ag_term. rewrite sumn_add, <- ag_sum_chunks.
      exact (two_way_cover h (ag_M d a) d 0 Hh).
    Qed.
  End AllGatherThm.

  (** for n = 1 and every even n >= 2: every device obtains the full
      contraction of its coefficient block with the concatenated input *)
  Theorem allgather_twoway_correct n c rev (lhs : nat -> nat -> nat -> F) (rhs : nat -> nat -> F) :
    (n = 1 \/ (0 < n /\ n mod 2 = 0))%nat ->
    exists out, allgather_matmul_twoway n c rev lhs rhs = Some out /\
      forall d a, (d < n)%nat ->
        out d a = sumn (n * c) (fun j => lhs d a j * all_gather_tiled c rhs j).
  Proof.
    intros [->|[Hn He]].
    - unfold allgather_matmul_twoway. cbn [Nat.eqb]. eexists. split; [reflexivity|].
      intros d a Hd. assert (d = 0)%nat by lia. subst d.
      rewrite chunk_matmul_eq. rewrite Nat.mul_1_l. apply sumn_ext. intros j Hj.
      f_equal. change j with (0 * c + j)%nat at 2. now rewrite gather_block.
    - destruct (even_half n Hn He) as [E Hh]. rewrite E. now apply allgather_even_correct.
  Qed.

  Theorem allgather_odd_rejected n c rev (lhs : nat -> nat -> nat -> F) (rhs : nat -> nat -> F) :
    (1 < n)%nat -> (n mod 2 = 1)%nat -> allgather_matmul_twoway n c rev lhs rhs = None.
  Proof.
    intros Hn Ho. unfold allgather_matmul_twoway.
    destruct (Nat.eqb_spec n 1); [lia|]. now rewrite Ho.
  Qed.

  Section ReduceScatterThm.
    Variables (h c cj : nat) (rev : bool) (lhs : nat -> nat -> nat -> F) (rhs : nat -> nat -> F).
    Hypothesis Hh : (0 < h)%nat.
    Let n := (2 * h)%nat.

    (** partial product of device [e] for the output chunk [q], row [a] of the chunk *)
    Definition rs_P (e q a : nat) : F := chunk_matmul rev cj (lhs e (q * c + a)%nat) (rhs e).

    Lemma rs_ic_eq d (i : Z) a :
      rs_indexed_computation n c cj rev lhs rhs d i a = rs_P d (rot n d (Z.of_nat h + i)) a.
    Proof.
      unfold rs_indexed_computation, rs_chunk_index, rs_P, rot, n.
      destruct (twoway_guards h Hh) as (_ & _ & ->). now rewrite Z.add_assoc.
    Qed.

    (** Invariant: after the iterations i = 1..k, [accum_fwd] on device d holds the
        partial products of devices d-k..d for output chunk d+h-k, and
        [accum_bwd] those of devices d..d+k for chunk d+h+k+1. *)
    Lemma rs_invariant k :
      (k < h)%nat ->
      let s := fori_iter 1 k (rs_body n c cj rev lhs rhs) (rs_init n c cj rev lhs rhs) in
      (forall d a, (d < n)%nat ->
         rs_fwd s d a = sumn (S k) (fun t => rs_P (rot n d (- Z.of_nat t))
                                               (rot n d (Z.of_nat h - Z.of_nat k)) a)) /\
      (forall d a, (d < n)%nat ->
         rs_bwd s d a = sumn (S k) (fun t => rs_P (rot n d (Z.of_nat t))
                                               (rot n d (Z.of_nat h + Z.of_nat k + 1)) a)).
    Proof.
      assert (Hn : (0 < n)%nat) by (unfold n; lia).
      induction k as [|k IH]; intros Hk.
      - cbn [fori_iter]. unfold rs_init. cbn [rs_fwd rs_bwd sumn].
        split; intros d a Hd; rewrite rs_ic_eq, rot_0 by exact Hd.
        + rewrite Z.add_0_r, Z.sub_0_r. ring.
        + rewrite Z.add_0_r. ring.
      - specialize (IH ltac:(lia)). cbn zeta in IH. destruct IH as (IHf & IHb).
        cbn [fori_iter]. set (s := fori_iter 1 k (rs_body n c cj rev lhs rhs) (rs_init n c cj rev lhs rhs)) in *.
        unfold rs_body. cbn [rs_fwd rs_bwd]. split; intros d a Hd.
        + rewrite ppermute_fwd_eq, IHf, rs_ic_eq by (assumption || now apply rot_lt).
          rewrite (sumn_S_first (S k)), rot_0 by exact Hd.
          rewrite (sumn_ext (S k) _ (fun t => rs_P (rot n d (- Z.of_nat (S t)))
                                                   (rot n d (Z.of_nat h - Z.of_nat (S k))) a)).
          * replace (Z.of_nat h + - Z.of_nat (1 + k))%Z with (Z.of_nat h - Z.of_nat (S k))%Z by lia. ring.
          * intros t Ht. rewrite !rot_rot by exact Hn. f_equal; f_equal; lia.
        + rewrite ppermute_bwd_eq, IHb, rs_ic_eq by (assumption || now apply rot_lt).
          rewrite (sumn_S_first (S k)), rot_0 by exact Hd.
          rewrite (sumn_ext (S k) _ (fun t => rs_P (rot n d (Z.of_nat (S t)))
                                                   (rot n d (Z.of_nat h + Z.of_nat (S k) + 1)) a)).
          * replace (Z.of_nat h + (Z.of_nat (1 + k) + 1))%Z with (Z.of_nat h + Z.of_nat (S k) + 1)%Z by lia. ring.
          * intros t Ht. rewrite !rot_rot by exact Hn. f_equal; f_equal; lia.
    Qed.

    Lemma reducescatter_even_correct :
      exists out, matmul_reducescatter_twoway n c cj rev lhs rhs = Some out /\
        forall d a, (d < n)%nat ->
          out d a = sumn (n * cj) (fun g => all_gather_tiled cj (fun e j => lhs e (d * c + a)%nat j) g
                                            * all_gather_tiled cj rhs g).
    Proof.
      assert (Hn : (0 < n)%nat) by (unfold n; lia).
      destruct (twoway_guards h Hh) as (E1 & E2 & E3).
      unfold matmul_reducescatter_twoway, n. rewrite E1, E2, E3. fold n. eexists. split; [reflexivity|].
      intros d a Hd. unfold fori_loop.
      destruct (rs_invariant (h - 1) ltac:(lia)) as (Hf & Hb).
      rewrite ppermute_fwd_eq, Hf, Hb by (assumption || now apply rot_lt).
      replace (S (h - 1)) with h by lia.
      set (G := fun e => rs_P e d a).
      rewrite (sumn_ext h _ (fun t => G (rot (2 * h) d (-1 - Z.of_nat t)))).
      2:{ intros t Ht. rewrite !rot_rot by exact Hn. unfold G. f_equal. apply (rot_id n d _ 0); lia. }
      rewrite (sumn_ext h (fun t => rs_P (rot n d (Z.of_nat t)) _ a)
                          (fun t => G (rot (2 * h) d (-1 + Z.of_nat t + 1)))).
      2:{ intros t Ht. unfold G. f_equal; [f_equal; lia|].
          apply (rot_id n d _ 1); unfold n; lia. }
      rewrite (two_way_cover h G d (-1) Hh).
      fold n. rewrite sumn_blocks. apply sumn_ext. intros e He. unfold G, rs_P.
      rewrite chunk_matmul_eq. apply sumn_ext. intros j Hj.
      rewrite !gather_block by exact Hj. reflexivity.
    Qed.
  End ReduceScatterThm.

  (** device d ends with rows [d*c, (d+1)*c) of the full product: the sum over
      ALL devices' reduced-axis blocks *)
  Theorem reducescatter_twoway_correct n c cj rev (lhs : nat -> nat -> nat -> F) (rhs : nat -> nat -> F) :
    (n = 1 \/ (0 < n /\ n mod 2 = 0))%nat ->
    exists out, matmul_reducescatter_twoway n c cj rev lhs rhs = Some out /\
      forall d a, (d < n)%nat ->
        out d a = sumn (n * cj) (fun g => all_gather_tiled cj (fun e j => lhs e (d * c + a)%nat j) g
                                          * all_gather_tiled cj rhs g).
  Proof.
    intros [->|[Hn He]].
    - unfold matmul_reducescatter_twoway. cbn [Nat.eqb]. eexists. split; [reflexivity|].
      intros d a Hd. assert (d = 0)%nat by lia. subst d.
      rewrite chunk_matmul_eq. rewrite Nat.mul_1_l. apply sumn_ext. intros j Hj.
      change j with (0 * cj + j)%nat at 3 4. now rewrite !gather_block.
    - destruct (even_half n Hn He) as [E Hh]. rewrite E. now apply reducescatter_even_correct.
  Qed.

  Theorem reducescatter_odd_rejected n c cj rev (lhs : nat -> nat -> nat -> F) (rhs : nat -> nat -> F) :
    (1 < n)%nat -> (n mod 2 = 1)%nat -> matmul_reducescatter_twoway n c cj rev lhs rhs = None.
  Proof.
    intros Hn Ho. unfold matmul_reducescatter_twoway.
    destruct (Nat.eqb_spec n 1); [lia|]. now rewrite Ho.
  Qed.
End Ring.

Section Shapes.
  Lemma round_to_multiple_spec x m :
    (0 < m)%nat ->
    (x <= round_to_multiple x m)%nat /\ (round_to_multiple x m < x + m)%nat /\
    exists q, round_to_multiple x m = (m * q)%nat.
  Proof.
    intros Hm. unfold round_to_multiple. destruct (div_mod_lt (x + m - 1) m Hm) as [E B].
    repeat split; [lia|lia|]. now eexists.
  Qed.

  Lemma round_to_multiple_fixed x m q : (0 < m)%nat -> x = (m * q)%nat -> round_to_multiple x m = x.
  Proof.
    intros Hm ->. unfold round_to_multiple.
    replace (m * q + m - 1)%nat with (q * m + (m - 1))%nat by lia.
    rewrite Nat.div_add_l by lia. rewrite Nat.div_small by lia. lia.
  Qed.

  (** the divisibility that [modal_shape] guarantees: the padded number of
      longitudinal coefficients splits into [xs] shards of EVEN length, for every
      base multiple and every number of wavenumbers *)
  Theorem modal_shape_x_divisible lw base xs :
    (0 < base)%nat -> (0 < xs)%nat ->
    let M := modal_shape_x lw base xs in
    (exists q, M = (xs * (2 * q))%nat /\ (M / xs = 2 * q)%nat) /\
    (2 * lw <= M)%nat /\ (M < 2 * lw + 2 * base * xs)%nat.
  Proof.
    intros Hb Hx M. unfold M, modal_shape_x.
    assert (Hm : (0 < 2 * base * xs)%nat) by nia.
    destruct (round_to_multiple_spec (2 * lw) (2 * base * xs) Hm) as (H1 & H2 & q & Hq).
    split; [|split; assumption].
    exists (base * q)%nat. rewrite Hq. split; [nia|].
    replace (2 * base * xs * q)%nat with ((2 * (base * q)) * xs)%nat by nia.
    apply Nat.div_mul. lia.
  Qed.

  Theorem shapes_divisible n base s :
    (0 < base)%nat -> (0 < s)%nat ->
    let N := round_to_multiple n (base * s) in
    (exists q, N = (s * q)%nat) /\ (n <= N)%nat /\ (N < n + base * s)%nat.
  Proof.
    intros Hb Hs N. unfold N.
    assert (Hm : (0 < base * s)%nat) by nia.
    destruct (round_to_multiple_spec n (base * s) Hm) as (H1 & H2 & q & Hq).
    split; [|split; assumption]. exists (base * q)%nat. rewrite Hq. nia.
  Qed.
End Shapes.

Section StackThm.
  Context {F : Type} {o : Ops F}.

  Lemma flatF3_at Z M (x : nat -> nat -> nat -> F) z m l :
    (z < Z)%nat -> (m < M)%nat -> flatF3 Z M x (z + Z * (m + M * l)) = x z m l.
  Proof.
    intros Hz Hm. unfold flatF3.
    destruct (divmod_block Z (m + M * l) z Hz) as [E1 E2].
    destruct (divmod_block M l m Hm) as [E3 E4].
    rewrite <- Nat.div_div by lia. rewrite E1, E2, E3, E4. reflexivity.
  Qed.

  Lemma flatF4_at Z S K (y : nat -> nat -> nat -> nat -> F) z s k l :
    (z < Z)%nat -> (s < S)%nat -> (k < K)%nat ->
    flatF4 Z S K y (z + Z * (s + S * (k + K * l))) = y z s k l.
  Proof.
    intros Hz Hs Hk. unfold flatF4.
    destruct (divmod_block Z (s + S * (k + K * l)) z Hz) as [E1 E2].
    destruct (divmod_block S (k + K * l) s Hs) as [E3 E4].
    destruct (divmod_block K l k Hk) as [E5 E6].
    rewrite <- (Nat.div_div _ (Z * S) K) by nia. rewrite <- (Nat.div_div _ Z S) by lia.
    rewrite E1, E2, E3, E4, E5, E6. reflexivity.
  Qed.

  (** the Fortran-order reshape de-interleaves: even positions -> s = 0, odd -> s = 1 *)
  Lemma unstack_m_spec Z Kh (x : nat -> nat -> nat -> F) z s k l :
    (z < Z)%nat -> (s < 2)%nat -> (k < Kh)%nat ->
    unstack_m Z (2 * Kh) x z s k l = x z (2 * k + s)%nat l.
  Proof.
    intros Hz Hs Hk. unfold unstack_m.
    replace (2 * Kh / 2)%nat with Kh by (rewrite Nat.mul_comm, Nat.div_mul; lia).
    replace (z + Z * (s + 2 * (k + Kh * l)))%nat with (z + Z * ((2 * k + s) + (2 * Kh) * l))%nat by nia.
    apply flatF3_at; lia.
  Qed.

  Lemma stack_m_spec Z K (y : nat -> nat -> nat -> nat -> F) z s k l :
    (z < Z)%nat -> (s < 2)%nat -> (k < K)%nat ->
    stack_m Z K y z (2 * k + s)%nat l = y z s k l.
  Proof.
    intros Hz Hs Hk. unfold stack_m.
    replace (z + Z * (2 * k + s + 2 * K * l))%nat with (z + Z * (s + 2 * (k + K * l)))%nat by nia.
    apply flatF4_at; lia.
  Qed.

  Theorem stack_unstack_id Z Kh (x : nat -> nat -> nat -> F) z m l :
    (z < Z)%nat -> (m < 2 * Kh)%nat ->
    stack_m Z Kh (unstack_m Z (2 * Kh) x) z m l = x z m l.
  Proof.
    intros Hz Hm. destruct (div_mod_lt m 2 ltac:(lia)) as [E B].
    rewrite E. now rewrite stack_m_spec, unstack_m_spec by lia.
  Qed.

  (** per-shard reshape (shard_map over the x-ring) = global reshape, provided
      the shard length is even *)
  Theorem unstack_sharded_eq_global Z nx Kh (X : nat -> nat -> nat -> F) z s kg l :
    (z < Z)%nat -> (s < 2)%nat -> (kg < nx * Kh)%nat ->
    unstack_m_sharded Z (2 * Kh) X z s kg l = unstack_m Z (nx * (2 * Kh)) X z s kg l.
  Proof.
    intros Hz Hs Hk. assert (HK : (0 < Kh)%nat) by nia.
    unfold unstack_m_sharded.
    replace (2 * Kh / 2)%nat with Kh by (rewrite Nat.mul_comm, Nat.div_mul; lia).
    destruct (div_mod_lt kg Kh HK) as [E B].
    rewrite unstack_m_spec by lia. unfold shard_m.
    replace (nx * (2 * Kh))%nat with (2 * (nx * Kh))%nat by lia.
    rewrite unstack_m_spec by lia. f_equal. nia.
  Qed.

  Theorem stack_sharded_eq_global Z nx K (Y : nat -> nat -> nat -> nat -> F) z mg l :
    (z < Z)%nat -> (0 < K)%nat -> (mg < nx * (2 * K))%nat ->
    stack_m_sharded Z K Y z mg l = stack_m Z (nx * K) Y z mg l.
  Proof.
    intros Hz HK Hm. unfold stack_m_sharded. cbv zeta.
    destruct (div_mod_lt mg (2 * K) ltac:(lia)) as [E B].
    set (d := (mg / (2 * K))%nat) in *. set (m := (mg mod (2 * K))%nat) in *.
    destruct (div_mod_lt m 2 ltac:(lia)) as [E2 B2].
    rewrite E2. rewrite stack_m_spec by lia. unfold shard_k.
    replace mg with (2 * (d * K + m / 2) + m mod 2)%nat by nia.
    rewrite stack_m_spec; [reflexivity|lia|lia|nia].
  Qed.
End StackThm.

Section DlonThm.
  Context {F : Type} {o : Ops F}.

  Theorem sharded_dlon_eq_global nx Kh (X : nat -> F) g :
    (0 < Kh)%nat -> (g < nx * (2 * Kh))%nat ->
    dlon_sharded (2 * Kh) X g = dlon_global (nx * (2 * Kh)) X g.
  Proof.
    intros HK Hg. unfold dlon_sharded, dlon_global, real_basis_derivative.
    destruct (div_mod_lt g (2 * Kh) ltac:(lia)) as [E B].
    set (d := (g / (2 * Kh))%nat) in *. set (i := (g mod (2 * Kh))%nat) in *.
    replace (2 * Kh / 2)%nat with Kh by (rewrite Nat.mul_comm, Nat.div_mul; lia).
    destruct (div_mod_lt i 2 ltac:(lia)) as [Ei Bi].
    assert (G2 : (g / 2 = Kh * d + i / 2)%nat).
    { symmetry. apply (Nat.div_unique g 2 _ (i mod 2)); [lia|nia]. }
    assert (G3 : ((g + 1) mod 2 = (i + 1) mod 2)%nat).
    { rewrite E. replace (2 * Kh * d + i + 1)%nat with ((i + 1) + (Kh * d) * 2)%nat by nia.
      now rewrite Nat.mod_add by lia. }
    rewrite G2, G3. rewrite Nat.add_0_l. f_equal.
    destruct (div_mod_lt (i + 1) 2 ltac:(lia)) as [Ej Bj].
    assert (Hd : (d < nx)%nat) by nia.
    destruct (Nat.eqb_spec ((i + 1) mod 2) 0) as [Hodd|Heven].
    - (* odd position: uses the element below, inside the same shard *)
      f_equal. unfold shift_up.
      destruct (Nat.leb_spec (2 * Kh) 1); [lia|].
      destruct (Nat.leb_spec (nx * (2 * Kh)) 1); [nia|].
      destruct (Nat.eqb_spec i 0); [lia|]. destruct (Nat.eqb_spec g 0); [lia|].
      f_equal. nia.
    - (* even position: uses the element above, inside the same shard *)
      unfold shift_down.
      destruct (Nat.leb_spec (2 * Kh) 1); [lia|].
      destruct (Nat.leb_spec (nx * (2 * Kh)) 1); [nia|].
      destruct (Nat.ltb_spec (i + 1) (2 * Kh)); [|lia].
      destruct (Nat.ltb_spec (g + 1) (nx * (2 * Kh))); [|nia].
      f_equal. nia.
  Qed.
End DlonThm.

Section VerticalThm.
  Context {T : Type}.

  Theorem vertical_pad_crop_levelwise (zero : T) K zs (phi : nat -> T -> T) (f : nat -> (nat -> T) -> nat -> T) (x : nat -> T) :
    (0 < zs)%nat ->
    (forall Kp y k, f Kp y k = phi k (y k)) ->
    let r := with_vertical_padding zero K zs f x in
    fst r = K /\ (exists q, (K + vertical_padding K zs = zs * q)%nat) /\
    (vertical_padding K zs < zs)%nat /\
    forall k, (k < K)%nat -> snd r k = phi k (x k).
  Proof.
    intros Hz Hf r. unfold r, with_vertical_padding, vertical_padding. cbn [fst snd].
    destruct (round_to_multiple_spec K zs Hz) as (H1 & H2 & q & Hq).
    repeat split.
    - unfold vertical_crop_len. destruct (Nat.eqb_spec (round_to_multiple K zs - K) 0); lia.
    - exists q. lia.
    - lia.
    - intros k Hk. rewrite Hf. unfold vertical_pad. destruct (Nat.ltb_spec k K); [reflexivity|lia].
  Qed.

  Theorem vertical_pad_crop_id (zero : T) K zs (x : nat -> T) :
    (0 < zs)%nat ->
    let r := with_vertical_padding zero K zs (fun _ y => y) x in
    fst r = K /\ forall k, (k < K)%nat -> snd r k = x k.
  Proof.
    intros Hz r.
    destruct (vertical_pad_crop_levelwise zero K zs (fun _ v => v) (fun _ y => y) x Hz ltac:(reflexivity)) as (A & _ & _ & B).
    split; assumption.
  Qed.
End VerticalThm.

Section EinsumLogicThm.
  Lemma filter_singleton {A} (p : A -> bool) l s :
    filter p l = [s] -> In s l /\ p s = true /\ forall s', In s' l -> p s' = true -> s' = s.
  Proof.
    intros E.
    assert (H : In s (filter p l)) by (rewrite E; now left).
    apply filter_In in H. destruct H as [H1 H2]. repeat split; auto.
    intros s' Hin Hp. assert (H : In s' (filter p l)) by (apply filter_In; auto).
    rewrite E in H. destruct H as [H|[]]. now symmetry.
  Qed.

  (** the subscript the code picks for a role: the only one in [l] that is
      not in the first list, is in the second and is sharded there *)
  Lemma role_subscript_sound (p1 p2 p3 : nat -> bool) l s :
    match filter (fun s => negb (p1 s) && p2 s && p3 s) l with [s0] => Some s0 | _ => None end = Some s ->
    In s l /\ p1 s = false /\ p2 s = true /\ p3 s = true /\
    forall s', In s' l -> p1 s' = false -> p2 s' = true -> p3 s' = true -> s' = s.
  Proof.
    destruct (filter _ l) as [|s0 [|s1 t]] eqn:E; try discriminate.
    intros H; injection H as ->.
    apply filter_singleton in E. destruct E as (H1 & H2 & H3).
    apply andb_true_iff in H2. destruct H2 as [H2 H4]. apply andb_true_iff in H2. destruct H2 as [H2 H5].
    apply negb_true_iff in H2. repeat split; auto.
    intros s' Hin Ho Hr Hs. apply H3; auto. now rewrite Ho, Hr, Hs.
  Qed.

  Theorem reduce_subscript_sound lhs rhs out spec s :
    determine_reduce_subscript lhs rhs out spec = Some s ->
    In s lhs /\ sub_in s out = false /\ sub_in s rhs = true /\
    is_some (spec_at spec (sub_index s rhs)) = true /\
    forall s', In s' lhs -> sub_in s' out = false -> sub_in s' rhs = true ->
               is_some (spec_at spec (sub_index s' rhs)) = true -> s' = s.
  Proof. exact (role_subscript_sound _ _ _ lhs s). Qed.

  Theorem transfer_subscript_sound lhs rhs out spec s :
    determine_transfer_subscript lhs rhs out spec = Some s ->
    In s lhs /\ sub_in s rhs = false /\ sub_in s out = true /\
    is_some (spec_at spec (sub_index s out)) = true /\
    forall s', In s' lhs -> sub_in s' rhs = false -> sub_in s' out = true ->
               is_some (spec_at spec (sub_index s' out)) = true -> s' = s.
  Proof. exact (role_subscript_sound _ _ _ lhs s). Qed.
End EinsumLogicThm.
