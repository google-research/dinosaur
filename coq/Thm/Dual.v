(** Dual numbers compute derivatives: for every expression built from field
    operations, evaluation at [x + eps v] has eps-part equal to the formal
    directional derivative; the derivative is linear in the direction; and the
    Taylor polynomial in the step [h] gives the exact central-difference
    identities (degree <= 2: exact; degree 3: error h^2 * c3).  (C08) *)
From Dino Require Import Base.Ops Base.Sums Model.Dual.
Local Open Scope F_scope.

Section Expr.
  Context {F : Type}.
  Inductive expr : Type :=
  | EConst (c : F) | EVar (i : nat)
  | EAdd (a b : expr) | ESub (a b : expr) | EMul (a b : expr) | EOpp (a : expr)
  | EDiv (a b : expr).
End Expr.
Arguments expr F : clear implicits.

Section Eval.
  Context {F : Type} {o : Ops F}.

  Fixpoint eval (env : nat -> F) (e : expr F) : F :=
    match e with
    | EConst c => c | EVar i => env i
    | EAdd a b => eval env a + eval env b
    | ESub a b => eval env a - eval env b
    | EMul a b => eval env a * eval env b
    | EOpp a => - eval env a
    | EDiv a b => eval env a / eval env b
    end.

  (** formal directional derivative at [x] in direction [v] *)
  Fixpoint deriv (x v : nat -> F) (e : expr F) : F :=
    match e with
    | EConst _ => 0 | EVar i => v i
    | EAdd a b => deriv x v a + deriv x v b
    | ESub a b => deriv x v a - deriv x v b
    | EMul a b => eval x a * deriv x v b + deriv x v a * eval x b
    | EOpp a => - deriv x v a
    | EDiv a b => (deriv x v a * eval x b - eval x a * deriv x v b) / (eval x b * eval x b)
    end.

  Fixpoint lift (e : expr F) : expr (dual F) :=
    match e with
    | EConst c => EConst (dconst c) | EVar i => EVar i
    | EAdd a b => EAdd (lift a) (lift b) | ESub a b => ESub (lift a) (lift b)
    | EMul a b => EMul (lift a) (lift b) | EOpp a => EOpp (lift a)
    | EDiv a b => EDiv (lift a) (lift b)
    end.

  Fixpoint no_div (e : expr F) : bool :=
    match e with
    | EConst _ | EVar _ => true
    | EAdd a b | ESub a b | EMul a b => no_div a && no_div b
    | EOpp a => no_div a
    | EDiv _ _ => false
    end.

  Fixpoint degree (e : expr F) : nat :=
    match e with
    | EConst _ => 0 | EVar _ => 1
    | EAdd a b | ESub a b => Nat.max (degree a) (degree b)
    | EMul a b => degree a + degree b
    | EOpp a => degree a
    | EDiv a b => degree a + degree b
    end.

  (** polynomials in the step size h: coefficient lists, lowest degree first *)
  Definition poly := list F.
  Fixpoint peval (p : poly) (h : F) : F :=
    match p with [] => 0 | a :: q => a + h * peval q h end.
  Fixpoint padd (p q : poly) : poly :=
    match p, q with
    | [], _ => q | _, [] => p
    | a :: p', b :: q' => (a + b) :: padd p' q'
    end.
  Definition pscal (c : F) (p : poly) : poly := map (fun a => c * a) p.
  Fixpoint pmul (p q : poly) : poly :=
    match p with
    | [] => []
    | a :: p' => padd (pscal a q) (0 :: pmul p' q)
    end.
  Definition popp (p : poly) : poly := pscal (- (1)) p.
  Definition coef (p : poly) (k : nat) : F := nth k p 0.

  (** Taylor polynomial of [h |-> eval (x + h v) e] for division-free [e] *)
  Fixpoint texp (x v : nat -> F) (e : expr F) : poly :=
    match e with
    | EConst c => [c] | EVar i => [x i; v i]
    | EAdd a b => padd (texp x v a) (texp x v b)
    | ESub a b => padd (texp x v a) (popp (texp x v b))
    | EMul a b => pmul (texp x v a) (texp x v b)
    | EOpp a => popp (texp x v a)
    | EDiv a b => []
    end.
End Eval.

Section Thm.
  Context {F : Type} {o : Ops F} {Fc : FieldC o}.
  Add Field FFd : (field_c : FieldTh o).

  Lemma dual_eq (a b : dual F) : re a = re b -> ep a = ep b -> a = b.
  Proof. destruct a, b; cbn; intros -> ->; reflexivity. Qed.

  (** so [ring]-style reasoning is sound at the dual-number carrier *)
  Theorem dual_ring :
    ring_theory (dconst 0) (dconst 1) (@dadd F o) (@dmul F o) (@dsub F o) (@dopp F o) eq.
  Proof.
    constructor; intros; apply dual_eq; cbn; ring.
  Qed.

  Lemma sumn_dual n (X : nat -> dual F) (x dx : nat -> F) :
    (forall i, (i < n)%nat -> X i = mkdual (x i) (dx i)) -> sumn n X = mkdual (sumn n x) (sumn n dx).
  Proof. intros H. induction n as [|n IH]; cbn; [reflexivity|]. rewrite IH, H by auto. reflexivity. Qed.

  (** evaluation at x + eps v = (value, directional derivative) *)
  Theorem dual_eval (x v : nat -> F) (e : expr F) :
    eval (o := DualOps) (fun i => dvar (x i) (v i)) (lift e)
    = mkdual (eval x e) (deriv x v e).
  Proof.
    induction e as [c|i|a IHa b IHb|a IHa b IHb|a IHa b IHb|a IHa|a IHa b IHb]; cbn [lift eval deriv].
    1,2: reflexivity.
    1-3,5: rewrite IHa, IHb; reflexivity.
    rewrite IHa. reflexivity.
  Qed.

  (** the derivative is linear in the direction (where denominators do not vanish) *)
  Fixpoint denoms_nz (x : nat -> F) (e : expr F) : Prop :=
    match e with
    | EConst _ | EVar _ => True
    | EAdd a b | ESub a b | EMul a b => denoms_nz x a /\ denoms_nz x b
    | EOpp a => denoms_nz x a
    | EDiv a b => denoms_nz x a /\ denoms_nz x b /\ eval x b <> 0
    end.

  Theorem deriv_linear (x v w : nat -> F) (s t : F) (e : expr F) :
    denoms_nz x e ->
    deriv x (fun i => s * v i + t * w i) e = s * deriv x v e + t * deriv x w e.
  Proof.
    induction e as [c|i|a IHa b IHb|a IHa b IHb|a IHa b IHb|a IHa|a IHa b IHb]; cbn [deriv denoms_nz]; intros H.
    1,2: ring.
    1-3: destruct H; rewrite IHa, IHb by assumption; ring.
    - rewrite IHa by assumption. ring.
    - destruct H as (Ha & Hb & Hn). rewrite IHa, IHb by assumption. field. exact Hn.
  Qed.

  Lemma peval_padd p q h : peval (padd p q) h = peval p h + peval q h.
  Proof.
    revert q; induction p as [|a p IH]; intros q; cbn; [ring|].
    destruct q as [|b q]; cbn; [ring|]. rewrite IH. ring.
  Qed.
  Lemma peval_pscal c p h : peval (pscal c p) h = c * peval p h.
  Proof. induction p as [|a p IH]; cbn; [ring|]. fold (pscal c p). rewrite IH. ring. Qed.
  Lemma peval_popp p h : peval (popp p) h = - peval p h.
  Proof. unfold popp. rewrite peval_pscal. ring. Qed.
  Lemma peval_pmul p q h : peval (pmul p q) h = peval p h * peval q h.
  Proof.
    induction p as [|a p IH]; cbn [pmul peval]; [ring|].
    rewrite peval_padd, peval_pscal. cbn [peval]. rewrite IH. ring.
  Qed.

  Lemma coef_padd p q k : coef (padd p q) k = coef p k + coef q k.
  Proof.
    unfold coef. revert q k; induction p as [|a p IH]; intros q k.
    - cbn. destruct k; cbn; ring.
    - destruct q as [|b q]; cbn [padd].
      + destruct k; cbn; ring.
      + destruct k; cbn; [ring|apply IH].
  Qed.
  Lemma coef_pscal c p k : coef (pscal c p) k = c * coef p k.
  Proof.
    unfold coef, pscal. revert k; induction p as [|a p IH]; intros k; cbn.
    - destruct k; ring.
    - destruct k; [ring|apply IH].
  Qed.
  Lemma coef_popp p k : coef (popp p) k = - coef p k.
  Proof. unfold popp. rewrite coef_pscal. ring. Qed.
  Lemma coef_pmul_0 p q : coef (pmul p q) 0 = coef p 0 * coef q 0.
  Proof.
    destruct p as [|a p]; cbn [pmul].
    - unfold coef; cbn. ring.
    - rewrite coef_padd, coef_pscal. unfold coef; cbn. ring.
  Qed.
  Lemma coef_pmul_1 p q : coef (pmul p q) 1 = coef p 0 * coef q 1 + coef p 1 * coef q 0.
  Proof.
    destruct p as [|a p]; cbn [pmul].
    - unfold coef; cbn. ring.
    - rewrite coef_padd, coef_pscal.
      change (coef (0 :: pmul p q) 1) with (coef (pmul p q) 0).
      rewrite coef_pmul_0. unfold coef; cbn. ring.
  Qed.

  Lemma length_padd p q : length (padd p q) = Nat.max (length p) (length q).
  Proof.
    revert q; induction p as [|a p IH]; intros q; [reflexivity|].
    destruct q as [|b q]; cbn; [reflexivity|]. now rewrite IH.
  Qed.
  Lemma length_pscal c p : length (pscal c p) = length p.
  Proof. apply map_length. Qed.
  Lemma length_pmul p q : (1 <= length p)%nat -> (1 <= length q)%nat ->
    (1 <= length (pmul p q) <= length p + length q - 1)%nat.
  Proof.
    intros Hp Hq. split.
    - destruct p; cbn [pmul length] in *; [lia|]. rewrite length_padd, length_pscal. lia.
    - clear Hp. induction p as [|a p IH]; cbn [pmul length]; [lia|].
      rewrite length_padd, length_pscal. cbn [length]. lia.
  Qed.

  (** facts about division-free expressions are proved by induction over the
      six other constructors *)
  Lemma no_div_ind (P : expr F -> Prop) :
    (forall c, P (EConst c)) -> (forall i, P (EVar i)) ->
    (forall a b, P a -> P b -> P (EAdd a b)) -> (forall a b, P a -> P b -> P (ESub a b)) ->
    (forall a b, P a -> P b -> P (EMul a b)) -> (forall a, P a -> P (EOpp a)) ->
    forall e, no_div e = true -> P e.
  Proof.
    intros Hc Hv Ha Hs Hm Ho.
    induction e as [c|i|a IHa b IHb|a IHa b IHb|a IHa b IHb|a IHa|a IHa b IHb]; cbn [no_div]; intros H;
      try (apply andb_true_iff in H as [H1 H2]); auto.
    discriminate.
  Qed.

  Theorem texp_sound (x v : nat -> F) (e : expr F) (h : F) :
    no_div e = true ->
    peval (texp x v e) h = eval (fun i => x i + h * v i) e.
  Proof.
    revert e. apply no_div_ind; cbn [texp eval].
    - intros c. cbn. ring.
    - intros i. cbn. ring.
    - intros a b IHa IHb. rewrite peval_padd, IHa, IHb. reflexivity.
    - intros a b IHa IHb. rewrite peval_padd, peval_popp, IHa, IHb. ring.
    - intros a b IHa IHb. rewrite peval_pmul, IHa, IHb. reflexivity.
    - intros a IHa. rewrite peval_popp, IHa. reflexivity.
  Qed.

  Theorem texp_value_and_derivative (x v : nat -> F) (e : expr F) :
    no_div e = true ->
    coef (texp x v e) 0 = eval x e /\ coef (texp x v e) 1 = deriv x v e.
  Proof.
    revert e. apply no_div_ind; cbn [texp eval deriv].
    - intros c. unfold coef; cbn. auto.
    - intros i. unfold coef; cbn. auto.
    - intros a b [A0 A1] [B0 B1]. rewrite !coef_padd, A0, A1, B0, B1. auto.
    - intros a b [A0 A1] [B0 B1]. rewrite !coef_padd, !coef_popp, A0, A1, B0, B1. split; ring.
    - intros a b [A0 A1] [B0 B1]. rewrite coef_pmul_0, coef_pmul_1, A0, A1, B0, B1. split; ring.
    - intros a [A0 A1]. rewrite !coef_popp, A0, A1. auto.
  Qed.

  Lemma texp_length x v e : no_div e = true -> (1 <= length (texp x v e) <= degree e + 1)%nat.
  Proof.
    revert e. apply no_div_ind; cbn [texp degree]; unfold popp.
    - intros c. cbn. lia.
    - intros i. cbn. lia.
    - intros a b IHa IHb. rewrite length_padd. lia.
    - intros a b IHa IHb. rewrite length_padd, length_pscal. lia.
    - intros a b IHa IHb. pose proof (length_pmul (texp x v a) (texp x v b)). lia.
    - intros a IHa. now rewrite length_pscal.
  Qed.

  Lemma central_difference_poly (p : poly) (h : F) :
    (length p <= 4)%nat -> 1 + 1 <> 0 -> h <> 0 ->
    (peval p h - peval p (- h)) / ((1 + 1) * h) = coef p 1 + h * h * coef p 3.
  Proof.
    intros Hl H2 Hh. unfold coef.
    destruct p as [|c0 [|c1 [|c2 [|c3 [|c4 p]]]]]; cbn in *; try lia; field; auto.
  Qed.

  (** central differences of the primal equal the dual-number derivative *)
  Theorem central_difference_deg3 (x v : nat -> F) (e : expr F) (h : F) :
    no_div e = true -> (degree e <= 3)%nat -> 1 + 1 <> 0 -> h <> 0 ->
    (eval (fun i => x i + h * v i) e - eval (fun i => x i + (- h) * v i) e) / ((1 + 1) * h)
    = deriv x v e + h * h * coef (texp x v e) 3.
  Proof.
    intros Hn Hd H2 Hh.
    rewrite <- !texp_sound by assumption.
    pose proof (texp_length x v e Hn) as Hl.
    rewrite central_difference_poly by (auto; lia).
    destruct (texp_value_and_derivative x v e Hn) as [_ ->]. reflexivity.
  Qed.

  Theorem central_difference_exact_deg2 (x v : nat -> F) (e : expr F) (h : F) :
    no_div e = true -> (degree e <= 2)%nat -> 1 + 1 <> 0 -> h <> 0 ->
    (eval (fun i => x i + h * v i) e - eval (fun i => x i + (- h) * v i) e) / ((1 + 1) * h)
    = deriv x v e.
  Proof.
    intros Hn Hd H2 Hh. pose proof (texp_length x v e Hn) as Hl.
    rewrite central_difference_deg3 by (auto; lia).
    unfold coef. rewrite nth_overflow by lia. ring.
  Qed.
End Thm.
