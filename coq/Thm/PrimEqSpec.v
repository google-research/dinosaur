(** Property C05.  Over an arbitrary field, for any K and any levels: a resting isothermal atmosphere in hydrostatic
    balance is steady in Model/PrimEq.v (RestColumn, RestState); the nodal column algebra of Model/PrimEq.v, explicit +
    implicit, is the vertical discretisation of the pointwise specification Model/PrimEqSpec.v (ColumnRefinement), and
    the modal tendencies are the modal operators applied to the analysed specification quantities (ModalRefinement, which
    uses ColumnRefinement).  Over an abstract differential ring of smooth fields: the operator identities and the balanced
    zonal states of the specification (Ring); formal power series are such a ring (PowerSeries). *)
From Dino Require Import Base.Ops Base.Field Base.Sums Base.Ord Model.Sigma Thm.Sigma Model.Implicit Model.PrimEq Thm.PrimEq
     Model.PrimEqSpec.
Local Open Scope F_scope.

(** one column without wind, divergence and temperature deviation; the gradient of ln ps
    ([n_gx], [n_gy]), the Coriolis parameter and sec^2 are arbitrary *)
Section RestColumn.
  Context {F : Type} {o : Ops F} {Fc : FieldC o}.
  Add Field FFrc : (field_c : FieldTh o).
  Variable c : @PEcfg F.

  Lemma sigma_dot_zero (g : nat -> F) r : (forall k, g k = 0) -> sigma_dot c g r = 0.
  Proof. intros H. apply (clin_zero _ _ (sigma_dot_linear c)). intros k _. apply H. Qed.
  Lemma g_part_zero (g : nat -> F) n : (forall k, g k = 0) -> g_part c g n = 0.
  Proof. intros H. apply (clin_zero _ _ (g_part_linear c)). intros k _. apply H. Qed.
  Lemma vertical_tendency_zero_w (w x : nat -> F) n : (forall k, w k = 0) -> vertical_tendency c w x n = 0.
  Proof.
    intros H. unfold vertical_tendency, centered_vertical_advection. cbv zeta.
    assert (E : forall m, pad_tb (cK c) 0 0 w m = 0).
    { intros m. unfold pad_tb. destruct (Nat.eqb m 0); [reflexivity|]. destruct (Nat.ltb m (cK c)); [apply H|reflexivity]. }
    rewrite !E. ring.
  Qed.
  Lemma t_omega_zero (Tf g vg : nat -> F) n :
    (forall k, g k = 0) -> vg n = 0 -> t_omega_over_sigma_sp c Tf g vg n = 0.
  Proof. intros Hg Hv. unfold t_omega_over_sigma_sp. rewrite Hv, g_part_zero by exact Hg. ring. Qed.

  Variable x : @NCol F.
  Hypothesis u0 : forall k, n_u x k = 0.
  Hypothesis v0 : forall k, n_v x k = 0.
  Hypothesis d0 : forall k, n_div x k = 0.
  Hypothesis t0 : forall k, n_temp x k = 0.

  Lemma u_dot_grad_rest k : u_dot_grad x k = 0.
  Proof. unfold u_dot_grad. rewrite u0, v0. ring. Qed.
  Lemma g_full_adiabatic_rest k : g_full_adiabatic x k = 0.
  Proof. unfold g_full_adiabatic. rewrite d0, u_dot_grad_rest. ring. Qed.
  Lemma sigma_dot_full_rest r : sigma_dot_full c x r = 0.
  Proof. apply sigma_dot_zero. intros k. unfold g_full_diag. rewrite d0, u_dot_grad_rest. ring. Qed.
  Lemma sigma_dot_explicit_rest r : sigma_dot_explicit c x r = 0.
  Proof. apply sigma_dot_zero, u_dot_grad_rest. Qed.

  Lemma temp_vertical_rest n : temp_vertical_tendency c true x n = 0.
  Proof.
    unfold temp_vertical_tendency.
    rewrite (vertical_tendency_zero_w _ _ n sigma_dot_full_rest), (vertical_tendency_zero_w _ _ n sigma_dot_explicit_rest). destruct (tref_nonuniform c); ring.
  Qed.
  Lemma temp_nodal_rest r : temp_nodal_total c true x r = 0.
  Proof.
    unfold temp_nodal_total, hsa_nodal, temp_adiabatic. cbv zeta.
    rewrite temp_vertical_rest, (t_omega_zero _ _ _ r u_dot_grad_rest (u_dot_grad_rest r)), (t_omega_zero _ _ _ r g_full_adiabatic_rest (u_dot_grad_rest r)), d0. ring.
  Qed.
  Lemma temp_nodal_rest_moist (m : Moist) (q : nat -> F) r : temp_nodal_total_moist c true m x q r = 0.
  Proof.
    unfold temp_nodal_total_moist, hsa_nodal, temp_adiabatic_moist. cbv zeta.
    rewrite temp_vertical_rest, (t_omega_zero _ _ _ r u_dot_grad_rest (u_dot_grad_rest r)), (t_omega_zero _ _ _ r g_full_adiabatic_rest (u_dot_grad_rest r)), d0. ring.
  Qed.
  Lemma hsa_rest (s : nat -> F) r : hsa_mu x s r = 0 /\ hsa_mv x s r = 0.
  Proof. unfold hsa_mu, hsa_mv. rewrite u0, v0. split; ring. Qed.
  Lemma log_pressure_rest : log_pressure_tendency c x = 0.
  Proof.
    unfold log_pressure_tendency, sigma_integral. rewrite sumn_zero; [ring|].
    intros k _. unfold xdsigma. rewrite u_dot_grad_rest. ring.
  Qed.
  Lemma kinetic_rest r : kinetic x r = 0.
  Proof. unfold kinetic. rewrite u0, v0, fdiv_mul. ring. Qed.
  Lemma combined_rest (rt : nat -> F) r : rt r = 0 -> combined_u c true x rt r = 0 /\ combined_v c true x rt r = 0.
  Proof.
    intros H. unfold combined_u, combined_v. cbv zeta.
    rewrite !(vertical_tendency_zero_w _ _ r sigma_dot_full_rest), u0, v0, H. split; ring.
  Qed.
  Lemma rt_dry_rest k : rt_dry c x k = 0.
  Proof. unfold rt_dry. rewrite t0. ring. Qed.
  Lemma rt_moist_rest (m : Moist) (q : nat -> F) k : rt_moist c m x q k = 0.
  Proof. unfold rt_moist. rewrite t0. ring. Qed.

  Lemma humidity_geo_rest (m : Moist) (q : nat -> F) (q0 T0 : F) r :
    (forall k, (k < cK c)%nat -> q k = q0) -> (forall k, (k < cK c)%nat -> cTref c k = T0) ->
    humidity_geo_nodal c false m x q r = geo_diff false c (fun _ => q0 * T0 * (mRv m / cR c - 1)) r * 1.
  Proof.
    intros Hq HT. unfold humidity_geo_nodal, humidity_temperature_diff, geo_diff, geo_diff_dense.
    rewrite <- sumn_scal_r. apply sumn_ext. intros k Hk. rewrite (Hq k Hk), (HT k Hk), t0. ring.
  Qed.
  Lemma humidity_div_rest (m : Moist) (q gqx gqy : nat -> F) (q0 T0 lp : F) r :
    q r = q0 -> gqx r = 0 -> gqy r = 0 -> cTref c r = T0 ->
    humidity_div_nodal c m x q gqx gqy lp r = q0 * T0 * (mRv m - cR c) * lp.
  Proof. intros Hq Hx Hy HT. unfold humidity_div_nodal. cbv zeta. rewrite Hq, Hx, Hy, HT. ring. Qed.
End RestColumn.

Section RestState.
  Context {F : Type} {o : Ops F} {Fc : FieldC o}.
  Add Field FFrest : (field_c : FieldTh o).
  Variables W P : Type.
  Variable toM : (P -> F) -> W -> F.
  Variable divc curlc : (W -> F) -> (W -> F) -> W -> F.
  Variable lap clip : (W -> F) -> W -> F.
  Hypothesis toM_lin : linear toM.
  Hypothesis divc_lin : linear2 divc.
  Hypothesis curlc_lin : linear2 curlc.
  Hypothesis lap_lin : linear lap.
  Hypothesis clip_lin : linear clip.

  Lemma lin_vanish {A B} (L : (A -> F) -> B -> F) (HL : linear L) (f : A -> F) b : (forall a, f a = 0) -> L f b = 0.
  Proof. intros H. rewrite (lin_ext L HL f (fun _ => 0) H). apply lin_zero, HL. Qed.
  Lemma lin2_vanish {A B} (D : (A -> F) -> (A -> F) -> B -> F) (HD : linear2 D) (f g : A -> F) b :
    (forall a, f a = 0) -> (forall a, g a = 0) -> D f g b = 0.
  Proof. intros Hf Hg. rewrite (proj1 HD f (fun _ => 0) g (fun _ => 0) Hf Hg). apply lin2_zero, HD. Qed.

  Variable c : @PEcfg F.
  Variables grav cst : F.
  Variable X : P -> @NCol F.
  Hypothesis u0 : forall p k, n_u (X p) k = 0.
  Hypothesis v0 : forall p k, n_v (X p) k = 0.
  Hypothesis d0 : forall p k, n_div (X p) k = 0.
  Hypothesis t0 : forall p k, n_temp (X p) k = 0.
  Variable dv Tm : nat -> W -> F.
  Hypothesis dv0 : forall k w, dv k w = 0.
  Variables onem orog : W -> F.
  Hypothesis lap_const : forall w, lap onem w = 0.

  Lemma op_combined_rest (D : (W -> F) -> (W -> F) -> W -> F) (HD : linear2 D) (rt : P -> nat -> F) r w :
    (forall p, rt p r = 0) ->
    D (toM (fun p => combined_u c true (X p) (rt p) r)) (toM (fun p => combined_v c true (X p) (rt p) r)) w = 0.
  Proof.
    intros H. apply (lin2_vanish D HD); intros w2; apply (lin_vanish toM toM_lin); intros p;
      apply (combined_rest c (X p) (u0 p) (v0 p) (d0 p) (rt p) r (H p)).
  Qed.

  Lemma temp_rest (tot : P -> F) r w :
    (forall p, tot p = 0) ->
    clip (fun w' => toM tot w' + - divc (toM (fun p => hsa_mu (X p) (n_temp (X p)) r))
                                        (toM (fun p => hsa_mv (X p) (n_temp (X p)) r)) w') w
    + temp_tendency_implicit W c dv r w = 0.
  Proof.
    intros H. rewrite (lin_vanish clip clip_lin).
    2:{ intros w'. rewrite (lin_vanish toM toM_lin tot w' H).
        rewrite (lin2_vanish divc divc_lin); [ring| |]; intros w2; apply (lin_vanish toM toM_lin); intros p;
          apply (hsa_rest (X p) (u0 p) (v0 p)). }
    unfold temp_tendency_implicit, temp_implicit_col, temp_implicit_dense, matvec.
    rewrite sumn_zero; [ring|]. intros h _. rewrite dv0. ring.
  Qed.
  Theorem rest_temperature_steady r w :
    temp_tendency_explicit W P toM divc clip c X r w + temp_tendency_implicit W c dv r w = 0.
  Proof. apply temp_rest. intros p. apply temp_nodal_rest; auto. Qed.
  Theorem rest_temperature_steady_moist (m : Moist) (q : P -> nat -> F) r w :
    temp_tendency_explicit_moist W P toM divc clip c m X q r w + temp_tendency_implicit W c dv r w = 0.
  Proof. apply temp_rest. intros p. apply temp_nodal_rest_moist; auto. Qed.

  Theorem rest_vorticity_general (rt : P -> nat -> F) (hum : W -> F) r w :
    (forall p, rt p r = 0) -> (forall w', hum w' = 0) ->
    vort_tendency_explicit W P toM curlc clip c X rt hum r w = 0.
  Proof.
    intros Hrt Hh. apply (lin_vanish clip clip_lin). intros w'.
    rewrite (op_combined_rest curlc curlc_lin rt r w' Hrt), Hh. ring.
  Qed.
  Theorem rest_vorticity_steady r w :
    vort_tendency_explicit W P toM curlc clip c X (fun p => rt_dry c (X p)) (fun _ => 0) r w = 0.
  Proof. apply rest_vorticity_general; [intros p; apply rt_dry_rest, t0 | reflexivity]. Qed.

  Theorem rest_lnps_steady w :
    clip (toM (fun p => log_pressure_tendency c (X p))) w + lnps_implicit_col c (fun s => dv s w) = 0.
  Proof.
    rewrite (lin_vanish clip clip_lin).
    2:{ intros w'. apply (lin_vanish toM toM_lin). intros p. apply log_pressure_rest; auto. }
    unfold lnps_implicit_col, matvec. rewrite sumn_zero; [ring|]. intros h _. rewrite dv0. ring.
  Qed.

  (** hydrostatic balance as a relation between modal coefficients: the laplacian of ln ps is that of the orography *)
  Lemma lap_hydrostatic (lnps : W -> F) (gam : F) :
    (forall w, lnps w = cst * onem w - gam * orog w) -> forall w, lap lnps w = - gam * lap orog w.
  Proof.
    intros H w. rewrite (lin_comb lap lap_lin lnps (fun a => cst * onem a) orog (- gam)) by (intros; rewrite H; ring).
    rewrite (lin_scal lap lap_lin (fun a => cst * onem a) onem cst) by reflexivity. rewrite lap_const. ring.
  Qed.

  (** the divergence equation of the rest state for ln ps = cst one - gam orog and a humidity term that is
      - kh lap(ln ps) under the clip (dry: kh = 0), without division.  The residual is there because the explicit terms
      are clipped and the implicit term - lap(R T_ref ln ps) is not *)
  Theorem rest_divergence_general (rt : P -> nat -> F) (hum lnps : W -> F) (gam kh : F) r w :
    (forall p, rt p r = 0) -> (forall k, (k < cK c)%nat -> forall w', Tm k w' = 0) ->
    (forall w, lnps w = cst * onem w - gam * orog w) ->
    clip hum w = - kh * clip (lap lnps) w ->
    div_tendency_explicit W P toM divc lap clip c grav X rt orog hum r w + div_tendency_implicit W lap c Tm lnps r w
    = cR c * cTref c r * gam * lap orog w - (grav - kh * gam) * clip (lap orog) w.
  Proof.
    intros Hrt HTm Hhyd Hhum. unfold div_tendency_explicit, div_tendency_implicit.
    rewrite (lin_comb clip clip_lin _ hum (lap orog) (- grav)).
    2:{ intros w'. rewrite (op_combined_rest divc divc_lin rt r w' Hrt).
        rewrite (lin_vanish lap lap_lin (toM (fun p => kinetic (X p) r)))
          by (intros w2; apply (lin_vanish toM toM_lin); intros p; apply kinetic_rest; auto).
        ring. }
    rewrite Hhum, (lin_scal clip clip_lin (lap lnps) (lap orog) (- gam) (lap_hydrostatic lnps gam Hhyd)).
    rewrite (lin_scal lap lap_lin (fun w' => div_implicit_potential c false (fun k => Tm k w') (lnps w') r)
               lnps (cR c * cTref c r)).
    2:{ intros w'. unfold div_implicit_potential, geo_diff, geo_diff_dense.
        rewrite sumn_zero by (intros k Hk; rewrite (HTm k Hk); ring). ring. }
    rewrite (lap_hydrostatic lnps gam Hhyd). ring.
  Qed.

  (** orography without content in the clipped top wavenumber: exactly steady *)
  Lemma residual_vanishes (k t lo cl : F) : t = k * (lo - cl) -> cl = lo -> t = 0.
  Proof. intros -> ->. ring. Qed.

  Variable T0 : F.
  Hypothesis RT0_nz : cR c * T0 <> 0.

  Theorem rest_divergence_residual (lnps : W -> F) r w :
    cTref c r = T0 -> (forall k, (k < cK c)%nat -> forall w', Tm k w' = 0) ->
    (forall w, lnps w = cst * onem w - grav / (cR c * T0) * orog w) ->
    div_tendency_explicit W P toM divc lap clip c grav X (fun p => rt_dry c (X p)) orog (fun _ => 0) r w
    + div_tendency_implicit W lap c Tm lnps r w
    = grav * (lap orog w - clip (lap orog) w).
  Proof.
    intros HT HTm Hhyd.
    rewrite (rest_divergence_general (fun p => rt_dry c (X p)) (fun _ => 0) lnps (grav / (cR c * T0)) 0 r w
               (fun p => rt_dry_rest c (X p) (t0 p) r) HTm Hhyd)
      by (rewrite (lin_zero clip clip_lin); ring).
    rewrite HT. field. split; intro E; apply RT0_nz; rewrite E; ring.
  Qed.

  Section RestMoist.
    Variable m : @Moist F.
    Variable q0 : F.
    Variables q gqx gqy : P -> nat -> F.
    Let eps := mRv m / cR c - 1.
    Hypothesis R_nz : cR c <> 0.
    Hypothesis mf_nz : 1 + eps * q0 <> 0.

    (** the humidity term enters only through its value under the clip *)
    Theorem rest_divergence_residual_humid (hum lnpsm : W -> F) r w :
      cTref c r = T0 -> (forall k, (k < cK c)%nat -> forall w', Tm k w' = 0) ->
      (forall w, lnpsm w = cst * onem w - grav / (cR c * T0 * (1 + eps * q0)) * orog w) ->
      clip hum w = - (q0 * T0 * (mRv m - cR c)) * clip (lap lnpsm) w ->
      div_tendency_explicit W P toM divc lap clip c grav X (fun p => rt_moist c m (X p) (q p)) orog hum r w
      + div_tendency_implicit W lap c Tm lnpsm r w
      = grav / (1 + eps * q0) * (lap orog w - clip (lap orog) w).
    Proof.
      intros HT HTm Hhyd Hhum.
      rewrite (rest_divergence_general (fun p => rt_moist c m (X p) (q p)) hum lnpsm _ _ r w
                 (fun p => rt_moist_rest c (X p) (t0 p) m (q p) r) HTm Hhyd Hhum), HT.
      assert (E : mRv m - cR c = eps * cR c) by (unfold eps; field; exact R_nz).
      rewrite E. field.
      split; [exact mf_nz|]. split; intro Z; apply RT0_nz; rewrite Z; ring.
    Qed.

    Theorem rest_vorticity_steady_moist r w :
      (forall p, gqx p r = 0) -> (forall p, gqy p r = 0) ->
      vort_tendency_explicit W P toM curlc clip c X (fun p => rt_moist c m (X p) (q p))
                             (fun w' => humidity_curl_modal W P toM c m X gqx gqy r w') r w = 0.
    Proof.
      intros Hx Hy. apply rest_vorticity_general; [intros p; apply rt_moist_rest, t0|].
      intros w'. apply (lin_vanish toM toM_lin). intros p.
      unfold humidity_curl_nodal. cbv zeta. rewrite Hx, Hy. ring.
    Qed.

    (** the two table hypotheses: the analysed constant field has no laplacian; laplacian(lnps) survives
        to_nodal -> to_modal under the clip *)
    Theorem rest_divergence_residual_moist (lapn : P -> F) (lnpsm : W -> F) r w :
      (forall k, cTref c k = T0) -> (forall k, (k < cK c)%nat -> forall w', Tm k w' = 0) ->
      (forall w, lnpsm w = cst * onem w - grav / (cR c * T0 * (1 + eps * q0)) * orog w) ->
      (forall p k, q p k = q0) -> (forall p, gqx p r = 0) -> (forall p, gqy p r = 0) ->
      (forall w, lap (toM (fun _ => 1)) w = 0) -> clip (toM lapn) w = clip (lap lnpsm) w ->
      div_tendency_explicit W P toM divc lap clip c grav X (fun p => rt_moist c m (X p) (q p)) orog
                            (fun w' => humidity_div_modal W P toM lap c m X q gqx gqy lapn r w') r w
      + div_tendency_implicit W lap c Tm lnpsm r w
      = grav / (1 + eps * q0) * (lap orog w - clip (lap orog) w).
    Proof.
      intros HT HTm Hhyd Hq Hx Hy lap_one H_lapn.
      apply (rest_divergence_residual_humid _ lnpsm r w (HT r) HTm Hhyd).
      rewrite <- H_lapn. apply (lin_scal clip clip_lin). intros w'. unfold humidity_div_modal.
      rewrite (lin_scal lap lap_lin _ (toM (fun _ => 1)) (geo_diff false c (fun _ => q0 * T0 * (mRv m / cR c - 1)) r)).
      2:{ intros a. apply (lin_scal toM toM_lin). intros p.
          apply (humidity_geo_rest c (X p) (t0 p)); intros; auto. }
      rewrite lap_one.
      rewrite (lin_scal toM toM_lin _ lapn (q0 * T0 * (mRv m - cR c)))
        by (intros p; apply humidity_div_rest; auto).
      ring.
    Qed.
  End RestMoist.
End RestState.

Section ColumnRefinement.
  Context {F : Type} {o : Ops F} {Fc : FieldC o}.
  Add Field FFcol : (field_c : FieldTh o).
  Hypothesis two_nz : two <> 0.
  Hypothesis feqb_sound : forall x y : F, feqb x y = true -> x = y.
  Variable c : @PEcfg F.
  Hypothesis th2_nz : forall k, (S k < cK c)%nat -> thickness (cb c) k + thickness (cb c) (S k) <> 0.
  (** the level set starts at sigma = 0 (np.cumsum(layer_thickness) is then the boundary value) *)
  Hypothesis b_top : cb c 0%nat = 0.

  Lemma cumint_is_spec (g : nat -> F) n : (n < cK c)%nat -> cumint c g n = spec_cum c g n.
  Proof.
    intros Hn. unfold cumint, cum_sigma_integral, cumsum_m.
    rewrite cumsum_dot_seq by exact Hn. reflexivity.
  Qed.
  Lemma sum_sigma_is_boundary r : sum_sigma c r = cb c (S r).
  Proof.
    unfold sum_sigma, cumsum_seq, thickness.
    rewrite (sumn_telescope (S r) (cb c)), b_top. ring.
  Qed.
  Lemma sigma_dot_is_spec (g : nat -> F) r :
    (r < cK c)%nat -> sigma_dot c g r = spec_sigma_dot c g r.
  Proof.
    intros Hr. unfold sigma_dot, spec_sigma_dot. cbv zeta.
    rewrite sum_sigma_is_boundary, !cumint_is_spec by lia.
    unfold spec_cum at 1. replace (S (cK c - 1)) with (cK c) by lia. reflexivity.
  Qed.
  Lemma vertical_tendency_is_spec (w x : nat -> F) n :
    (n < cK c)%nat -> vertical_tendency c w x n = spec_vadv c w x n.
  Proof.
    intros Hn. rewrite vertical_tendency_closed by exact Hn.
    unfold spec_vadv, adv_term, spec_ddsigma, centered_difference, c2c, half.
    destruct n as [|n].
    - cbn [Nat.eqb]. destruct (Nat.ltb 1 (cK c)); rewrite !fdiv_mul; ring.
    - cbn [Nat.eqb]. replace (S n - 1)%nat with n by lia.
      destruct (Nat.ltb_spec (S n) (cK c)) as [_|H]; [|lia].
      destruct (Nat.ltb (S (S n)) (cK c)); rewrite !fdiv_mul; ring.
  Qed.
  (** the upwind option: Model/Sigma.v's [upwind_vertical_advection] (tied to the code by C13) is the
      specification's upwind operator, the one-sided difference - w dX/dsigma taken above for downward and below for
      upward motion *)
  Lemma upwind_is_spec (w x : nat -> F) n :
    upwind_vertical_advection (cK c) (cb c) w x n = spec_vadv_upwind c w x n.
  Proof.
    unfold upwind_vertical_advection, spec_vadv_upwind, spec_ddsigma, centered_difference, c2c. cbv zeta.
    destruct (Nat.eqb n 0), (Nat.ltb (S n) (cK c)); rewrite ?fdiv_mul; ring.
  Qed.
  Lemma upwind_constant (w x : nat -> F) n :
    (forall k, x k = x 0%nat) -> spec_vadv_upwind c w x n = 0.
  Proof.
    intros H. unfold spec_vadv_upwind, spec_ddsigma.
    rewrite (H (S n)), (H n), (H (S (n - 1))), (H (n - 1)%nat), !fdiv_mul.
    destruct (Nat.eqb n 0), (Nat.ltb (S n) (cK c)); ring.
  Qed.
  Lemma upwind_one_sided (w x : nat -> F) n :
    (0 < n)%nat -> (S n < cK c)%nat ->
    spec_vadv_upwind c w x n
    = - (fmax (w (n - 1)%nat) 0 * spec_ddsigma c x (n - 1) + fmin (w n) 0 * spec_ddsigma c x n).
  Proof.
    intros H0 H1. unfold spec_vadv_upwind.
    destruct (Nat.eqb_spec n 0); [lia|]. destruct (Nat.ltb_spec (S n) (cK c)); [reflexivity|lia].
  Qed.
  Lemma g_part_is_spec (g ug : nat -> F) n :
    (n < cK c)%nat -> ug n - g_part c g n = spec_omega_p c g ug n.
  Proof.
    intros Hn. unfold g_part, spec_omega_p. cbv zeta.
    destruct n as [|n]; cbn [Nat.eqb].
    - now rewrite cumint_is_spec by exact Hn.
    - replace (S n - 1)%nat with n by lia. now rewrite !cumint_is_spec by lia.
  Qed.

  (** u . grad ln ps as the code forms it (python's sum starts from 0) *)
  Lemma u_dot_grad_is_spec (x : NCol) k :
    u_dot_grad x k = n_sec2 x * (n_u x k * n_gx x + n_v x k * n_gy x).
  Proof. unfold u_dot_grad. ring. Qed.

  Definition gcol (x : @NCol F) (k : nat) : F := n_div x k + u_dot_grad x k.

  Theorem refines_sigma_dot (x : NCol) r :
    (r < cK c)%nat -> sigma_dot_full c x r = spec_sigma_dot c (gcol x) r.
  Proof. intros Hr. unfold sigma_dot_full. now rewrite sigma_dot_is_spec by exact Hr. Qed.

  Lemma vadv_full_is_spec (x : NCol) (s : nat -> F) n :
    (n < cK c)%nat -> vertical_tendency c (sigma_dot_full c x) s n = spec_vadv c (spec_sigma_dot c (gcol x)) s n.
  Proof.
    intros Hn. rewrite <- vertical_tendency_is_spec by exact Hn.
    apply vertical_tendency_ext; [exact Hn| |reflexivity]. intros; apply refines_sigma_dot; lia.
  Qed.
  Lemma omega_full_is_spec (x : NCol) n :
    (n < cK c)%nat -> u_dot_grad x n - g_part c (g_full_adiabatic x) n = spec_omega_p c (gcol x) (u_dot_grad x) n.
  Proof.
    intros Hn. rewrite (g_part_ext c (g_full_adiabatic x) (gcol x) n) by (intros; unfold g_full_adiabatic, gcol; ring).
    now apply g_part_is_spec.
  Qed.

  (** TEMPERATURE EQUATION.  Grouping proved: for the absolute temperature [T] and ANY
      reference profile [Tref] (T' = T - Tref),
        [explicit vertical advection of T' by sigma_dot_full  +  explicit vertical advection of Tref by
         the u.grad(lnps) part of sigma_dot  +  explicit kappa (Tref, T') omega/p parts]
        + [implicit -H . divergence]
        = - sigma_dot dT/dsigma  +  kappa T omega/p      of the specification.
      (The horizontal part  T' div - div(u T') = - u.grad T  is [flux_form_is_advective_form] below.) *)
  Theorem refines_temperature (Tref T : nat -> F) (x : NCol) n :
    (n < cK c)%nat ->
    let ci := with_tref c Tref in
    let xi := with_temp x (fun k => T k - Tref k) in
    temp_vertical_tendency ci true xi n + temp_adiabatic ci xi n + temp_implicit_col ci (n_div x) n
    = spec_vadv c (spec_sigma_dot c (gcol x)) T n
      + ckappa c * (T n * spec_omega_p c (gcol x) (u_dot_grad x) n).
  Proof.
    intros Hn ci xi. subst ci xi.
    rewrite (tref_split_closed two_nz feqb_sound c th2_nz Tref T x n Hn).
    unfold temp_closed. now rewrite vadv_full_is_spec, omega_full_is_spec by exact Hn.
  Qed.

  Theorem refines_temperature_moist (m : Moist) (Tref T q : nat -> F) (x : NCol) n :
    (n < cK c)%nat ->
    1 + (mCpv m / (cR c / ckappa c) - 1) * q n <> 0 ->
    let ci := with_tref c Tref in
    let xi := with_temp x (fun k => T k - Tref k) in
    temp_vertical_tendency ci true xi n + temp_adiabatic_moist ci m xi q n + temp_implicit_col ci (n_div x) n
    = spec_vadv c (spec_sigma_dot c (gcol x)) T n
      + ckappa c * (T n * ((1 + (mRv m / cR c - 1) * q n) / (1 + (mCpv m / (cR c / ckappa c) - 1) * q n))
                    * spec_omega_p c (gcol x) (u_dot_grad x) n).
  Proof.
    intros Hn Hq ci xi. subst ci xi.
    rewrite (tref_split_closed_moist two_nz feqb_sound c th2_nz m Tref T q x n Hn Hq).
    unfold temp_closed_moist. now rewrite vadv_full_is_spec, omega_full_is_spec by exact Hn.
  Qed.

  (** SURFACE PRESSURE EQUATION: explicit -sum(u.grad lnps dsigma) + implicit -sum(div dsigma) *)
  Theorem refines_lnps (x : NCol) :
    log_pressure_tendency c x + lnps_implicit_col c (n_div x)
    = - sumn (cK c) (fun k => gcol x k * thickness (cb c) k).
  Proof.
    unfold log_pressure_tendency, lnps_implicit_col, sigma_integral, matvec, gcol.
    rewrite <- !sumn_opp, <- sumn_add. apply sumn_ext. intros k _. unfold xdsigma. ring.
  Qed.

  (** the nodal vector handed to div/curl for ANY pressure-gradient temperature [rt] (R T, R Tv, ...) *)
  Lemma combined_is_spec (x : NCol) (rt : nat -> F) k :
    (k < cK c)%nat ->
    combined_u c true x rt k
    = n_sec2 x * (- n_v x k * (n_vort x k + n_f x) - spec_vadv c (spec_sigma_dot c (gcol x)) (n_u x) k + rt k * n_gx x) /\
    combined_v c true x rt k
    = n_sec2 x * (n_u x k * (n_vort x k + n_f x) - spec_vadv c (spec_sigma_dot c (gcol x)) (n_v x) k + rt k * n_gy x).
  Proof.
    intros Hk. unfold combined_u, combined_v. cbv zeta. rewrite !vadv_full_is_spec by exact Hk. split; ring.
  Qed.

  (** MOMENTUM: the nodal vector handed to div/curl plus the implicit R Tref grad(lnps) part is
      sec^2 * cos(lat) * [ (zeta+f) k x v + sigma_dot dv/dsigma + R Tv grad lnps ] of the specification
      (dry: q = 0) *)
  Theorem refines_momentum (m : Moist) (Tref T q : nat -> F) (x : NCol) k :
    (k < cK c)%nat -> cR c <> 0 ->
    let ci := with_tref c Tref in
    let xi := with_temp x (fun j => T j - Tref j) in
    effective_pgf_u ci true m xi (rt_moist ci m xi q) q k
    = n_sec2 x * (- n_v x k * (n_vort x k + n_f x)
                  - spec_vadv c (spec_sigma_dot c (gcol x)) (n_u x) k
                  + cR c * (T k * (1 + (mRv m / cR c - 1) * q k)) * n_gx x) /\
    effective_pgf_v ci true m xi (rt_moist ci m xi q) q k
    = n_sec2 x * (n_u x k * (n_vort x k + n_f x)
                  - spec_vadv c (spec_sigma_dot c (gcol x)) (n_v x) k
                  + cR c * (T k * (1 + (mRv m / cR c - 1) * q k)) * n_gy x).
  Proof.
    intros Hk HR ci xi. subst ci xi. unfold effective_pgf_u, effective_pgf_v.
    (* the vector handed to div/curl does not read T_ref, and the temperature only through [rt] *)
    change (combined_u (with_tref c Tref) true (with_temp x (fun j => T j - Tref j))) with (combined_u c true x).
    change (combined_v (with_tref c Tref) true (with_temp x (fun j => T j - Tref j))) with (combined_v c true x).
    destruct (combined_is_spec x (rt_moist (with_tref c Tref) m (with_temp x (fun j => T j - Tref j)) q) k Hk) as [-> ->].
    unfold tref_pgf_u, tref_pgf_v, rt_moist, moisture_contribution.
    cbn [with_tref with_temp cR cTref n_temp n_sec2 n_gx n_gy]. split; field; exact HR.
  Qed.

  (** kinetic energy and hydrostatic geopotential are the specification's by definition *)
  Theorem refines_kinetic (x : NCol) k :
    kinetic x k = n_sec2 x * (n_u x k * n_u x k + n_v x k * n_v x k) / two.
  Proof. unfold kinetic. rewrite !fdiv_mul. ring. Qed.
  Theorem refines_geopotential (phis lnps : F) (Tref T : nat -> F) k :
    (forall j, (j < cK c)%nat -> Tref j = Tref 0%nat) ->
    phis + div_implicit_potential (with_tref c Tref) false (fun j => T j - Tref j) lnps k
    = spec_phi c phis T k - geo_diff_dense (cK c) (cR c) (cls c) Tref k + cR c * Tref k * lnps.
  Proof.
    intros _. unfold div_implicit_potential, spec_phi, geo_diff, geo_diff_dense.
    cbn [with_tref cK cR cls cTref].
    rewrite (sumn_ext (cK c) (fun j => geo_weights (cK c) (cR c) (cls c) k j * (T j - Tref j))
               (fun j => geo_weights (cK c) (cR c) (cls c) k j * T j - geo_weights (cK c) (cR c) (cls c) k j * Tref j))
      by (intros; ring).
    rewrite sumn_sub. ring.
  Qed.
End ColumnRefinement.

(** Explicit + implicit vorticity / divergence tendencies of the model are the
    (clipped) modal operators applied to the analysed specification quantities
      - div / - curl  of  sec^2 cos(lat) [ (zeta+f) k x v + sigma_dot dv/dsigma + R Tv grad ln ps ]
      - lap ( KE + g orog [+ humidity part of the geopotential] )  - lap ( G . T )
    for ANY reference profile.  Exactness hypotheses used (table obligations of C04/C02):
    [H_div_grad], [H_curl_grad] (div/curl of the analysed sec^2 grad(lnps) are lap(lnps) / 0 below the
    clipped wavenumber), [lap_const] (the constant mode has no laplacian), for the moist classes the
    Leibniz obligations [H_leibniz], [H_leibniz_curl] of q grad(lnps); plus b_0 = 0.  What is NOT
    assumed and not proved: that to_modal of a nodal product is the exact projection of the product
    of the continuous fields (alias-freeness) - decided by Oracle A. *)
Section ModalRefinement.
  Context {F : Type} {o : Ops F} {Fc : FieldC o}.
  Add Field FFmref : (field_c : FieldTh o).
  Variables W P : Type.
  Variable toM : (P -> F) -> W -> F.
  Variable divc curlc : (W -> F) -> (W -> F) -> W -> F.
  Variable lap clip : (W -> F) -> W -> F.
  Hypothesis toM_lin : linear toM.
  Hypothesis divc_lin : linear2 divc.
  Hypothesis curlc_lin : linear2 curlc.
  Hypothesis lap_lin : linear lap.
  Hypothesis clip_lin : linear clip.
  Variable c : @PEcfg F.
  Hypothesis b_top : cb c 0%nat = 0.
  Variable grav : F.
  Variable X : P -> @NCol F.          (* nodal columns; their temperature entry is ignored *)
  Variable T : nat -> P -> F.         (* absolute nodal temperature *)
  Variable Tm : nat -> W -> F.        (* its modal coefficients *)
  Variable lnps onem orog : W -> F.
  Hypothesis H_div_grad : forall w,
      clip (divc (toM (fun p => n_gx (X p) * n_sec2 (X p))) (toM (fun p => n_gy (X p) * n_sec2 (X p)))) w = lap lnps w.
  Hypothesis H_curl_grad : forall w,
      clip (curlc (toM (fun p => n_gx (X p) * n_sec2 (X p))) (toM (fun p => n_gy (X p) * n_sec2 (X p)))) w = 0.
  Hypothesis lap_const : forall w, lap onem w = 0.

  (** sec^2 cos(lat) * the specification's momentum vector at node p, level r, for the
      pressure-gradient temperature [rt] (R T dry, R Tv moist) *)
  Definition spec_P (rt : P -> nat -> F) (p : P) (r : nat) : F :=
    n_sec2 (X p) * (- n_v (X p) r * (n_vort (X p) r + n_f (X p))
                    - spec_vadv c (spec_sigma_dot c (gcol (X p))) (n_u (X p)) r + rt p r * n_gx (X p)).
  Definition spec_Q (rt : P -> nat -> F) (p : P) (r : nat) : F :=
    n_sec2 (X p) * (n_u (X p) r * (n_vort (X p) r + n_f (X p))
                    - spec_vadv c (spec_sigma_dot c (gcol (X p))) (n_v (X p)) r + rt p r * n_gy (X p)).
  Definition rt_abs (p : P) (k : nat) : F := cR c * T k p.

  (** a linear operator applied to the analysed nodal vector of the model sees the specification's vector.
      The vector is given as [cu], [cv] with pointwise premises: the callers' vectors are convertible to
      [combined_u c true (X p) (rt p) r] but not syntactically of that form ([rt] appears unfolded), so a [rewrite] with
      that left side would not find them *)
  Lemma op_combined_is_spec (op : (W -> F) -> (W -> F) -> W -> F) (Hop : linear2 op) rt r w (Hr : (r < cK c)%nat)
        (cu cv : P -> F) :
    (forall p, cu p = combined_u c true (X p) (rt p) r) -> (forall p, cv p = combined_v c true (X p) (rt p) r) ->
    op (toM cu) (toM cv) w = op (toM (fun p => spec_P rt p r)) (toM (fun p => spec_Q rt p r)) w.
  Proof.
    intros Hu Hv. apply (proj1 Hop); intros a; apply (lin_ext toM toM_lin); intros p; rewrite ?Hu, ?Hv;
      apply (combined_is_spec c b_top (X p) (rt p) r Hr).
  Qed.

  Theorem refines_divergence_modal (Tref : nat -> F) r w :
    (r < cK c)%nat ->
    div_tendency_explicit W P toM divc lap clip (with_tref c Tref) grav (Xs P X T Tref)
                          (fun p => rt_dry (with_tref c Tref) (Xs P X T Tref p)) orog (fun _ => 0) r w
    + div_tendency_implicit W lap (with_tref c Tref) (Tms W Tm onem Tref) lnps r w
    = clip (fun w' => - divc (toM (fun p => spec_P rt_abs p r)) (toM (fun p => spec_Q rt_abs p r)) w'
                      - lap (fun w2 => toM (fun p => kinetic (X p) r) w2 + grav * orog w2) w') w
      - lap (fun w' => geo_diff false c (fun k => Tm k w') r) w.
  Proof.
    intros Hr.
    rewrite divergence_modal_closed by assumption.
    f_equal. apply (lin_ext clip clip_lin). intros w'. unfold div_base, cu_abs, cv_abs.
    rewrite (op_combined_is_spec divc divc_lin rt_abs r w' Hr) by reflexivity.
    rewrite (lin_comb lap lap_lin (fun w2 => toM (fun p => kinetic (X p) r) w2 + grav * orog w2)
               (toM (fun p => kinetic (X p) r)) orog grav (fun _ => eq_refl)).
    ring.
  Qed.

  (** ... in the documented form  - div(...) - lap(KE + Phi),  Phi = g orog + G . T  the hydrostatic
      geopotential, when the temperature has no content in the clipped top wavenumber *)
  Theorem refines_divergence_modal_energy (Tref : nat -> F) r w :
    (r < cK c)%nat ->
    clip (lap (fun w' => geo_diff false c (fun k => Tm k w') r)) w = lap (fun w' => geo_diff false c (fun k => Tm k w') r) w ->
    div_tendency_explicit W P toM divc lap clip (with_tref c Tref) grav (Xs P X T Tref)
                          (fun p => rt_dry (with_tref c Tref) (Xs P X T Tref p)) orog (fun _ => 0) r w
    + div_tendency_implicit W lap (with_tref c Tref) (Tms W Tm onem Tref) lnps r w
    = clip (fun w' => - divc (toM (fun p => spec_P rt_abs p r)) (toM (fun p => spec_Q rt_abs p r)) w'
                      - lap (fun w2 => toM (fun p => kinetic (X p) r) w2
                                       + spec_phi c (grav * orog w2) (fun k => Tm k w2) r) w') w.
  Proof.
    intros Hr Hc. rewrite (refines_divergence_modal Tref r w Hr), <- Hc.
    set (Gd := fun w' => geo_diff false c (fun k => Tm k w') r).
    set (E1 := fun w2 => toM (fun p => kinetic (X p) r) w2 + grav * orog w2).
    set (Dv := fun w' => divc (toM (fun p => spec_P rt_abs p r)) (toM (fun p => spec_Q rt_abs p r)) w').
    symmetry.
    rewrite (lin_comb clip clip_lin _ (fun w' => - Dv w' - lap E1 w') (lap Gd) (- (1))).
    - ring.
    - intros w'. unfold Dv.
      rewrite (lin_comb lap lap_lin (fun w2 => toM (fun p => kinetic (X p) r) w2 + spec_phi c (grav * orog w2) (fun k => Tm k w2) r)
                 E1 Gd 1) by (intros a; unfold E1, Gd, spec_phi, geo_diff; ring).
      ring.
  Qed.

  Theorem refines_vorticity_modal (Tref : nat -> F) r w :
    (r < cK c)%nat ->
    vort_tendency_explicit W P toM curlc clip (with_tref c Tref) (Xs P X T Tref)
                           (fun p => rt_dry (with_tref c Tref) (Xs P X T Tref p)) (fun _ => 0) r w
    = clip (fun w' => - curlc (toM (fun p => spec_P rt_abs p r)) (toM (fun p => spec_Q rt_abs p r)) w') w.
  Proof.
    intros Hr.
    rewrite vorticity_modal_closed by assumption.
    apply (lin_ext clip clip_lin). intros w'. unfold vort_base, cu_abs, cv_abs.
    rewrite (op_combined_is_spec curlc curlc_lin rt_abs r w' Hr) by reflexivity.
    ring.
  Qed.

  (** MOIST classes: R Tv = R T (1 + (Rv/R - 1) q) in the pressure-gradient term, the humidity part
      G . ((Rv/R - 1) q T) of the geopotential evaluated at the nodes *)
  Section Moist.
    Variable m : @Moist F.
    Hypothesis R_nz : cR c <> 0.
    Variable q gqx gqy : P -> nat -> F.
    Variable lapn : P -> F.
    Hypothesis H_leibniz : forall r w,
        clip (fun w' => divc (toM (qgx P X q r)) (toM (qgy P X q r)) w' - toM (leib_div P X q gqx gqy lapn r) w') w = 0.
    Hypothesis H_leibniz_curl : forall r w,
        clip (fun w' => curlc (toM (qgx P X q r)) (toM (qgy P X q r)) w' + toM (leib_curl P X gqx gqy r) w') w = 0.
    Definition rtv_abs (p : P) (k : nat) : F := cR c * T k p * (1 + (mRv m / cR c - 1) * q p k).

    Theorem refines_divergence_modal_moist (Tref : nat -> F) r w :
      (r < cK c)%nat ->
      div_tendency_explicit W P toM divc lap clip (with_tref c Tref) grav (Xs P X T Tref)
          (fun p => rt_moist (with_tref c Tref) m (Xs P X T Tref p) (q p)) orog
          (fun w' => humidity_div_modal W P toM lap (with_tref c Tref) m (Xs P X T Tref) q gqx gqy lapn r w') r w
      + div_tendency_implicit W lap (with_tref c Tref) (Tms W Tm onem Tref) lnps r w
      = clip (fun w' => - divc (toM (fun p => spec_P rtv_abs p r)) (toM (fun p => spec_Q rtv_abs p r)) w'
                        - lap (fun w2 => toM (fun p => kinetic (X p) r) w2 + grav * orog w2
                                         + toM (fun p => geo_diff false c (fun k => q p k * T k p * (mRv m / cR c - 1)) r) w2) w') w
        - lap (fun w' => geo_diff false c (fun k => Tm k w') r) w.
    Proof.
      intros Hr.
      rewrite divergence_modal_closed_moist by assumption.
      f_equal. apply (lin_ext clip clip_lin). intros w'. unfold div_base_m, cu_abs_m, cv_abs_m, geo_abs_m.
      rewrite (op_combined_is_spec divc divc_lin rtv_abs r w' Hr) by reflexivity.
      set (KE := toM (fun p => kinetic (X p) r)).
      set (GQ := toM (fun p => geo_diff false c (fun k => q p k * T k p * (mRv m / cR c - 1)) r)).
      rewrite (lin_comb lap lap_lin (fun w2 => KE w2 + grav * orog w2 + GQ w2) (fun w2 => KE w2 + grav * orog w2) GQ 1)
        by (intros; ring).
      rewrite (lin_comb lap lap_lin (fun w2 => KE w2 + grav * orog w2) KE orog grav (fun _ => eq_refl)).
      ring.
    Qed.

    Theorem refines_vorticity_modal_moist (Tref : nat -> F) r w :
      (r < cK c)%nat ->
      vort_tendency_explicit W P toM curlc clip (with_tref c Tref) (Xs P X T Tref)
          (fun p => rt_moist (with_tref c Tref) m (Xs P X T Tref p) (q p))
          (fun w' => humidity_curl_modal W P toM (with_tref c Tref) m (Xs P X T Tref) gqx gqy r w') r w
      = clip (fun w' => - curlc (toM (fun p => spec_P rtv_abs p r)) (toM (fun p => spec_Q rtv_abs p r)) w') w.
    Proof.
      intros Hr.
      rewrite vorticity_modal_closed_moist by assumption.
      apply (lin_ext clip clip_lin). intros w'. unfold vort_base_m, cu_abs_m, cv_abs_m.
      rewrite (op_combined_is_spec curlc curlc_lin rtv_abs r w' Hr) by reflexivity. reflexivity.
    Qed.
  End Moist.
End ModalRefinement.

(** The specification over an abstract commutative differential ring [A] of smooth fields *)
Create HintDb zonal.

Section Ring.
  Context {A : Type} {o : Ops A}.
  Hypothesis Aring : ring_theory (@f0 A o) f1 fadd fmul fsub fopp (@eq A).
  Add Ring ARing : Aring.
  Hypothesis div_def : forall x y : A, x / y = x * finv y.
  Variables dlon dmu : A -> A.
  Variables mu a : A.
  Notation c2 := (cos2 mu).
  Notation s2 := (sec2 mu).
  Notation ia := (finv a).
  Notation itwo := (finv (@two A o)).
  (** the units that are divided by *)
  Hypothesis inv_a : ia * a = 1.
  Hypothesis inv_c2 : finv c2 * c2 = 1.
  Hypothesis inv_two : itwo * two = 1.
  Hypothesis dlon_add : forall x y, dlon (x + y) = dlon x + dlon y.
  Hypothesis dmu_add : forall x y, dmu (x + y) = dmu x + dmu y.
  Hypothesis dlon_leib : forall x y, dlon (x * y) = dlon x * y + x * dlon y.
  Hypothesis dmu_leib : forall x y, dmu (x * y) = dmu x * y + x * dmu y.
  Hypothesis d_commute : forall x, dlon (dmu x) = dmu (dlon x).
  (** mu = sin(lat):  d mu / dlon = 0,  cos(lat) d mu / dlat = cos^2(lat); the radius is a constant *)
  Hypothesis dlon_mu : dlon mu = 0.
  Hypothesis dmu_mu : dmu mu = c2.
  Hypothesis dlon_a : dlon a = 0.
  Hypothesis dmu_a : dmu a = 0.

  (** constant fields, and zonal fields: functions of mu *)
  Definition cst (k : A) : Prop := dlon k = 0 /\ dmu k = 0.
  Definition zon (f : A) : Prop := dlon f = 0.

  Lemma cancel_double (x : A) : x = x + x -> x = 0.
  Proof.
    intros H. assert (E : x + x - x = x - x) by (rewrite <- H; reflexivity).
    transitivity (x + x - x); [ring|]. rewrite E. ring.
  Qed.
  Lemma sumn_zero_ring n (f : nat -> A) : (forall i, (i < n)%nat -> f i = 0) -> sumn n f = 0.
  Proof.
    induction n as [|n IH]; intros H; cbn [sumn]; [reflexivity|].
    rewrite IH, H by auto. ring.
  Qed.
  Lemma sumn_pull n (cf g : nat -> A) (m : A) :
    sumn n (fun j => cf j * (g j * m)) = m * sumn n (fun j => cf j * g j).
  Proof. induction n as [|n IH]; cbn [sumn]; [ring|]. rewrite IH. ring. Qed.
  Lemma half_double (x : A) : itwo * (x + x) = x.
  Proof. ring [(inv_two : itwo * (1 + 1) = 1)]. Qed.

  Section Deriv.
    Variable D : A -> A.
    Hypothesis D_add : forall x y, D (x + y) = D x + D y.
    Hypothesis D_leib : forall x y, D (x * y) = D x * y + x * D y.
    Lemma D_zero : D 0 = 0.
    Proof. apply cancel_double. rewrite <- D_add. f_equal. ring. Qed.
    Lemma D_one : D 1 = 0.
    Proof.
      apply cancel_double. transitivity (D (1 * 1)); [f_equal; ring|]. rewrite D_leib. ring.
    Qed.
    Lemma D_opp x : D (- x) = - D x.
    Proof.
      assert (H : D (x + - x) = D x + D (- x)) by apply D_add.
      replace (x + - x) with (@f0 A o) in H by ring. rewrite D_zero in H.
      transitivity (D x + D (- x) - D x); [ring|]. rewrite <- H. ring.
    Qed.
    Lemma D_sub x y : D (x - y) = D x - D y.
    Proof. replace (x - y) with (x + - y) by ring. rewrite D_add, D_opp. ring. Qed.
    Lemma D_scal k x : D k = 0 -> D (k * x) = k * D x.
    Proof. intros H. rewrite D_leib, H. ring. Qed.
    Lemma D_scal_r k x : D k = 0 -> D (x * k) = D x * k.
    Proof. intros H. rewrite D_leib, H. ring. Qed.
    Lemma D_sumn n (cf fs : nat -> A) :
      (forall j, D (cf j) = 0) -> D (sumn n (fun j => cf j * fs j)) = sumn n (fun j => cf j * D (fs j)).
    Proof.
      intros H. induction n as [|n IH]; cbn [sumn]; [apply D_zero|].
      rewrite D_add, IH, D_scal by apply H. reflexivity.
    Qed.
    Lemma D_cos2 : D c2 = - (two * mu * D mu).
    Proof. unfold cos2. rewrite D_sub, D_one, D_leib. unfold two. ring. Qed.
    Lemma D_inv u iu : iu * u = 1 -> D iu = - (iu * iu * D u).
    Proof.
      intros Hu. pose proof (D_leib iu u) as E. rewrite Hu, D_one in E.
      transitivity ((D iu * u + iu * D u) * iu - iu * iu * D u); [ring [Hu]|]. rewrite <- E. ring.
    Qed.

    (** the kernel of a derivation is a subring that contains the inverses of its units; the constant and the
        zonal fields below are such kernels *)
    Lemma ker_add x y : D x = 0 -> D y = 0 -> D (x + y) = 0.
    Proof. intros Hx Hy. rewrite D_add, Hx, Hy. ring. Qed.
    Lemma ker_opp x : D x = 0 -> D (- x) = 0.
    Proof. intros Hx. rewrite D_opp, Hx. ring. Qed.
    Lemma ker_sub x y : D x = 0 -> D y = 0 -> D (x - y) = 0.
    Proof. intros Hx Hy. rewrite D_sub, Hx, Hy. ring. Qed.
    Lemma ker_mul x y : D x = 0 -> D y = 0 -> D (x * y) = 0.
    Proof. intros Hx Hy. rewrite D_leib, Hx, Hy. ring. Qed.
    Lemma ker_inv u iu : iu * u = 1 -> D u = 0 -> D iu = 0.
    Proof. intros Hu H. rewrite (D_inv u iu Hu), H. ring. Qed.
  End Deriv.

  Lemma cst_0 : cst 0. Proof. split; [apply (D_zero dlon dlon_add)|apply (D_zero dmu dmu_add)]. Qed.
  Lemma cst_1 : cst 1. Proof. split; [apply (D_one dlon dlon_leib)|apply (D_one dmu dmu_leib)]. Qed.
  Lemma cst_add x y : cst x -> cst y -> cst (x + y).
  Proof. intros [H1 H2] [H3 H4]. split; apply ker_add; assumption. Qed.
  Lemma cst_opp x : cst x -> cst (- x).
  Proof. intros [H1 H2]. split; apply ker_opp; assumption. Qed.
  Lemma cst_sub x y : cst x -> cst y -> cst (x - y).
  Proof. intros [H1 H2] [H3 H4]. split; apply ker_sub; assumption. Qed.
  Lemma cst_mul x y : cst x -> cst y -> cst (x * y).
  Proof. intros [H1 H2] [H3 H4]. split; apply ker_mul; assumption. Qed.
  Lemma cst_two : cst two. Proof. unfold two. apply cst_add; apply cst_1. Qed.
  Lemma cst_inv u iu : iu * u = 1 -> cst u -> cst iu.
  Proof.
    intros Hu [H1 H2]. split; [exact (ker_inv dlon dlon_leib u iu Hu H1)|exact (ker_inv dmu dmu_leib u iu Hu H2)].
  Qed.
  Lemma cst_itwo : cst itwo. Proof. exact (cst_inv two itwo inv_two cst_two). Qed.
  Lemma cst_half x : cst x -> cst (x / two).
  Proof. intros H. rewrite div_def. apply cst_mul; [exact H|apply cst_itwo]. Qed.
  Lemma cst_a : cst a. Proof. split; assumption. Qed.
  Lemma cst_ia : cst ia. Proof. exact (cst_inv a ia inv_a cst_a). Qed.
  Lemma cst_sumn n (f : nat -> A) : (forall j, cst (f j)) -> cst (sumn n f).
  Proof. intros H. induction n as [|n IH]; cbn [sumn]; [apply cst_0|apply cst_add; auto]. Qed.
  #[local] Hint Resolve cst_0 cst_1 cst_add cst_opp cst_sub cst_mul cst_two cst_half cst_a : zonal.
  Lemma cst_geo_weights K R (ls : nat -> A) j k :
    cst R -> (forall i, cst (ls i)) -> cst (geo_weights K R ls j k).
  Proof.
    intros HR Hl. assert (Ha : forall i, cst (alpha K ls i)) by (intros i; unfold alpha; destruct (Nat.ltb (S i) K); auto with zonal).
    unfold geo_weights. destruct (Nat.eqb j k); [|destruct (Nat.ltb j k)]; auto with zonal.
  Qed.

  Lemma s2c2 : s2 * c2 = 1.
  Proof. unfold sec2. rewrite div_def. transitivity (finv c2 * c2); [ring|exact inv_c2]. Qed.
  Lemma zon_c2 : zon c2.
  Proof. unfold zon. rewrite (D_cos2 dlon dlon_add dlon_leib), dlon_mu. ring. Qed.
  Lemma dmu_c2 : dmu c2 = - (two * mu * c2).
  Proof. now rewrite (D_cos2 dmu dmu_add dmu_leib), dmu_mu. Qed.
  Lemma zon_s2 : zon s2. Proof. exact (ker_inv dlon dlon_leib c2 s2 s2c2 zon_c2). Qed.
  Lemma dmu_s2 : dmu s2 = two * mu * s2.
  Proof. rewrite (D_inv dmu dmu_leib c2 s2 s2c2), dmu_c2. ring [s2c2]. Qed.

  Lemma zon_ia : zon ia. Proof. exact (proj1 cst_ia). Qed.
  Lemma dmu_ia : dmu ia = 0. Proof. exact (proj2 cst_ia). Qed.
  Lemma dlon_div_a x : dlon (x / a) = dlon x / a.
  Proof. rewrite !div_def. exact (D_scal_r dlon dlon_leib ia x zon_ia). Qed.
  Lemma dmu_div_a x : dmu (x / a) = dmu x / a.
  Proof. rewrite !div_def. exact (D_scal_r dmu dmu_leib ia x dmu_ia). Qed.

  Theorem div_of_velocity (psi chi : A) :
    sdiv dlon dmu mu a (vel_u dlon dmu a psi chi) (vel_v dlon dmu a psi chi) = slap dlon dmu mu a chi.
  Proof.
    unfold slap, sdiv, vel_u, vel_v, grad_x, grad_y.
    rewrite (D_sub dlon dlon_add), dmu_add, !dlon_div_a, !dmu_div_a, d_commute. rewrite !div_def. ring.
  Qed.
  Theorem curl_of_velocity (psi chi : A) :
    scurl dlon dmu mu a (vel_u dlon dmu a psi chi) (vel_v dlon dmu a psi chi) = slap dlon dmu mu a psi.
  Proof.
    unfold slap, scurl, sdiv, vel_u, vel_v, grad_x, grad_y.
    rewrite dlon_add, (D_sub dmu dmu_add), !dlon_div_a, !dmu_div_a, d_commute. rewrite !div_def. ring.
  Qed.

  (** horizontal advection: the code's flux form  X div(v) - div(v X)  is  - v . grad X *)
  Theorem flux_form_is_advective_form (Uc Vc X : A) :
    X * sdiv dlon dmu mu a Uc Vc - sdiv dlon dmu mu a (Uc * X) (Vc * X)
    = - (s2 * (Uc * dlon X + Vc * dmu X) / a).
  Proof. unfold sdiv. rewrite dlon_leib, dmu_leib, !div_def. ring. Qed.

  (** the operators as the code applies them: div_cos_lat / curl_cos_lat act on the sec^2-scaled
      components (M sec^2, N sec^2) through d/dlon and sec(lat) d/dlat(cos^2 . ) *)
  Definition div_cos_lat_pt (X Y : A) : A := (dlon X + s2 * dmu (c2 * Y)) / a.
  Definition curl_cos_lat_pt (X Y : A) : A := (dlon Y - s2 * dmu (c2 * X)) / a.
  Lemma c2_s2_cancel (N : A) : c2 * (N * s2) = N.
  Proof. ring [s2c2]. Qed.
  Theorem div_cos_lat_is_sdiv (M N : A) :
    div_cos_lat_pt (M * s2) (N * s2) = sdiv dlon dmu mu a M N.
  Proof. unfold div_cos_lat_pt, sdiv. rewrite c2_s2_cancel, (D_scal_r dlon dlon_leib s2 _ zon_s2), !div_def. ring. Qed.
  Theorem curl_cos_lat_is_scurl (M N : A) :
    curl_cos_lat_pt (M * s2) (N * s2) = scurl dlon dmu mu a M N.
  Proof. unfold curl_cos_lat_pt, scurl. rewrite c2_s2_cancel, (D_scal_r dlon dlon_leib s2 _ zon_s2), !div_def. ring. Qed.

  Theorem laplacian_of_constant k : cst k -> slap dlon dmu mu a k = 0.
  Proof.
    intros [H1 H2]. unfold slap, sdiv, grad_x, grad_y. rewrite H1, H2, !div_def.
    replace (0 * ia) with (@f0 A o) by ring. rewrite (D_zero dlon dlon_add), (D_zero dmu dmu_add). ring.
  Qed.
  Lemma slap_add (f g : A) : slap dlon dmu mu a (f + g) = slap dlon dmu mu a f + slap dlon dmu mu a g.
  Proof.
    unfold slap, sdiv, grad_x, grad_y.
    rewrite dlon_add, dmu_add, !div_def.
    replace ((dlon f + dlon g) * ia) with (dlon f * ia + dlon g * ia) by ring.
    replace ((dmu f + dmu g) * ia) with (dmu f * ia + dmu g * ia) by ring.
    rewrite dlon_add, dmu_add. ring.
  Qed.

  (** [zd f f'] : f is zonal and cos(lat) d f/dlat = cos^2 * f'  (f' = df/dmu) *)
  Definition zd (f f' : A) : Prop := zon f /\ dmu f = c2 * f'.

  Lemma zon_cst k : cst k -> zon k. Proof. intros [H _]. exact H. Qed.
  Lemma zon_0 : zon 0. Proof. apply zon_cst, cst_0. Qed.
  Lemma zon_mu : zon mu. Proof. exact dlon_mu. Qed.
  Lemma zon_add f g : zon f -> zon g -> zon (f + g).
  Proof. exact (ker_add dlon dlon_add f g). Qed.
  Lemma zon_sub f g : zon f -> zon g -> zon (f - g).
  Proof. exact (ker_sub dlon dlon_add f g). Qed.
  Lemma zon_opp f : zon f -> zon (- f).
  Proof. exact (ker_opp dlon dlon_add f). Qed.
  Lemma zon_mul f g : zon f -> zon g -> zon (f * g).
  Proof. exact (ker_mul dlon dlon_leib f g). Qed.
  Lemma zon_two : zon two. Proof. apply zon_cst, cst_two. Qed.
  Lemma zd_zon f f' : zd f f' -> zon f.
  Proof. intros [Hz _]. exact Hz. Qed.
  Lemma zd_zon_deriv f f' : zd f f' -> zon f'.
  Proof.
    intros [Hz Hd]. unfold zon in *.
    assert (E : dlon (c2 * f') = 0) by (rewrite <- Hd, d_commute, Hz; apply (D_zero dmu dmu_add)).
    rewrite (D_scal dlon dlon_leib c2 f' zon_c2) in E.
    transitivity (s2 * (c2 * dlon f')); [ring [s2c2]|]. rewrite E. ring.
  Qed.
  (** that an expression is zonal follows its syntax: sums and products of constants, mu and the zonal fields of the context *)
  #[local] Hint Resolve zon_mu zon_add zon_sub zon_opp zon_mul zon_c2 zon_s2 zon_ia zon_two : zonal.
  #[local] Hint Resolve zon_cst | 4 : zonal.

  Lemma zd_cst k : cst k -> zd k 0.
  Proof. intros [H1 H2]. split; [exact H1|]. rewrite H2. ring. Qed.
  Lemma zd_mu : zd mu 1.
  Proof. split; [apply zon_mu|]. rewrite dmu_mu. ring. Qed.
  Lemma zd_c2 : zd c2 (- (two * mu)).
  Proof. split; [apply zon_c2|]. rewrite dmu_c2. ring. Qed.
  Lemma zd_add f g f' g' : zd f f' -> zd g g' -> zd (f + g) (f' + g').
  Proof. intros [Hf Hf'] [Hg Hg']. split; [now apply zon_add|]. rewrite dmu_add, Hf', Hg'. ring. Qed.
  Lemma zd_mul f g f' g' : zd f f' -> zd g g' -> zd (f * g) (f' * g + f * g').
  Proof. intros [Hf Hf'] [Hg Hg']. split; [now apply zon_mul|]. rewrite dmu_leib, Hf', Hg'. ring. Qed.
  Lemma zd_scal k f f' : cst k -> zd f f' -> zd (k * f) (k * f').
  Proof.
    intros [H1 H2] [Hf Hf']. split; [apply zon_mul; [exact H1|exact Hf]|].
    rewrite (D_scal dmu dmu_leib) by exact H2. rewrite Hf'. ring.
  Qed.
  Lemma zd_eq f f' g' : f' = g' -> zd f f' -> zd f g'.
  Proof. intros <-. auto. Qed.
  Lemma zd_sumn n (cf fs fs' : nat -> A) :
    (forall j, cst (cf j)) -> (forall j, zd (fs j) (fs' j)) ->
    zd (sumn n (fun j => cf j * fs j)) (sumn n (fun j => cf j * fs' j)).
  Proof.
    intros Hc H. induction n as [|n IH]; cbn [sumn]; [apply zd_cst, cst_0|].
    apply zd_add; [exact IH|]. apply zd_scal; auto.
  Qed.

  Theorem zonal_polynomial_derivative (cs : list A) :
    Forall cst cs -> zd (peval cs mu) (pdiff cs mu).
  Proof.
    induction 1 as [|c0 r Hc Hr IH]; cbn [peval pdiff]; [apply zd_cst, cst_0|].
    apply (zd_eq _ (0 + (1 * peval r mu + mu * pdiff r mu))); [ring|].
    apply zd_add; [now apply zd_cst|]. apply zd_mul; [apply zd_mu|exact IH].
  Qed.
  (** the two shapes of the solid-body families: k mu and k0 + k2 mu^2 *)
  Lemma zd_linear k : cst k -> zd (k * mu) k.
  Proof. intros Hk. apply (zd_eq _ (k * 1)); [ring|]. apply zd_scal; [exact Hk|apply zd_mu]. Qed.
  Lemma zd_mumu : zd (mu * mu) (two * mu).
  Proof. apply (zd_eq _ (1 * mu + mu * 1)); [unfold two; ring|]. apply zd_mul; apply zd_mu. Qed.
  Lemma zd_quadratic k0 k2 : cst k0 -> cst k2 -> zd (k0 + k2 * (mu * mu)) (k2 * (two * mu)).
  Proof.
    intros H0 H2. apply (zd_eq _ (0 + k2 * (two * mu))); [ring|].
    apply zd_add; [now apply zd_cst|]. apply zd_scal; [exact H2|apply zd_mumu].
  Qed.

  Lemma sdiv_zonal (X Y : A) : zon X -> Y = 0 -> sdiv dlon dmu mu a X Y = 0.
  Proof. unfold zon. intros HX ->. unfold sdiv. rewrite HX, (D_zero dmu dmu_add), div_def. ring. Qed.
  Lemma scurl_v_zero (X Y : A) : Y = 0 -> scurl dlon dmu mu a X Y = - (s2 * dmu X * ia).
  Proof. intros ->. unfold scurl. rewrite (D_zero dlon dlon_add), div_def. ring. Qed.
  Lemma sdiv_u_zero (X Y : A) : X = 0 -> sdiv dlon dmu mu a X Y = s2 * dmu Y * ia.
  Proof. intros ->. unfold sdiv. rewrite (D_zero dlon dlon_add), div_def. ring. Qed.
  Lemma slap_zd (E E' : A) : zd E E' -> slap dlon dmu mu a E = s2 * dmu (c2 * E') * ia * ia.
  Proof.
    intros [Hz Hd]. unfold zon in Hz. unfold slap, sdiv, grad_x, grad_y.
    rewrite dlon_div_a, dmu_div_a, Hz, Hd, (D_zero dlon dlon_add), !div_def. ring.
  Qed.
  (** gradient-wind balance: a zonal energy E whose mu-derivative balances the meridional component Fv of the
      momentum vector; the shallow-water and the primitive-equation divergence tendencies have this form *)
  Lemma zonal_balance (Fv E E' : A) :
    zd E E' -> Fv = (- ia) * (c2 * E') -> - (s2 * dmu Fv * ia) - slap dlon dmu mu a E = 0.
  Proof.
    intros HE ->. rewrite (slap_zd _ _ HE), (D_scal dmu dmu_leib) by (rewrite (D_opp dmu dmu_add), dmu_ia; ring). ring.
  Qed.

  (** zonal flow u = cos(lat) * w(mu): psi' = - a w, no divergent part *)
  Section ZonalFlow.
    Variables psi chi wf wf' : A.
    Hypothesis Hchi : chi = 0.
    Hypothesis Hw : zd wf wf'.
    Hypothesis Hpsi : zd psi (- (a * wf)).
    Lemma zonal_vel_u : vel_u dlon dmu a psi chi = c2 * wf.
    Proof.
      unfold vel_u, grad_x, grad_y. destruct Hpsi as [_ Hd].
      rewrite Hchi, (D_zero dlon dlon_add), Hd, !div_def.
      ring [inv_a].
    Qed.
    Lemma zonal_vel_v : vel_v dlon dmu a psi chi = 0.
    Proof.
      unfold vel_v, grad_x, grad_y. destruct Hpsi as [Hz _]. unfold zon in Hz.
      rewrite Hchi, (D_zero dmu dmu_add), Hz, !div_def. ring.
    Qed.
    (** relative vorticity  - d(u cos)/(a dmu) *)
    Definition zvort : A := (two * mu * wf - c2 * wf') * ia.
    Lemma zonal_vorticity : slap dlon dmu mu a psi = zvort.
    Proof.
      rewrite (slap_zd psi _ Hpsi). destruct Hw as [_ Hd'].
      replace (c2 * - (a * wf)) with ((- a) * (c2 * wf)) by ring.
      rewrite (D_scal dmu dmu_leib) by (rewrite (D_opp dmu dmu_add), dmu_a; ring).
      rewrite dmu_leib, dmu_c2, Hd'. unfold zvort. ring [s2c2 inv_a].
    Qed.
    Lemma zonal_divergence : slap dlon dmu mu a chi = 0.
    Proof. rewrite Hchi. apply laplacian_of_constant, cst_0. Qed.
    Lemma zon_zvort : zon zvort.
    Proof.
      pose proof (zd_zon _ _ Hw). pose proof (zd_zon_deriv _ _ Hw). unfold zvort. auto 6 with zonal.
    Qed.
    (** kinetic energy (u^2)/2 = cos^2 w^2 / 2 and its mu-derivative *)
    Lemma zonal_kin_val : kin mu (vel_u dlon dmu a psi chi) (vel_v dlon dmu a psi chi) = itwo * (c2 * (wf * wf)).
    Proof.
      unfold kin. rewrite zonal_vel_u, zonal_vel_v, div_def. ring [s2c2].
    Qed.
    Lemma zonal_kin :
      zd (kin mu (vel_u dlon dmu a psi chi) (vel_v dlon dmu a psi chi)) (- (mu * wf * wf) + c2 * wf * wf').
    Proof.
      rewrite zonal_kin_val.
      apply (zd_eq _ (itwo * ((- (two * mu)) * (wf * wf) + c2 * (wf' * wf + wf * wf')))).
      - transitivity (itwo * ((- (mu * wf * wf) + c2 * wf * wf') + (- (mu * wf * wf) + c2 * wf * wf')));
          [unfold two; ring|apply half_double].
      - apply zd_scal; [apply cst_itwo|]. apply zd_mul; [apply zd_c2|]. now apply zd_mul.
    Qed.
    (** the meridional momentum component of the jet (absolute-vorticity flux plus a pressure-gradient term X / a) and the
        mu-derivatives of kinetic energy and of a potential in gradient-wind balance with it *)
    Lemma jet_flux (Omega X : A) :
      c2 * (wf * (zvort + two * Omega * mu) + X * ia)
      = (- ia) * (c2 * ((- (mu * wf * wf) + c2 * wf * wf') + (- (mu * wf * (wf + two * a * Omega)) - X))).
    Proof.
      unfold zvort, two. ring [inv_a].
    Qed.
  End ZonalFlow.
  #[local] Hint Resolve zon_zvort : zonal.

  (** layered shallow water: geostrophically balanced zonal jets are steady *)
  Section SWZonal.
    Variable Kl : nat.
    Variable Rm : nat -> nat -> A.
    Variable ref : nat -> A.
    Variable Omega : A.
    Variable oro : A.
    Variable st : @SWState A.
    Variables wf wf' pr' : nat -> A.
    Hypothesis HOm : zon Omega.
    Hypothesis Href : forall i, zon (ref i).
    Hypothesis Hchi : forall i, w_chi st i = 0.
    Hypothesis Hw : forall i, zd (wf i) (wf' i).
    Hypothesis Hpsi : forall i, zd (w_psi st i) (- (a * wf i)).
    Hypothesis Hpot : forall i, zon (w_pot st i).
    (** the pressure sum_j R_ij Phi_j + Phi_s of layer i is zonal with mu-derivative pr' i ... *)
    Hypothesis Hpr : forall i, zd (wpress Kl Rm oro st i) (pr' i).
    (** ... and in geostrophic (gradient-wind) balance with the jet:
        d(pressure)/dmu = - mu w (w + 2 a Omega),  i.e.  (1/a) dPhi/dlat = -(u^2 tan(lat)/a + f u) *)
    Hypothesis Hbal : forall i, pr' i = - (mu * wf i * (wf i + two * a * Omega)).

    Lemma sw_wf_zon i : zon (wf i).
    Proof. exact (zd_zon _ _ (Hw i)). Qed.
    #[local] Hint Resolve sw_wf_zon : zonal.
    Lemma sw_abs_val i : wabs dlon dmu mu a Omega st i = zvort (wf i) (wf' i) + two * Omega * mu.
    Proof. unfold wabs, wzeta. now rewrite (zonal_vorticity _ _ _ (Hw i) (Hpsi i)). Qed.
    Lemma sw_U i : wU dlon dmu a st i = c2 * wf i.
    Proof. unfold wU. apply (zonal_vel_u _ _ _ (Hchi i) (Hpsi i)). Qed.
    Lemma sw_V i : wV dlon dmu a st i = 0.
    Proof. unfold wV. apply (zonal_vel_v _ _ _ (Hchi i) (Hpsi i)). Qed.

    Theorem sw_zonal_steady i :
      sw_vort_tend dlon dmu mu a Omega st i = 0 /\
      sw_div_tend dlon dmu mu a Kl Rm Omega oro st i = 0 /\
      sw_pot_tend dlon dmu mu a ref st i = 0.
    Proof.
      split; [|split].
      - unfold sw_vort_tend, wflux_u, wflux_v. rewrite sw_U, sw_V, sw_abs_val.
        rewrite sdiv_zonal; [ring| |ring]. auto 6 with zonal.
      - unfold sw_div_tend. rewrite scurl_v_zero by (unfold wflux_v; rewrite sw_V; ring).
        apply (zonal_balance _ _ _ (zd_add _ _ _ _ (Hpr i) (zonal_kin _ _ _ _ (Hchi i) (Hw i) (Hpsi i)))).
        unfold wflux_u. rewrite sw_U, sw_abs_val, Hbal.
        transitivity (c2 * (wf i * (zvort (wf i) (wf' i) + two * Omega * mu) + 0 * ia)); [ring|]. rewrite jet_flux. ring.
      - unfold sw_pot_tend. rewrite sw_U, sw_V.
        rewrite sdiv_zonal; [ring| |ring]. auto with zonal.
    Qed.
  End SWZonal.

  (** primitive equations: zonal flow in gradient-wind balance is steady *)
  Section PEZonal.
    Variable c : @PEcfg A.
    Variables Omega grav Rv Cpv : A.
    Variable oro : A.
    Variable st : @PEState A.
    Variables wf wf' ph' : nat -> A.
    Variable lam' : A.
    Hypothesis HOm : zon Omega.
    Hypothesis HR : zon (cR c).
    Hypothesis Heps : zon (Rv / cR c).
    Hypothesis Hchi : forall k, st_chi st k = 0.
    Hypothesis Hw : forall k, zd (wf k) (wf' k).
    Hypothesis Hpsi : forall k, zd (st_psi st k) (- (a * wf k)).
    Hypothesis HT : forall k, zon (st_T st k).
    Hypothesis Hq : forall k, zon (st_q st k).
    Hypothesis Hlnps : zd (st_lnps st) lam'.
    (** the hydrostatic geopotential of level k is zonal with mu-derivative ph' k ... *)
    Hypothesis Hphi : forall k, zd (phi c grav Rv oro st k) (ph' k).
    (** ... and the flow is in gradient-wind balance on every level:
        dPhi/dmu + R Tv d(ln ps)/dmu = - mu w (w + 2 a Omega) *)
    Hypothesis Hbal : forall k,
        ph' k + cR c * Tv c Rv st k * lam' = - (mu * wf k * (wf k + two * a * Omega)).

    Lemma pe_gx0 : gx dlon a st = 0.
    Proof. unfold gx, grad_x. destruct Hlnps as [Hz _]. unfold zon in Hz. rewrite Hz, div_def. ring. Qed.
    Lemma pe_gy : gy dmu a st = c2 * lam' * ia.
    Proof. unfold gy, grad_y. destruct Hlnps as [_ Hd]. now rewrite Hd, div_def. Qed.
    Lemma pe_U k : U dlon dmu a st k = c2 * wf k.
    Proof. unfold U. apply (zonal_vel_u _ _ _ (Hchi k) (Hpsi k)). Qed.
    Lemma pe_V k : V dlon dmu a st k = 0.
    Proof. unfold V. apply (zonal_vel_v _ _ _ (Hchi k) (Hpsi k)). Qed.
    Lemma pe_gfull0 k : gfull dlon dmu mu a st k = 0.
    Proof. unfold gfull, delta, ugrad. rewrite (zonal_divergence _ (Hchi k)), pe_gx0, pe_V. ring. Qed.
    Lemma pe_sdot0 r : sdot dlon dmu mu a c st r = 0.
    Proof.
      unfold sdot, spec_sigma_dot, spec_cum.
      rewrite !sumn_zero_ring by (intros; rewrite pe_gfull0; ring). ring.
    Qed.
    Lemma spec_vadv_zero_w (w x : nat -> A) n : (forall k, w k = 0) -> spec_vadv c w x n = 0.
    Proof.
      intros H. unfold spec_vadv. rewrite !H, div_def.
      destruct (Nat.ltb (S n) (cK c)), (Nat.eqb n 0); ring.
    Qed.
    Lemma pe_vadv0 (x : nat -> A) n : spec_vadv c (sdot dlon dmu mu a c st) x n = 0.
    Proof. apply spec_vadv_zero_w, pe_sdot0. Qed.

    Theorem pe_zonal_tracer_steady (X : nat -> A) k :
      zon (X k) -> spec_tracer_tend dlon dmu mu a c st X k = 0.
    Proof.
      intros HX. unfold spec_tracer_tend.
      rewrite pe_vadv0, HX, pe_V, !div_def. ring.
    Qed.

    Lemma pe_mom_u0 k : mom_u dlon dmu mu a c Omega Rv st k = 0.
    Proof. unfold mom_u. rewrite pe_vadv0, pe_V, pe_gx0. ring. Qed.
    Lemma pe_Tv_zon k : zon (Tv c Rv st k).
    Proof. unfold Tv. auto 6 with zonal. Qed.
    Lemma pe_mom_v k :
      mom_v dlon dmu mu a c Omega Rv st k
      = c2 * (wf k * (zvort (wf k) (wf' k) + two * Omega * mu) + cR c * Tv c Rv st k * lam' * ia).
    Proof.
      unfold mom_v. rewrite pe_vadv0.
      unfold zeta, fcor. rewrite pe_U, pe_gy, (zonal_vorticity _ _ _ (Hw k) (Hpsi k)). ring.
    Qed.

    Theorem pe_zonal_steady k :
      spec_vort_tend dlon dmu mu a c Omega Rv st k = 0 /\
      spec_div_tend dlon dmu mu a c Omega grav Rv oro st k = 0 /\
      spec_temp_tend dlon dmu mu a c Rv Cpv st k = 0 /\
      spec_lnps_tend dlon dmu mu a c st = 0 /\
      spec_tracer_tend dlon dmu mu a c st (st_q st) k = 0.
    Proof.
      split; [|split; [|split; [|split]]].
      - unfold spec_vort_tend, scurl. rewrite pe_mom_u0, (D_zero dmu dmu_add), pe_mom_v.
        assert (Z : zon (c2 * (wf k * (zvort (wf k) (wf' k) + two * Omega * mu) + cR c * Tv c Rv st k * lam' * ia)))
          by (pose proof (zd_zon _ _ (Hw k)); pose proof (zd_zon_deriv _ _ Hlnps); pose proof (pe_Tv_zon k); auto 7 with zonal).
        rewrite Z, !div_def. ring.
      - unfold spec_div_tend. rewrite (sdiv_u_zero _ _ (pe_mom_u0 k)), pe_mom_v.
        apply (zonal_balance _ _ _ (zd_add _ _ _ _ (zonal_kin _ _ _ _ (Hchi k) (Hw k) (Hpsi k)) (Hphi k))).
        rewrite (jet_flux (wf k) (wf' k) Omega (cR c * Tv c Rv st k * lam')), <- (Hbal k). ring.
      - unfold spec_temp_tend.
        rewrite pe_vadv0, (HT k), pe_V.
        unfold spec_omega_p, spec_cum. rewrite !sumn_zero_ring by (intros; rewrite pe_gfull0; ring).
        unfold ugrad. rewrite pe_gx0, pe_V, !div_def. destruct (Nat.eqb k 0); ring.
      - unfold spec_lnps_tend. rewrite sumn_zero_ring; [ring|]. intros j _. rewrite pe_gfull0. ring.
      - apply pe_zonal_tracer_steady, Hq.
    Qed.
  End PEZonal.

  (** arbitrary polynomial jets u_i = cos(lat) * w_i(mu), polynomial potentials and zonal orography,
      any number of layers, any (constant) density matrix, any rotation rate and radius *)
  Theorem sw_polynomial_jet_steady (Kl : nat) (Rm : nat -> nat -> A) (ref : nat -> A) (Omega : A)
          (ws Ps Phs : nat -> list A) (Os : list A) :
    zon Omega -> (forall i, zon (ref i)) -> (forall i j, cst (Rm i j)) ->
    (forall i, Forall cst (ws i)) -> (forall i, Forall cst (Ps i)) -> (forall i, Forall cst (Phs i)) -> Forall cst Os ->
    (forall i x, pdiff (Ps i) x = - (a * peval (ws i) x)) ->
    (forall i x, sumn Kl (fun j => Rm i j * pdiff (Phs j) x) + pdiff Os x
                 = - (x * peval (ws i) x * (peval (ws i) x + two * a * Omega))) ->
    let st := mkSWS (fun i => peval (Ps i) mu) (fun _ => 0) (fun i => peval (Phs i) mu) in
    let oro := peval Os mu in
    forall i,
      sw_vort_tend dlon dmu mu a Omega st i = 0 /\
      sw_div_tend dlon dmu mu a Kl Rm Omega oro st i = 0 /\
      sw_pot_tend dlon dmu mu a ref st i = 0.
  Proof.
    intros HOm Href HRm Hws HPs HPhs HOs HP HB st oro.
    (* the jets, their mu-derivatives, and the mu-derivative of the layer pressures *)
    apply (sw_zonal_steady Kl Rm ref Omega oro st (fun i => peval (ws i) mu) (fun i => pdiff (ws i) mu)
             (fun i => sumn Kl (fun j => Rm i j * pdiff (Phs j) mu) + pdiff Os mu) HOm Href).
    - reflexivity.
    - intros i. apply zonal_polynomial_derivative, Hws.
    - intros i. apply (zd_eq _ (pdiff (Ps i) mu)); [apply HP|]. apply zonal_polynomial_derivative, HPs.
    - intros i. apply (zonal_polynomial_derivative (Phs i)), HPhs.
    - intros i. apply zd_add; [|apply zonal_polynomial_derivative, HOs].
      apply zd_sumn; [apply HRm|]. intros j. apply zonal_polynomial_derivative, HPhs.
    - intros i. apply HB.
  Qed.

  (** one layer, solid-body rotation u = U0 cos(lat): the balanced height is
      Phi = c0 - (U0^2/2 + a Omega U0) sin^2(lat) *)
  Theorem sw_solid_body_one_layer (ref : nat -> A) (Omega U0 c0 : A) :
    cst Omega -> cst U0 -> cst c0 -> (forall i, zon (ref i)) ->
    let st := mkSWS (fun _ => - (a * U0) * mu) (fun _ => 0)
                    (fun _ => c0 - (U0 * U0 / two + a * Omega * U0) * (mu * mu)) in
    sw_vort_tend dlon dmu mu a Omega st 0%nat = 0 /\
    sw_div_tend dlon dmu mu a 1 (fun _ _ => 1) Omega 0 st 0%nat = 0 /\
    sw_pot_tend dlon dmu mu a ref st 0%nat = 0.
  Proof.
    intros HOm HU Hc Href st.
    set (Kc := U0 * U0 / two + a * Omega * U0).
    assert (HK : cst Kc) by (unfold Kc; auto 6 with zonal).
    (* the jet w = U0, w' = 0; the pressure c0 - Kc mu^2 has mu-derivative - mu U0 (U0 + 2 a Omega) *)
    apply (sw_zonal_steady 1 (fun _ _ => 1) ref Omega 0 st (fun _ => U0) (fun _ => 0)
             (fun _ => - (mu * U0 * (U0 + two * a * Omega))) (zon_cst _ HOm) Href).
    - reflexivity.
    - intros i. exact (zd_cst U0 HU).
    - intros i. apply zd_linear; auto with zonal.
    - intros i. cbn [w_pot st]. fold Kc. auto 6 with zonal.
    - intros i. apply (zd_eq _ (- Kc * (two * mu))).
      + unfold Kc. rewrite div_def. ring [inv_two].
      + replace (wpress 1 (fun _ _ => 1) 0 st i) with (c0 + - Kc * (mu * mu))
          by (unfold wpress; cbn [sumn w_pot st]; fold Kc; ring).
        apply zd_quadratic; auto with zonal.
    - reflexivity.
  Qed.

  (** shallow_water_states.one_layer: vorticity = -E(w), Phi + u^2/2 = -lap^{-1} E(w (vorticity + sin lat)),
      with E(X) = sec(lat) d/dlat(cos^2 X) applied without the 1/radius factors and f = sin(lat):
      balanced exactly when radius = 1 and 2 Omega = 1 *)
  Definition Eop (X : A) : A := s2 * dmu (c2 * X).
  Theorem one_layer_formulas_balanced (Omega k0 psi wf wf' pe : A) :
    a = 1 -> two * Omega = 1 -> cst k0 ->
    zd wf wf' -> zd psi (- (a * wf)) ->
    let vort := - Eop wf in
    slap dlon dmu mu a pe = - Eop (wf * (vort + mu)) ->
    let st := mkSWS (fun _ => psi) (fun _ => 0) (fun _ => pe - c2 * wf * wf / two + k0) in
    wzeta dlon dmu mu a st 0%nat = vort /\
    sw_div_tend dlon dmu mu a 1 (fun _ _ => 1) Omega 0 st 0%nat = 0.
  Proof.
    intros Ha HO Hk Hw Hpsi vort Hpe st.
    assert (Hia : ia = 1) by (transitivity (ia * a); [rewrite Ha; ring|exact inv_a]).
    assert (Hv : vort = zvort wf wf').
    { unfold vort, Eop, zvort. destruct Hw as [_ Hd]. rewrite dmu_leib, dmu_c2, Hd, Hia. ring [s2c2]. }
    assert (Hz : wzeta dlon dmu mu a st 0%nat = vort).
    { unfold wzeta. cbn [w_psi st]. now rewrite (zonal_vorticity psi wf wf' Hw Hpsi), Hv. }
    split; [exact Hz|].
    unfold sw_div_tend.
    rewrite scurl_v_zero by (unfold wflux_v, wV; cbn [w_psi w_chi st]; rewrite (zonal_vel_v psi _ wf eq_refl Hpsi); ring).
    replace (wpress 1 (fun _ _ => 1) 0 st 0 + kin mu (wU dlon dmu a st 0) (wV dlon dmu a st 0)) with (pe + k0).
    2:{ unfold wpress, wU, wV. cbn [sumn w_pot w_psi w_chi st].
        rewrite (zonal_kin_val psi _ wf eq_refl Hpsi), div_def. ring. }
    rewrite slap_add, (laplacian_of_constant k0 Hk), Hpe.
    replace (wflux_u dlon dmu mu a Omega st 0) with (c2 * (wf * (vort + mu))).
    2:{ unfold wflux_u, wabs. rewrite Hz. unfold wU. cbn [w_psi w_chi st].
        rewrite (zonal_vel_u psi _ wf eq_refl Hpsi). ring [HO]. }
    unfold Eop. rewrite Hia. ring.
  Qed.

  (** shallow_water_states.multi_layer solves sum_j R_ij Phi_j = s_i: the divergence tendency of layer i
      depends on the potentials only through that sum *)
  Theorem multi_layer_formulas_balanced (Kl : nat) (Rm : nat -> nat -> A) (Omega oro : A)
          (psi chi pot s : nat -> A) i :
    sumn Kl (fun j => Rm i j * pot j) = s i ->
    sw_div_tend dlon dmu mu a Kl Rm Omega oro (mkSWS psi chi pot) i
    = sw_div_tend dlon dmu mu a 1 (fun _ _ => 1) Omega oro (mkSWS (fun _ => psi i) (fun _ => chi i) (fun _ => s i)) 0%nat.
  Proof.
    intros H. unfold sw_div_tend, wpress, wflux_u, wflux_v, wabs, wzeta, wU, wV. cbn [sumn w_pot w_psi w_chi].
    rewrite H. replace (0 + 1 * s i) with (s i) by ring. reflexivity.
  Qed.

  (** primitive equations: solid-body rotation u_k = U_k cos(lat) on every level,
      T_k = Tb_k + tau_k mu^2, uniform humidity q0, ln ps = cst + beta mu^2, orography gam mu^2 *)
  Theorem solid_body_steady (c : @PEcfg A) (Omega grav Rv Cpv q0 cst0 beta gam : A) (Uk Tb tau : nat -> A) :
    cst Omega -> cst grav -> cst q0 -> cst cst0 -> cst beta -> cst gam ->
    cst (cR c) -> cst (Rv / cR c) -> (forall i, cst (cls c i)) ->
    (forall k, cst (Uk k)) -> (forall k, cst (Tb k)) -> (forall k, cst (tau k)) ->
    let mf := 1 + (Rv / cR c - 1) * q0 in
    (forall k, Uk k * (Uk k + two * a * Omega)
               + two * (grav * gam + mf * sumn (cK c) (fun j => geo_weights (cK c) (cR c) (cls c) k j * tau j))
               + two * (cR c * mf * Tb k * beta) = 0) ->
    (forall k, beta * tau k = 0) ->
    let st := mkPES (fun k => - (a * Uk k) * mu) (fun _ => 0)
                    (fun k => Tb k + tau k * (mu * mu)) (cst0 + beta * (mu * mu)) (fun _ => q0) in
    let oro := gam * (mu * mu) in
    forall k,
      spec_vort_tend dlon dmu mu a c Omega Rv st k = 0 /\
      spec_div_tend dlon dmu mu a c Omega grav Rv oro st k = 0 /\
      spec_temp_tend dlon dmu mu a c Rv Cpv st k = 0 /\
      spec_lnps_tend dlon dmu mu a c st = 0 /\
      spec_tracer_tend dlon dmu mu a c st (st_q st) k = 0.
  Proof.
    intros HOm Hg Hq0 Hc0 Hbeta Hgam HRc Heps Hls HU HTb Htau mf C1 C2 st oro.
    set (W := geo_weights (cK c) (cR c) (cls c)).
    assert (Hmf : cst mf) by (unfold mf; auto 6 with zonal).
    assert (HW : forall i j, cst (W i j)) by (intros; apply cst_geo_weights; assumption).
    assert (HTz : forall j, zd (st_T st j) (tau j * (two * mu))) by (intros j; apply zd_quadratic; auto).
    (* w_k = U_k, w_k' = 0;  dPhi_k/dmu = 2 mu (g gam + mf sum_j G_kj tau_j);  d(ln ps)/dmu = 2 beta mu *)
    apply (pe_zonal_steady c Omega grav Rv Cpv oro st Uk (fun _ => 0)
             (fun k => two * mu * (grav * gam + mf * sumn (cK c) (fun j => W k j * tau j))) (beta * (two * mu))
             (zon_cst _ HOm) (zon_cst _ HRc) (zon_cst _ Heps)).
    - reflexivity.
    - intros j. exact (zd_cst (Uk j) (HU j)).
    - intros j. apply zd_linear; auto with zonal.
    - intros j. apply (HTz j).
    - intros j. exact (zon_cst q0 Hq0).
    - apply zd_quadratic; assumption.
    - intros j.
      change (phi c grav Rv oro st j)
        with (grav * (gam * (mu * mu)) + sumn (cK c) (fun i => W j i * ((Tb i + tau i * (mu * mu)) * mf))).
      eapply zd_eq.
      2:{ apply zd_add; [apply zd_scal; [exact Hg|]; apply zd_scal; [exact Hgam|apply zd_mumu]|].
          apply zd_sumn; [apply HW|]. intros i. apply zd_mul; [apply (HTz i)|now apply zd_cst]. }
      cbv beta. rewrite (sumn_ext (cK c) _ (fun i => W j i * (tau i * (two * mu * mf)))) by (intros; ring).
      rewrite sumn_pull. ring.
    - intros j. cbv beta. unfold Tv. cbn [st_T st_q st]. fold mf.
      set (S := sumn (cK c) (fun i => W j i * tau i)).
      transitivity (mu * (Uk j * (Uk j + two * a * Omega) + two * (grav * gam + mf * S) + two * (cR c * mf * Tb j * beta))
                    + two * cR c * mf * (mu * mu * mu) * (beta * tau j)
                    - mu * Uk j * (Uk j + two * a * Omega)); [ring|].
      unfold S, W. rewrite C1, C2. ring.
  Qed.
End Ring.

(** A concrete commutative differential ring: formal power series in mu over Qc
    (coefficient sequences, Cauchy product), d/dlon = 0, cos(lat) d/dlat = (1 - mu^2) d/dmu,
    sec^2 = 1 + mu^2 + mu^4 + ...  Every hypothesis of [Section Ring] holds in it (non-vacuity). *)
From Dino Require Import Base.Inst.
From Coq Require Import Qcanon FunctionalExtensionality.
Local Open Scope F_scope.

Section PowerSeries.
  Add Field FFqc : (@field_c Qc QcOps QcField).

  Definition ps := nat -> Qc.
  Definition ps_c (k : Qc) : ps := fun n => if Nat.eqb n 0 then k else 0.
  Definition ps_add (f g : ps) : ps := fun n => f n + g n.
  Definition ps_opp (f : ps) : ps := fun n => - f n.
  Definition ps_sub (f g : ps) : ps := fun n => f n - g n.
  Definition ps_mul (f g : ps) : ps := fun n => sumn (S n) (fun i => f i * g (n - i)%nat).
  Definition ps_X : ps := fun n => if Nat.eqb n 1 then 1 else 0.
  Definition ps_s2 : ps := fun n => if Nat.even n then 1 else 0.
  Fixpoint nq (n : nat) : Qc := match n with O => 0%F | S k => (nq k + 1)%F end.
  (** [ps_d] is the formal d/dmu; [ps_dmu] below is (1 - mu^2) d/dmu, the cos(lat) d/dlat *)
  Definition ps_d (f : ps) : ps := fun n => nq (S n) * f (S n).
  Definition ps_c2 : ps := ps_sub (ps_c 1%F) (ps_mul ps_X ps_X).
  Definition ps_dmu (f : ps) : ps := ps_mul ps_c2 (ps_d f).
  Definition ps_dlon (f : ps) : ps := ps_c 0%F.
  (** inverse: of 1 - mu^2 it is sec^2, otherwise the constant 1/f(0) (an inverse for constant series) *)
  Definition ps_inv (f : ps) : ps := if feqb (f 2%nat) (- (1))%F then ps_s2 else ps_c (1 / f 0%nat)%F.

  Lemma ps_ext (f g : ps) : (forall n, f n = g n) -> f = g.
  Proof. intros H. apply functional_extensionality. exact H. Qed.

  Lemma ps_c_delta i k : ps_c k i = Sums.delta 0%nat i * k.
  Proof. destruct i as [|i]; [change (k = 1 * k)|change ((0 : Qc) = 0 * k)]; ring. Qed.

  Lemma ps_c_mul_l x f n : ps_mul (ps_c x) f n = x * f n.
  Proof.
    unfold ps_mul.
    rewrite (sumn_ext (S n) _ (fun i => Sums.delta 0%nat i * (x * f (n - i)%nat))) by (intros; cbv beta; rewrite ps_c_delta; ring).
    rewrite sumn_delta_l by lia. now rewrite Nat.sub_0_r.
  Qed.

  Lemma ps_mul_assoc f g h n : ps_mul f (ps_mul g h) n = ps_mul (ps_mul f g) h n.
  Proof.
    unfold ps_mul. set (t := fun i j : nat => f i * g j * h (n - i - j)%nat).
    transitivity (sumn (S n) (fun i => sumn (S n - i) (t i))).
    - apply sumn_ext. intros i Hi. replace (S n - i)%nat with (S (n - i)) by lia.
      rewrite <- sumn_scal_l. apply sumn_ext. intros j _. unfold t. ring.
    - rewrite sumn_triangle. apply sumn_ext. intros k Hk. rewrite <- sumn_scal_r. apply sumn_ext. intros i Hi.
      unfold t. replace (n - i - (k - i))%nat with (n - k)%nat by lia. ring.
  Qed.

  #[export] Instance psOps : Ops ps := {|
    f0 := ps_c 0%F; f1 := ps_c 1%F; fadd := ps_add; fmul := ps_mul; fsub := ps_sub; fopp := ps_opp;
    fdiv x y := ps_mul x (ps_inv y); finv := ps_inv; fofZ z := ps_c (fofZ z);
    fleb _ _ := true; feqb _ _ := true |}.

  Lemma ps_ring_raw : ring_theory (ps_c 0%F) (ps_c 1%F) ps_add ps_mul ps_sub ps_opp (@eq ps).
  Proof.
    constructor; intros; apply ps_ext; intros n.
    - unfold ps_add, ps_c. destruct (Nat.eqb n 0); ring.
    - unfold ps_add. ring.
    - unfold ps_add. ring.
    - rewrite ps_c_mul_l. ring.
    - unfold ps_mul. rewrite sumn_rev. apply sumn_ext. intros i Hi.
      replace (S n - 1 - i)%nat with (n - i)%nat by lia. replace (n - (n - i))%nat with i by lia. ring.
    - apply ps_mul_assoc.
    - unfold ps_mul, ps_add. rewrite <- sumn_add. apply sumn_ext. intros; ring.
    - unfold ps_sub, ps_add, ps_opp. ring.
    - unfold ps_add, ps_opp, ps_c. destruct (Nat.eqb n 0); ring.
  Qed.
  Lemma ps_ring : ring_theory (@f0 ps psOps) f1 fadd fmul fsub fopp (@eq ps).
  Proof. exact ps_ring_raw. Qed.
  (* [ring] recognises the operations syntactically: declared from [ps_ring_raw] it serves goals written with [ps_add],
     [ps_mul], ..., into which the proofs below [change] theirs; goals written with the [Ops] notations need a ring declared
     from [ps_ring] *)
  Add Ring psR : ps_ring_raw.

  Notation q0 := (@f0 Qc QcOps).
  Notation q1 := (@f1 Qc QcOps).

  Lemma ps_c_add x y : ps_c x + ps_c y = ps_c (x + y)%F.
  Proof. apply ps_ext. intros n. change ((ps_c x + ps_c y) n) with (ps_c x n + ps_c y n). rewrite !ps_c_delta. ring. Qed.
  Lemma ps_c_mul x y : ps_c x * ps_c y = ps_c (x * y)%F.
  Proof. apply ps_ext. intros n. change ((ps_c x * ps_c y) n) with (ps_mul (ps_c x) (ps_c y) n). rewrite ps_c_mul_l, !ps_c_delta. ring. Qed.
  Lemma ps_c_opp x : ps_opp (ps_c x) = ps_c (- x).
  Proof. apply ps_ext. intros n. unfold ps_opp. rewrite !ps_c_delta. change (- x)%Qc with (- x)%F. ring. Qed.
  Lemma ps_d_c k : ps_d (ps_c k) = ps_c q0.
  Proof. apply ps_ext. intros n. unfold ps_d. rewrite !ps_c_delta. change (Sums.delta 0%nat (S n)) with q0. ring. Qed.
  Lemma ps_d_add f g : ps_d (ps_add f g) = ps_add (ps_d f) (ps_d g).
  Proof.
    apply ps_ext. intros n.
    change (nq (S n) * (f (S n) + g (S n)) = nq (S n) * f (S n) + nq (S n) * g (S n)). ring.
  Qed.
  Lemma nq_add i j : nq (i + j) = nq i + nq j.
  Proof.
    induction i as [|i IH]; [change (nq j = q0 + nq j); ring|].
    change (nq (i + j) + q1 = (nq i + q1) + nq j). rewrite IH. ring.
  Qed.
  Lemma ps_d_leib f g : ps_d (ps_mul f g) = ps_add (ps_mul (ps_d f) g) (ps_mul f (ps_d g)).
  Proof.
    apply ps_ext. intros n. unfold ps_d, ps_mul, ps_add.
    rewrite <- sumn_scal_l.
    rewrite (sumn_ext (S (S n)) _ (fun i => nq i * (f i * g (S n - i)%nat) + nq (S n - i) * (f i * g (S n - i)%nat))).
    2:{ intros i Hi. cbv beta.
        assert (E : nq (S n) = nq i + nq (S n - i)) by (rewrite <- nq_add; f_equal; lia).
        rewrite E. ring. }
    rewrite sumn_add. f_equal.
    - rewrite sumn_S_first. change (nq 0%nat) with q0.
      rewrite (sumn_ext (S n) _ (fun i => nq (S i) * f (S i) * g (n - i)%nat))
        by (intros i _; cbv beta; change (S n - S i)%nat with (n - i)%nat; ring).
      ring.
    - change (sumn (S (S n)) (fun i => nq (S n - i) * (f i * g (S n - i)%nat)))
        with (sumn (S n) (fun i => nq (S n - i) * (f i * g (S n - i)%nat))
              + nq (S n - S n) * (f (S n) * g (S n - S n)%nat)).
      replace (S n - S n)%nat with 0%nat by lia. change (nq 0%nat) with q0.
      rewrite (sumn_ext (S n) _ (fun i => f i * (nq (S (n - i)) * g (S (n - i)))))
        by (intros i Hi; cbv beta; replace (S n - i)%nat with (S (n - i)) by lia; ring).
      ring.
  Qed.

  Lemma ps_X_mul f n : ps_mul ps_X f n = match n with O => q0 | S m => f m end.
  Proof.
    unfold ps_mul. destruct n as [|m].
    - change (q0 + q0 * f 0%nat = q0). ring.
    - rewrite (sumn_ext (S (S m)) _ (fun i => Sums.delta 1%nat i * f (S m - i)%nat)) by (intros [|[|i]] _; reflexivity).
      rewrite sumn_delta_l by lia. f_equal. lia.
  Qed.
  Lemma ps_s2c2 : ps_mul ps_s2 ps_c2 = ps_c q1.
  Proof.
    transitivity (ps_sub ps_s2 (ps_mul ps_X (ps_mul ps_X ps_s2))); [unfold ps_c2; ring|].
    apply ps_ext. intros n. unfold ps_sub. rewrite ps_X_mul. destruct n as [|[|m]].
    - change (q1 - q0 = q1). ring.
    - rewrite ps_X_mul. change (q0 - q0 = q0). ring.
    - rewrite ps_X_mul. change (ps_s2 m - ps_s2 m = q0). ring.
  Qed.

  Lemma ps_inv_c k : finv (ps_c k) = ps_c (q1 / k).
  Proof. reflexivity. Qed.
  Lemma ps_inv_c2 : ps_inv ps_c2 = ps_s2.
  Proof. reflexivity. Qed.

  (** the hypotheses of [Section Ring] at mu = X, radius a = 2 *)
  Definition ps_a : ps := ps_c (q1 + q1).
  Lemma qc_half : (q1 / (q1 + q1)) * (q1 + q1) = q1.
  Proof. apply Qc_is_canon. vm_compute. reflexivity. Qed.
  Lemma psH_div_def : forall x y : ps, x / y = x * finv y.
  Proof. reflexivity. Qed.
  Lemma psH_inv_a : finv ps_a * ps_a = 1.
  Proof. unfold ps_a. rewrite ps_inv_c, ps_c_mul. exact (f_equal ps_c qc_half). Qed.
  Lemma psH_inv_c2 : finv (cos2 ps_X) * cos2 ps_X = 1.
  Proof. change (ps_mul (ps_inv ps_c2) ps_c2 = ps_c q1). rewrite ps_inv_c2. exact ps_s2c2. Qed.
  Lemma psH_inv_two : finv (@two ps psOps) * two = 1.
  Proof. change (finv (ps_c q1 + ps_c q1) * (ps_c q1 + ps_c q1) = 1). rewrite ps_c_add. exact psH_inv_a. Qed.
  Lemma psH_dlon_add : forall x y : ps, ps_dlon (x + y) = ps_dlon x + ps_dlon y.
  Proof. intros. change (ps_c q0 = ps_add (ps_c q0) (ps_c q0)). ring. Qed.
  Lemma psH_dlon_leib : forall x y : ps, ps_dlon (x * y) = ps_dlon x * y + x * ps_dlon y.
  Proof. intros. change (ps_c q0 = ps_add (ps_mul (ps_c q0) y) (ps_mul x (ps_c q0))). ring. Qed.
  Lemma psH_dmu_add : forall x y : ps, ps_dmu (x + y) = ps_dmu x + ps_dmu y.
  Proof.
    intros. change (ps_mul ps_c2 (ps_d (ps_add x y)) = ps_add (ps_mul ps_c2 (ps_d x)) (ps_mul ps_c2 (ps_d y))).
    rewrite ps_d_add. ring.
  Qed.
  Lemma psH_dmu_leib : forall x y : ps, ps_dmu (x * y) = ps_dmu x * y + x * ps_dmu y.
  Proof.
    intros. change (ps_mul ps_c2 (ps_d (ps_mul x y))
                    = ps_add (ps_mul (ps_mul ps_c2 (ps_d x)) y) (ps_mul x (ps_mul ps_c2 (ps_d y)))).
    rewrite ps_d_leib. ring.
  Qed.
  Lemma ps_dmu_c k : ps_dmu (ps_c k) = ps_c q0.
  Proof. unfold ps_dmu. rewrite ps_d_c. ring. Qed.
  Lemma psH_commute : forall x : ps, ps_dlon (ps_dmu x) = ps_dmu (ps_dlon x).
  Proof. intros. unfold ps_dlon. now rewrite ps_dmu_c. Qed.
  Lemma psH_dlon_mu : ps_dlon ps_X = 0. Proof. reflexivity. Qed.
  Lemma ps_d_X : ps_d ps_X = ps_c q1.
  Proof.
    apply ps_ext. intros n. destruct n as [|m].
    - change ((q0 + q1) * q1 = q1). ring.
    - change (nq (S (S m)) * q0 = q0). ring.
  Qed.
  Lemma psH_dmu_mu : ps_dmu ps_X = cos2 ps_X.
  Proof. unfold ps_dmu. rewrite ps_d_X. change (ps_mul ps_c2 (ps_c q1) = ps_c2). ring. Qed.
  Lemma psH_dlon_a : ps_dlon ps_a = 0. Proof. reflexivity. Qed.
  Lemma psH_dmu_a : ps_dmu ps_a = 0. Proof. apply ps_dmu_c. Qed.
  (** the derivation is not trivial: cos(lat) d(mu)/dlat = 1 - mu^2 <> 0 *)
  Lemma ps_dmu_nontrivial : ps_dmu ps_X <> 0.
  Proof.
    rewrite psH_dmu_mu. intro H. assert (E : cos2 ps_X 0%nat = (@f0 ps psOps) 0%nat) by (now rewrite H).
    vm_compute in E. discriminate E.
  Qed.
  Lemma ps_cst_c k : cst ps_dlon ps_dmu (ps_c k).
  Proof. split; [reflexivity|apply ps_dmu_c]. Qed.
  Lemma ps_div_c x y : ps_c x / ps_c y = ps_c (x * (q1 / y)).
  Proof. rewrite psH_div_def, ps_inv_c. apply ps_c_mul. Qed.
  Lemma ps_mul_0_r x : ps_mul x (ps_c q0) = ps_c q0.
  Proof. ring. Qed.
End PowerSeries.
