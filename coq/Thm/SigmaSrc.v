(** The hand-written sigma model (Model/Sigma.v) equals the transcription of
    dinosaur/sigma_coordinates.py regenerated on every run (Gen/SigmaSrc.v,
    tools/translate/gen_sigma.py) in the array DSL of Model/ArrDSL.v.  A changed
    slice bound / coefficient / padding / branch in the source changes the
    right-hand sides and these proofs fail.

    Every proof follows the source expression: each combinator of the DSL maps arrays that
    tabulate given functions to an array that tabulates the combined function. *)
From Dino Require Import Base.Ops Base.Sums Base.Ord Model.Sigma Thm.Sigma Model.ArrDSL Gen.SigmaSrc.
Local Open Scope F_scope.

(** [a] has [n] entries, the first [n] values of [g] *)
Definition tabulates {T : Type} (a : nat * (nat -> T)) (n : nat) (g : nat -> T) : Prop :=
  fst a = n /\ forall k, (k < n)%nat -> snd a k = g k.

Lemma tab_pair {T} n (g : nat -> T) : tabulates (n, g) n g.
Proof. split; reflexivity. Qed.

Lemma tab_ext {T} {a : nat * (nat -> T)} {n g} m h :
  tabulates a n g -> n = m -> (forall k, (k < m)%nat -> g k = h k) -> tabulates a m h.
Proof. intros [L E] <- H. split; [exact L|]. intros k Hk. now rewrite E, H. Qed.

Lemma norm_bound_le n d bd : (d <= n)%nat -> (norm_bound n d bd <= n)%nat.
Proof. destruct bd; cbn; lia. Qed.

Section DSLLemmas.
  Context {F : Type} {o : Ops F} {Fc : FieldC o}.
  Add Field FFdsl : (field_c : FieldTh o).
  Local Notation arr := (arr F).

  Lemma a_slice_len lo hi (a : arr) :
    fst (a_slice lo hi a) = (norm_bound (fst a) (fst a) hi - norm_bound (fst a) 0 lo)%nat.
  Proof. reflexivity. Qed.
  Lemma a_slice_idx lo hi (a : arr) k : snd (a_slice lo hi a) k = snd a (norm_bound (fst a) 0 lo + k)%nat.
  Proof. reflexivity. Qed.
  Lemma a_concat_len (a c : arr) : fst (a_concat a c) = (fst a + fst c)%nat.
  Proof. reflexivity. Qed.
  Lemma a_concat_idx_l (a c : arr) k : (k < fst a)%nat -> snd (a_concat a c) k = snd a k.
  Proof. intros H. unfold a_concat; cbn [fst snd]. destruct (Nat.ltb_spec k (fst a)); [reflexivity|lia]. Qed.
  Lemma a_concat_idx_r (a c : arr) k : (fst a <= k)%nat -> snd (a_concat a c) k = snd c (k - fst a)%nat.
  Proof. intros H. unfold a_concat; cbn [fst snd]. destruct (Nat.ltb_spec k (fst a)); [lia|reflexivity]. Qed.
  Lemma a_diff_len (a : arr) : fst (a_diff a) = (fst a - 1)%nat.
  Proof. reflexivity. Qed.
  Lemma a_diff_idx (a : arr) k : snd (a_diff a) k = snd a (S k) - snd a k.
  Proof. reflexivity. Qed.
  Lemma a_diff_append_last (a : arr) v : (0 < fst a)%nat ->
    snd (a_diff (a_concatl [a; a_const 1 v])) (fst a - 1)%nat = v - snd a (fst a - 1)%nat.
  Proof.
    intros H. change (a_concatl [a; a_const 1 v]) with (a_concat a (a_concatl [a_const 1 v])).
    rewrite a_diff_idx, a_concat_idx_r, a_concat_idx_l by lia.
    replace (S (fst a - 1) - fst a)%nat with 0%nat by lia. reflexivity.
  Qed.

  Lemma a_nat_1 : @a_nat F o 1 = 1. Proof. cbn. ring. Qed.
  Lemma a_nat_2 : @a_nat F o 2 = two. Proof. cbn. unfold two. ring. Qed.

  (** what each combinator tabulates; [l], [m], [K] are the lengths as the caller wants to read them *)
  Lemma tab_const n (v : F) : tabulates (a_const n v) n (fun _ => v).
  Proof. apply tab_pair. Qed.

  Lemma tab_map f {a : arr} {n g} : tabulates a n g -> tabulates (a_map f a) n (fun k => f (g k)).
  Proof. intros [L E]. split; [exact L|]. intros k Hk. exact (f_equal f (E k Hk)). Qed.

  Lemma tab_map2 f {a c : arr} {n g h} :
    tabulates a n g -> tabulates c n h -> tabulates (a_map2 f a c) n (fun k => f (g k) (h k)).
  Proof. intros [L E] [_ E']. split; [exact L|]. intros k Hk. exact (f_equal2 f (E k Hk) (E' k Hk)). Qed.

  Lemma tab_slice l {lo hi m} {a : arr} {n g} :
    tabulates a n g -> norm_bound n 0 lo = l -> (norm_bound n n hi - l)%nat = m ->
    tabulates (a_slice lo hi a) m (fun k => g (l + k)%nat).
  Proof.
    intros [L E] Hl Hm. pose proof (norm_bound_le n n hi (le_n n)).
    split; [now rewrite a_slice_len, L, Hl|]. intros k Hk. rewrite a_slice_idx, L, Hl. apply E. lia.
  Qed.

  Lemma tab_diff {m} {a : arr} {n g} :
    tabulates a n g -> (n - 1)%nat = m -> tabulates (a_diff a) m (fun k => g (S k) - g k).
  Proof.
    intros [L E] Hm. split; [now rewrite a_diff_len, L|]. intros k Hk. now rewrite a_diff_idx, !E by lia.
  Qed.

  Lemma tab_concat {a c : arr} {n m g h} : tabulates a n g -> tabulates c m h ->
    tabulates (a_concat a c) (n + m) (fun k => if Nat.ltb k n then g k else h (k - n)%nat).
  Proof.
    intros [L E] [L' E']. split; [now rewrite a_concat_len, L, L'|]. intros k Hk.
    destruct (Nat.ltb_spec k n).
    - rewrite a_concat_idx_l by lia. now apply E.
    - rewrite a_concat_idx_r, L by lia. apply E'. lia.
  Qed.

  (** an empty array in front or behind, the last array of a list *)
  Lemma tab_concat_0l {c v : arr} {n h g} : tabulates c 0 h -> tabulates v n g -> tabulates (a_concat c v) n g.
  Proof.
    intros C V. apply (tab_ext _ _ (tab_concat C V) eq_refl). intros k _. cbv beta. now rewrite Nat.sub_0_r.
  Qed.
  Lemma tab_concat_0r {v c : arr} {n g h} : tabulates v n g -> tabulates c 0 h -> tabulates (a_concat v c) n g.
  Proof.
    intros V C. apply (tab_ext _ _ (tab_concat V C)); [lia|]. intros k Hk. now rewrite (proj2 (Nat.ltb_lt k n)).
  Qed.
  Lemma tab_last {v : arr} {n g} : tabulates v n g -> tabulates (a_concatl [v]) n g.
  Proof. intros V. exact (tab_concat_0r V (tab_const 0 0)). Qed.

  Lemma tab_cons {c v : arr} {n h g} K : tabulates c 1 h -> tabulates v n g -> S n = K ->
    tabulates (a_concat c v) K (fun k => match k with O => h 0%nat | S j => g j end).
  Proof.
    intros C V <-. apply (tab_ext _ _ (tab_concat C V)); [reflexivity|].
    intros [|j] _; [reflexivity|]. now replace (S j - 1)%nat with j by lia.
  Qed.

  Lemma tab_snoc {v c : arr} {n g h} K : tabulates v n g -> tabulates c 1 h -> S n = K ->
    tabulates (a_concatl [v; c]) K (fun k => if Nat.ltb (S k) K then g k else h 0%nat).
  Proof.
    intros V C <-. apply (tab_ext _ _ (tab_concat V (tab_last C))); [lia|].
    intros k Hk. change (Nat.ltb (S k) (S n)) with (Nat.ltb k n). destruct (Nat.ltb_spec k n); [reflexivity|].
    now replace (k - n)%nat with 0%nat by lia.
  Qed.

  Lemma tab_pad_tb t bt {v : arr} {n g} K : tabulates v n g -> S n = K ->
    tabulates (a_concatl [a_const 1 t; v; a_const 1 bt]) (S K) (pad_tb K t bt g).
  Proof.
    intros V E. apply (tab_ext _ _ (tab_cons (S K) (tab_const 1 t) (tab_snoc K V (tab_const 1 bt) E) eq_refl)); [reflexivity|].
    intros [|j] _; [reflexivity|]. unfold pad_tb. now replace (S j - 1)%nat with j by lia.
  Qed.

  Lemma tab_cumsum dot {a : arr} {n g} : tabulates a n g -> tabulates (a_cumsum dot a) n (cumsum_m dot n g).
  Proof.
    intros [L E]. split; [exact L|]. intros k Hk. unfold a_cumsum; cbn [snd]. rewrite L. now apply cumsum_m_ext.
  Qed.
  Lemma tab_revcumsum dot {a : arr} {n g} :
    tabulates a n g -> tabulates (a_revcumsum dot a) n (revcumsum_m dot n g).
  Proof.
    intros [L E]. split; [exact L|]. intros k Hk. unfold a_revcumsum; cbn [snd]. rewrite L. now apply revcumsum_m_ext.
  Qed.
  Lemma tab_sum {a : arr} {n g} : tabulates a n g -> a_sum a = sumn n g.
  Proof. intros [L E]. unfold a_sum. rewrite L. now apply sumn_ext. Qed.
End DSLLemmas.

Section SigmaSrcThm.
  Context {F : Type} {o : Ops F} {Fc : FieldC o}.
  Add Field FFsig : (field_c : FieldTh o).
  Local Notation arr := (arr F).
  Variables (K : nat) (bf xf wf : nat -> F).
  Let b : arr := (S K, bf).
  Let x : arr := (K, xf).
  Let w : arr := ((K - 1)%nat, wf).
  Lemma tab_b : tabulates b (S K) bf. Proof. apply tab_pair. Qed.
  Lemma tab_x : tabulates x K xf. Proof. apply tab_pair. Qed.
  Lemma tab_w : tabulates w (K - 1) wf. Proof. apply tab_pair. Qed.

  Lemma internal_boundaries_matches : tabulates (internal_boundaries_src b) (K - 1) (fun k => bf (S k)).
  Proof. apply (tab_slice 1 tab_b); cbn; lia. Qed.

  Lemma centers_matches : tabulates (centers_src b) K (centers bf).
  Proof.
    eapply tab_ext; [|reflexivity|].
    - apply tab_map, tab_map2; [apply (tab_slice 1 tab_b)|apply (tab_slice 0 tab_b)]; cbn; lia.
    - intros k _. unfold centers. now rewrite a_nat_2.
  Qed.

  Lemma layer_thickness_matches : tabulates (layer_thickness_src b) K (thickness bf).
  Proof. apply (tab_diff tab_b). lia. Qed.

  Lemma center_to_center_matches : tabulates (center_to_center_src b) (K - 1) (c2c bf).
  Proof. exact (tab_diff centers_matches eq_refl). Qed.

  Lemma layers_matches : layers_src b = K.
  Proof. apply Nat.sub_0_r. Qed.

  (** shape guards: accepted iff the column has as many entries as there are layers *)
  Lemma guards_match (y : arr) :
    centered_difference_accepts_src y b = Nat.eqb K (fst y) /\
    cumulative_sigma_integral_accepts_src y b = Nat.eqb K (fst y) /\
    sigma_integral_accepts_src y b = Nat.eqb K (fst y) /\
    cumulative_log_sigma_integral_accepts_src y b = Nat.eqb K (fst y).
  Proof.
    unfold centered_difference_accepts_src, cumulative_sigma_integral_accepts_src, sigma_integral_accepts_src,
      cumulative_log_sigma_integral_accepts_src. rewrite layers_matches, !Bool.negb_involutive. auto.
  Qed.

  Lemma centered_difference_matches : tabulates (centered_difference_src x b) (K - 1) (centered_difference bf xf).
  Proof. exact (tab_map2 fmul (tab_diff tab_x eq_refl) (tab_map _ center_to_center_matches)). Qed.

  Lemma xdsigma_matches : tabulates (a_map2 fmul x (layer_thickness_src b)) K (xdsigma bf xf).
  Proof. exact (tab_map2 fmul tab_x layer_thickness_matches). Qed.

  Lemma cumulative_sigma_integral_matches dot downward :
    tabulates (cumulative_sigma_integral_src dot downward x b) K (cum_sigma_integral dot downward K bf xf).
  Proof. destruct downward; [exact (tab_cumsum dot xdsigma_matches)|exact (tab_revcumsum dot xdsigma_matches)]. Qed.

  Lemma sigma_integral_matches : sigma_integral_src x b = sigma_integral K bf xf.
  Proof. exact (tab_sum xdsigma_matches). Qed.

  (** centered_vertical_advection: the default boundary values are zeros *)
  Lemma centered_vertical_advection_default (wbv dbv : option (F * F)) :
    centered_vertical_advection_src w x b wbv dbv
    = centered_vertical_advection_src w x b (Some (bv_or wbv (0, 0))) (Some (bv_or dbv (0, 0))).
  Proof. destruct wbv, dbv; reflexivity. Qed.

  Lemma centered_vertical_advection_matches (wbv dbv : option (F * F)) :
    (0 < K)%nat ->
    tabulates (centered_vertical_advection_src w x b wbv dbv) K
      (centered_vertical_advection K bf wf xf (fst (bv_or wbv (0, 0))) (snd (bv_or wbv (0, 0)))
                                   (fst (bv_or dbv (0, 0))) (snd (bv_or dbv (0, 0)))).
  Proof.
    intros HK. rewrite centered_vertical_advection_default.
    destruct (bv_or wbv (0, 0)) as [wt wb], (bv_or dbv (0, 0)) as [dt db].
    pose proof (tab_map2 fmul (tab_pad_tb wt wb K tab_w ltac:(lia))
                              (tab_pad_tb dt db K centered_difference_matches ltac:(lia))) as P.
    eapply tab_ext; [|reflexivity|].
    - apply tab_map, tab_map2; [apply (tab_slice 1 P)|apply (tab_slice 0 P)]; cbn; lia.
    - intros n _. unfold centered_vertical_advection, half. now rewrite a_nat_1, a_nat_2.
  Qed.

  Lemma upwind_vertical_advection_matches :
    (0 < K)%nat -> tabulates (upwind_vertical_advection_src w x b) K (upwind_vertical_advection K bf wf xf).
  Proof.
    intros HK. assert (E : S (K - 1) = K) by lia.
    pose proof centered_difference_matches as D.
    eapply tab_ext; [|reflexivity|].
    - apply tab_map, tab_map2; apply tab_map2.
      + exact (tab_map _ (tab_cons K (tab_const 1 0) (tab_last tab_w) E)).
      + exact (tab_cons K (tab_const 1 0) (tab_last D) E).
      + exact (tab_map _ (tab_snoc K tab_w (tab_const 1 0) E)).
      + exact (tab_snoc K D (tab_const 1 0) E).
    - intros [|n] _; [reflexivity|]. unfold upwind_vertical_advection.
      now replace (S n - 1)%nat with n by lia.
  Qed.

  (** cumulative_log_sigma_integral: [ls] is the table log(centers) *)
  Lemma cumulative_log_sigma_integral_matches (flog : F -> F) (ls : nat -> F) dot downward :
    (forall k, (k < K)%nat -> flog (centers bf k) = ls k) ->
    tabulates (cumulative_log_sigma_integral_src flog dot downward x b) K (cum_log_sigma_integral dot downward K ls xf).
  Proof.
    intros Hls. destruct (Nat.eq_dec K 0) as [Z|NZ].
    { split; [|lia]. subst b x. rewrite Z. destruct downward; reflexivity. }
    unfold cumulative_log_sigma_integral_src, cum_log_sigma_integral.
    set (A := a_map2 fmul _ _). assert (P : tabulates A K (fun k => log_integrand K xf k * dlog K ls k)).
    { apply tab_map2.
      - eapply tab_ext; [eapply (tab_snoc (n := K - 1) K)|reflexivity|].
        + apply tab_map, tab_map2; [apply (tab_slice 1 tab_x)|apply (tab_slice 0 tab_x)]; cbn; lia.
        + apply (tab_slice (K - 1) tab_x); cbn; lia.
        + lia.
        + intros k Hk. unfold log_integrand. rewrite a_nat_2.
          destruct (Nat.ltb_spec (S k) K); [reflexivity|f_equal; lia].
      - pose proof (tab_ext _ _ (tab_map flog centers_matches) eq_refl Hls) as L.
        apply (tab_ext _ _ (tab_diff (tab_snoc (S K) L (tab_const 1 0) eq_refl) (Nat.sub_0_r K)) eq_refl).
        intros k Hk. unfold dlog. change (Nat.ltb (S (S k)) (S K)) with (Nat.ltb (S k) K).
        rewrite (proj2 (Nat.ltb_lt (S k) (S K))) by lia. now destruct (Nat.ltb (S k) K). }
    destruct downward; [exact (tab_cumsum dot P)|exact (tab_revcumsum dot P)].
  Qed.
End SigmaSrcThm.

(** the two validity tests of SigmaCoordinates.__init__ over an abstract [isclose] whose two uses
    (targets 0 and 1) are the tolerance tests of the model *)
Section InitSrc.
  Context {F : Type} {o : Ops F} {Oc : OrdFieldC o}.
  Add Field FFinit : (field_c : FieldTh o).

  Lemma fltb_sub (u v : F) : fltb 0 (v - u) = fltb u v.
  Proof. apply eq_true_iff_eq. rewrite !fltb_true. symmetry. apply flt_sub. Qed.

  Lemma all_upto_increasing n (bf : nat -> F) :
    all_upto n (fun k => fltb 0 (bf (S k) - bf k)) = all_increasing n bf.
  Proof. induction n as [|n IH]; cbn; [reflexivity|]. now rewrite IH, fltb_sub. Qed.

  Lemma init_accepts_matches (isclose : F -> F -> bool) (tol0 tol1 : F) K (bf : nat -> F) :
    (forall a, isclose a 0 = fleb (fabs a) tol0) ->
    (forall a, isclose a 1 = fleb (fabs (a - 1)) tol1) ->
    init_accepts_src isclose (S K, bf) = sigma_accepts tol0 tol1 K bf.
  Proof.
    intros H0 H1. unfold init_accepts_src, sigma_accepts, a_all, a_mapb, a_diff, a_get, norm_bound. cbn [fst snd].
    rewrite !Bool.negb_involutive, H0, H1.
    replace (S K - 1)%nat with K by lia. rewrite all_upto_increasing.
    replace (Nat.min (S K) 0) with 0%nat by lia. reflexivity.
  Qed.
End InitSrc.
