(** Adjoint identities for the linear model operators (C08): matrix-vector
    products, cumulative sums, compositions, bilinear nodal products; and the
    fact that a linear map evaluated at dual numbers returns itself applied to
    the tangent. *)
From Dino Require Import Base.Ops Base.Field Base.Sums Model.Dual Model.Sigma Thm.Dual.
Local Open Scope F_scope.

Section Defs.
  Context {F : Type} {o : Ops F}.
  Definition dot (n : nat) (x y : nat -> F) : F := sumn n (fun i => x i * y i).
  (** [n] rows are implicit in the result index; [m] columns *)
  Definition matvec (m : nat) (a : nat -> nat -> F) (v : nat -> F) (i : nat) : F :=
    sumn m (fun j => a i j * v j).
  Definition transpose (a : nat -> nat -> F) : nat -> nat -> F := fun j i => a i j.
End Defs.

Section Thm.
  Context {F : Type} {o : Ops F} {Fc : FieldC o}.
  Add Field FFa : (field_c : FieldTh o).

  Theorem matvec_adjoint n m (a : nat -> nat -> F) (v w : nat -> F) :
    dot n (matvec m a v) w = dot m v (matvec n (transpose a) w).
  Proof.
    unfold dot, matvec, transpose.
    rewrite (sumn_ext n _ (fun i => sumn m (fun j => a i j * v j * w i))).
    2:{ intros i Hi. now rewrite <- sumn_scal_r. }
    rewrite sumn_exchange.
    apply sumn_ext. intros j Hj.
    rewrite <- sumn_scal_l. apply sumn_ext. intros i Hi. ring.
  Qed.

  Theorem compose_adjoint n m k (a b : nat -> nat -> F) (v w : nat -> F) :
    dot n (matvec m a (matvec k b v)) w
    = dot k v (matvec m (transpose b) (matvec n (transpose a) w)).
  Proof. now rewrite matvec_adjoint, matvec_adjoint. Qed.

  Theorem cumsum_adjoint K (x w : nat -> F) :
    dot K (cumsum_dot K x) w = dot K x (revcumsum_dot K w).
  Proof.
    pose (a := fun j i : nat => @ind F o (Nat.leb i j)).
    change (dot K (matvec K a x) w = dot K x (matvec K (transpose a) w)).
    apply matvec_adjoint.
  Qed.

  (** Jacobian of the pointwise (nodal) product and its transpose *)
  Theorem product_jacobian_adjoint n (x y vx vy w : nat -> F) :
    dot n (fun i => x i * vy i + vx i * y i) w
    = dot n vx (fun i => y i * w i) + dot n vy (fun i => x i * w i).
  Proof.
    unfold dot. rewrite <- sumn_add. apply sumn_ext. intros i Hi. ring.
  Qed.

  Theorem linear_jvp_is_self m (a : nat -> nat -> F) (x v : nat -> F) i :
    matvec (o := DualOps) m (fun i j => dconst (a i j)) (fun j => dvar (x j) (v j)) i
    = mkdual (matvec m a x i) (matvec m a v i).
  Proof. apply sumn_dual. intros j _. apply dual_eq; cbn; ring. Qed.

  (** hence <J v, w> = <v, J^T w> for every linear model operator, with J = A *)
  Corollary linear_jvp_vjp n m (a : nat -> nat -> F) (x v w : nat -> F) :
    dot n (fun i => ep (matvec (o := DualOps) m (fun i j => dconst (a i j)) (fun j => dvar (x j) (v j)) i)) w
    = dot m v (matvec n (transpose a) w).
  Proof.
    rewrite <- matvec_adjoint. unfold dot. apply sumn_ext. intros i Hi.
    now rewrite linear_jvp_is_self.
  Qed.

  (** centred vertical advection is bilinear in (w, x): its dual-number
      evaluation is the product rule, for every K and every level set.
      Padding selects entries, and the centred difference is linear in [x] with
      constant coefficients, so both act on the two parts separately. *)
  Lemma pad_tb_dual K (V : nat -> dual F) (v dv : nat -> F) k :
    (forall i, V i = mkdual (v i) (dv i)) ->
    pad_tb K 0 0 V k = mkdual (pad_tb K 0 0 v k) (pad_tb K 0 0 dv k).
  Proof.
    intros H. unfold pad_tb. destruct (Nat.eqb k 0); [reflexivity|].
    destruct (Nat.ltb k K); [apply H|reflexivity].
  Qed.

  Lemma centered_difference_dual (b : nat -> F) (X : nat -> dual F) (x dx : nat -> F) k :
    (forall i, X i = mkdual (x i) (dx i)) ->
    centered_difference (fun k => dconst (b k)) X k
    = mkdual (centered_difference b x k) (centered_difference b dx k).
  Proof.
    intros H. unfold centered_difference, c2c, centers, two. rewrite !H.
    apply dual_eq; cbn; rewrite ?fdiv_mul; ring.
  Qed.

  Lemma advection_dual K (b : nat -> F) (W X : nat -> dual F) (w dw x dx : nat -> F) n :
    (forall i, W i = mkdual (w i) (dw i)) -> (forall i, X i = mkdual (x i) (dx i)) ->
    centered_vertical_advection K (fun k => dconst (b k)) W X 0 0 0 0 n
    = mkdual (centered_vertical_advection K b w x 0 0 0 0 n)
             (centered_vertical_advection K b dw x 0 0 0 0 n
              + centered_vertical_advection K b w dx 0 0 0 0 n).
  Proof.
    intros HW HX. unfold centered_vertical_advection. cbv zeta.
    rewrite !(pad_tb_dual K W w dw) by exact HW.
    rewrite !(pad_tb_dual K _ _ _ _ (fun k => centered_difference_dual b X x dx k HX)).
    unfold half, two. apply dual_eq; cbn; rewrite ?fdiv_mul; ring.
  Qed.

  Theorem advection_jvp K (b w x dw dx : nat -> F) n :
    centered_vertical_advection (o := DualOps) K (fun k => dconst (b k))
        (fun k => dvar (w k) (dw k)) (fun k => dvar (x k) (dx k)) 0 0 0 0 n
    = mkdual (centered_vertical_advection K b w x 0 0 0 0 n)
             (centered_vertical_advection K b dw x 0 0 0 0 n
              + centered_vertical_advection K b w dx 0 0 0 0 n).
  Proof. now apply advection_dual. Qed.
End Thm.
