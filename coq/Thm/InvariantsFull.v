(** Property C11 on the CONCRETE whole-state primitive-equation model (Model/PrimEqFull.v):
    the structural invariants of explicit_terms_full / implicit_terms_full / implicit_inverse_full
    (dry class, reference layout), for every state and all tables, lifted to trajectories of every
    step term (every integrator) by the abstract theorems of Thm/Invariants.v.  What is assumed of
    the tables is stated as named hypotheses ([pe_H_p_support], [pe_H_deriv_mask], [pe_H_inv0_div_rows]),
    each derived further down from a more primitive fact (the Legendre recurrence, the recurrence
    weight at l = |m|, a right inverse).  Does not depend on Thm/PrimEqFull.v. *)
From Dino Require Import Base.Ops Base.Field Base.Sums Base.Ord Gen.DerivExprs Model.Sigma Model.Implicit Model.PrimEq Model.SHT Model.Deriv
     Model.Invariants Model.PrimEqFull Thm.SHT Thm.Deriv Thm.Implicit Thm.Invariants.
Local Open Scope F_scope.

Section PEInvBasics.
  Context {F : Type} {o : Ops F} {Fc : FieldC o}.
  Add Field FFif0 : (field_c : FieldTh o).

  Lemma pe_nth_map_prop {A B} (P : B -> Prop) (f : A -> B) (l : list A) (d : B) n :
    P d -> (forall t, P (f t)) -> P (nth n (map f l) d).
  Proof.
    intros Hd Hf. destruct (nth_in_or_default n (map f l) d) as [Hin|E].
    - apply in_map_iff in Hin. destruct Hin as (t & <- & _). apply Hf.
    - rewrite E. exact Hd.
  Qed.

  (** padded addition of tracer lists: a missing tracer is a zero tracer (tree_math's scalar 0) *)
  Fixpoint ladd (x y : list (nat -> nat -> nat -> F)) : list (nat -> nat -> nat -> F) :=
    match x, y with
    | [], _ => y
    | _, [] => x
    | a :: x', b :: y' => (fun k i l => a k i l + b k i l) :: ladd x' y'
    end.

  Lemma ladd_Forall (P : (nat -> nat -> nat -> F) -> Prop) x y :
    (forall a b, P a -> P b -> P (fun k i l => a k i l + b k i l)) ->
    Forall P x -> Forall P y -> Forall P (ladd x y).
  Proof.
    intros Hadd Hx. revert y. induction Hx as [|a x' Ha Hx' IH]; intros y Hy; [exact Hy|].
    destruct Hy as [|b y' Hb Hy']; cbn [ladd]; [now constructor|].
    constructor; [now apply Hadd|now apply IH].
  Qed.
End PEInvBasics.

Section PEInvariants.
  Context {F : Type} {o : Ops F} {Fc : FieldC o}.
  Add Field FFif : (field_c : FieldTh o).
  Variable g : @HGrid F.
  Local Notation M := (hM g).
  Local Notation R := (hR g).
  Local Notation L := (hL g).
  Local Notation I := (hI g).
  Local Notation J := (hJ g).

  (** a modal array vanishes outside the triangular mask (index range of the layout) *)
  Definition pe_masked (x : nat -> nat -> F) : Prop :=
    forall a l, (a < R)%nat -> (l < L)%nat -> Deriv.mask false M L a l = false -> x a l = 0.
  (** the basis functions f[i,a] * p[a,j,l] vanish outside the mask (exact zeros of the Legendre table) *)
  Definition pe_H_p_support : Prop :=
    forall i a j l, (i < I)%nat -> (a < R)%nat -> (j < J)%nat -> (l < L)%nat ->
                    Deriv.mask false M L a l = false -> hf g i a * hp g a j l = 0.
  (** div_cos_lat / curl_cos_lat (clip=False) keep arrays in the mask pattern (rows of a cos/sin pair share |m|; the
      recurrence weight a vanishes at l = |m|) *)
  Definition pe_H_deriv_mask : Prop :=
    forall x y, pe_masked x -> pe_masked y -> pe_masked (divm g x y) /\ pe_masked (curlm g x y).

  (** the pattern on a state: every leaf of every level is in Supp (Thm/Invariants.v) *)
  Definition pe_Supp3 (x : nat -> nat -> nat -> F) : Prop := Supp false M L R L x.
  Definition StSupp (s : @State F) : Prop :=
    pe_Supp3 (s_vort s) /\ pe_Supp3 (s_div s) /\ pe_Supp3 (s_temp s) /\ pe_Supp3 (fun _ => s_lnps s) /\
    Forall pe_Supp3 (s_tr s).

  (** every field of the state vanishes at the coefficient (a,l) *)
  Definition st_zero_at (s : @State F) (a l : nat) : Prop :=
    (forall k, s_vort s k a l = 0) /\ (forall k, s_div s k a l = 0) /\ (forall k, s_temp s k a l = 0) /\
    s_lnps s a l = 0 /\ Forall (fun t => forall k, t k a l = 0) (s_tr s).

  Lemma StSupp_pointwise (s : @State F) :
    StSupp s <-> forall a l, (a < R)%nat -> (l < L)%nat -> must_vanish false M L a l = true -> st_zero_at s a l.
  Proof.
    unfold StSupp, pe_Supp3, Supp, st_zero_at. rewrite Forall_forall. split.
    - intros (Hv & Hd & Ht & Hp & Htr) a l Ha Hl Hm. rewrite Forall_forall. repeat split; auto.
    - intros H. repeat split; try (intros k a l Ha Hl Hm; now apply (H a l Ha Hl Hm)).
      intros t Hin k a l Ha Hl Hm. destruct (H a l Ha Hl Hm) as (_ & _ & _ & _ & Htr).
      rewrite Forall_forall in Htr. now apply Htr.
  Qed.

  (** an operation that keeps zero columns zero keeps the pattern *)
  Lemma StSupp_columnwise (f : @State F -> @State F) :
    (forall s a l, st_zero_at s a l -> st_zero_at (f s) a l) -> forall s, StSupp s -> StSupp (f s).
  Proof.
    intros Hf s Hs. apply StSupp_pointwise. intros a l Ha Hl Hm. apply Hf. now apply StSupp_pointwise.
  Qed.

  Lemma pe_tm_masked (z : nat -> nat -> F) : pe_H_p_support -> pe_masked (tm g z).
  Proof.
    intros Hp a l Ha Hl Hm. unfold tm. rewrite sh_memo2_ok by assumption. unfold to_modal.
    rewrite analysis_eq by assumption. unfold sum2, ylm. apply sumn_zero; intros i Hi. apply sumn_zero; intros j Hj.
    rewrite (Hp i a j l Hi Ha Hj Hl Hm). ring.
  Qed.

  Lemma pe_clipm_top (x : nat -> nat -> F) a l : (L - 1 <= l)%nat -> clipm g x a l = 0.
  Proof. intros Hl. unfold clipm. now apply (clip_top L L (le_n L)). Qed.

  Lemma pe_clipm_mv (x : nat -> nat -> F) a l :
    must_vanish false M L a l = true -> (Deriv.mask false M L a l = false -> x a l = 0) -> clipm g x a l = 0.
  Proof. apply (clip_must_vanish false M L L (le_n L)). Qed.

  Variable c : @PEcfg F.
  Variable grav : F.
  Variable orog : nat -> nat -> F.

  Local Notation E := (explicit_terms_full g c grav orog).

  Lemma pe_level_cases (d : @Diag F) k :
    nth k (map (explicit_level g c grav orog d) (seq 0 (cK c))) (lev0 (F := F)) = explicit_level g c grav orog d k \/
    nth k (map (explicit_level g c grav orog d) (seq 0 (cK c))) (lev0 (F := F)) = lev0.
  Proof.
    destruct (Nat.ltb_spec k (cK c)) as [Hk|Hk].
    - left. now apply nth_map_seq.
    - right. apply nth_overflow. rewrite map_length, seq_length. exact Hk.
  Qed.

  (** a property of single coefficients that holds for 0 and for every clipped+materialised array lifts to every
      field of explicit_terms_full *)
  Section Lift.
    Variables (a l : nat).
    Variable Q : (nat -> nat -> F) -> Prop.   (* a class of pre-clip arrays *)
    Hypothesis HQ : forall x, Q x -> sh_memo2 R L (clipm g x) a l = 0.

    Hypothesis Qvort : forall cu cv, Q (fun a l => - curlm g (tm g cu) (tm g cv) a l + 0).
    Hypothesis Qdiv : forall cu cv ke,
        Q (fun a l => - divm g (tm g cu) (tm g cv) a l + - lapm g (tm g ke) a l + - grav * lapm g orog a l + 0).
    Hypothesis Qscal : forall tot mu mv, Q (fun a l => tm g tot a l + - divm g (tm g mu) (tm g mv) a l).
    Hypothesis Qlnps : forall z, Q (tm g z).

    Lemma pe_lift (s : @State F) : st_zero_at (E s) a l.
    Proof.
      unfold st_zero_at, explicit_terms_full, explicit_terms_of_diag. cbv zeta. cbn [s_vort s_div s_temp s_lnps s_tr].
      set (d := diagnostic_state g (cK c) s).
      split; [|split; [|split; [|split]]].
      - intros k. destruct (pe_level_cases d k) as [Ek|Ek]; rewrite Ek; [|reflexivity].
        unfold explicit_level. cbv zeta. cbn [l_vort]. unfold vort_of. apply HQ. apply Qvort.
      - intros k. destruct (pe_level_cases d k) as [Ek|Ek]; rewrite Ek; [|reflexivity].
        unfold explicit_level. cbv zeta. cbn [l_div]. unfold div_of. apply HQ. apply Qdiv.
      - intros k. destruct (pe_level_cases d k) as [Ek|Ek]; rewrite Ek; [|reflexivity].
        unfold explicit_level. cbv zeta. cbn [l_temp]. unfold scalar_of. apply HQ. apply Qscal.
      - unfold lnps_explicit. apply HQ. apply Qlnps.
      - apply Forall_forall. intros t Ht. apply in_map_iff in Ht. destruct Ht as (n & <- & _). intros k.
        destruct (pe_level_cases d k) as [Ek|Ek]; rewrite Ek.
        + unfold explicit_level. cbv zeta. cbn [l_tr].
          apply (pe_nth_map_prop (fun y : nat -> nat -> F => y a l = 0)); [reflexivity|].
          intros t. unfold scalar_of. apply HQ. apply Qscal.
        + cbn [lev0 l_tr]. destruct n; reflexivity.
    Qed.
  End Lift.

  (** the clipped top total wavenumber: for EVERY state and ALL tables, every index (a, l >= L-1) *)
  Theorem pe_explicit_top_zero (s : @State F) a l : (L - 1 <= l)%nat -> st_zero_at (E s) a l.
  Proof.
    intros Hl. apply (pe_lift a l (fun _ => True)); try (intros; exact Logic.I).
    intros x _. apply sh_memo2_zero. now apply pe_clipm_top.
  Qed.

  (** the whole pattern: triangular mask and top wavenumber *)
  Theorem pe_explicit_into_Supp (s : @State F) :
    pe_H_p_support -> pe_H_deriv_mask -> pe_masked orog -> StSupp (E s).
  Proof.
    intros Hp Hd Ho. assert (TM := fun z => pe_tm_masked z Hp).
    apply StSupp_pointwise. intros a l Ha Hl Hmv.
    apply (pe_lift a l (fun x => Deriv.mask false M L a l = false -> x a l = 0)).
    - intros x Hx. apply sh_memo2_zero. now apply pe_clipm_mv.
    - intros cu cv Hm. rewrite (proj2 (Hd _ _ (TM cu) (TM cv)) a l Ha Hl Hm). ring.
    - intros cu cv ke Hm. rewrite (proj1 (Hd _ _ (TM cu) (TM cv)) a l Ha Hl Hm).
      unfold lapm, Deriv.laplacian. rewrite (TM ke a l Ha Hl Hm), (Ho a l Ha Hl Hm). ring.
    - intros tot mu mv Hm. rewrite (proj1 (Hd _ _ (TM mu) (TM mv)) a l Ha Hl Hm), (TM tot a l Ha Hl Hm). ring.
    - intros z Hm. exact (TM z a l Ha Hl Hm).
  Qed.

  (** Stokes / Gauss: the (0,0) coefficients of the explicit vorticity and divergence tendencies vanish
      for EVERY state, orography, level and ALL tables *)
  Theorem pe_explicit_means_vanish (s : @State F) k :
    hr g <> 0 -> (2 <= L)%nat -> (0 < R)%nat ->
    s_vort (E s) k 0%nat 0%nat = 0 /\ s_div (E s) k 0%nat 0%nat = 0.
  Proof.
    intros Hr HL HR0.
    unfold explicit_terms_full, explicit_terms_of_diag. cbv zeta. cbn [s_vort s_div].
    set (d := diagnostic_state g (cK c) s).
    destruct (pe_level_cases d k) as [Ek|Ek]; rewrite Ek; [|split; reflexivity].
    unfold explicit_level. cbv zeta. cbn [l_vort l_div]. split; apply sh_memo2_zero.
    - unfold vort_of, clipm. apply clip_zero. unfold curlm.
      rewrite (curl_cos_lat_00 false L R L (hr g) (ha g) (hb g) Hr HL (le_n L) HR0). ring.
    - unfold div_of, clipm. apply clip_zero. unfold divm, lapm.
      rewrite (div_cos_lat_00 false L R L (hr g) (ha g) (hb g) Hr HL (le_n L) HR0), !(laplacian_00 L (hr g) Hr). ring.
  Qed.

  (** ... and of the implicit ones: vorticity has no implicit tendency, the divergence one is a laplacian *)
  Theorem pe_implicit_means_vanish (s : @State F) k :
    hr g <> 0 ->
    s_vort (implicit_terms_full g c s) k 0%nat 0%nat = 0 /\ s_div (implicit_terms_full g c s) k 0%nat 0%nat = 0.
  Proof.
    intros Hr. cbn [implicit_terms_full s_vort s_div]. split; [reflexivity|].
    unfold div_tendency_implicit, lap_c, unc, cur, lapm. cbn [fst snd].
    rewrite (laplacian_00 L (hr g) Hr). ring.
  Qed.

  (** implicit_terms_full and implicit_inverse_full act per coefficient column: zero columns stay zero *)
  Lemma pe_implicit_zero_at (s : @State F) a l : st_zero_at s a l -> st_zero_at (implicit_terms_full g c s) a l.
  Proof.
    intros (Hv & Hd & Ht & Hp & Htr). unfold st_zero_at. cbn [implicit_terms_full s_vort s_div s_temp s_lnps s_tr].
    split; [|split; [|split; [|split]]].
    - reflexivity.
    - intros k. unfold div_tendency_implicit, lap_c, unc, cur, lapm, Deriv.laplacian, div_implicit_potential. cbn [fst snd].
      assert (E0 : geo_diff false c (fun k0 => s_temp s k0 a l) k = 0).
      { unfold geo_diff, geo_diff_dense. apply sumn_zero. intros k0 _. rewrite Ht. ring. }
      rewrite E0, Hp. ring.
    - intros k. unfold temp_tendency_implicit, temp_implicit_col, temp_implicit_dense, unc, matvec. cbn [fst snd].
      apply sumn_zero. intros h _. rewrite Hd. ring.
    - unfold lnps_implicit_col, matvec.
      assert (E0 : sumn (cK c) (fun h => thickness (cb c) h * s_div s h a l) = 0).
      { apply sumn_zero. intros h _. rewrite Hd. ring. }
      rewrite E0. ring.
    - apply Forall_forall. intros t Hin. apply in_map_iff in Hin. destruct Hin as (t0 & <- & _). reflexivity.
  Qed.

  Lemma pe_inverse_zero_at (eta : F) (invt : nat -> @Mat F) (s : @State F) a l :
    st_zero_at s a l -> st_zero_at (implicit_inverse_full g c eta invt s) a l.
  Proof.
    intros (Hv & Hd & Ht & Hp & Htr). unfold st_zero_at. cbn [implicit_inverse_full s_vort s_div s_temp s_lnps s_tr].
    assert (Z : forall (A : @Mat F) n (x : nat -> F) i, (forall h, x h = 0) -> matvec n A x i = 0).
    { intros A n x i Hx. unfold matvec. apply sumn_zero. intros h _. rewrite Hx. ring. }
    assert (Zp : forall h, lnps_vec (col_of s a l) h = 0) by (intros h; exact Hp).
    unfold inverse_split. cbv zeta. cbn [c_div c_temp c_lnps col_of].
    split; [exact Hv|]. split; [|split; [|split; [|exact Htr]]]; try intros k; rewrite !Z by assumption; ring.
  Qed.

  Theorem pe_implicit_preserves_Supp (s : @State F) : StSupp s -> StSupp (implicit_terms_full g c s).
  Proof. apply StSupp_columnwise, pe_implicit_zero_at. Qed.

  Theorem pe_inverse_preserves_Supp (eta : F) (invt : nat -> @Mat F) (s : @State F) :
    StSupp s -> StSupp (implicit_inverse_full g c eta invt s).
  Proof. apply StSupp_columnwise, pe_inverse_zero_at. Qed.

  (** states as a vector space (tree_math arithmetic; a missing tracer is a zero tracer) *)
  Definition st_zero : @State F := mkState zero3 zero3 zero3 (fun _ _ => 0) [].
  Definition st_add (x y : @State F) : @State F :=
    mkState (fun k a l => s_vort x k a l + s_vort y k a l) (fun k a l => s_div x k a l + s_div y k a l)
            (fun k a l => s_temp x k a l + s_temp y k a l) (fun a l => s_lnps x a l + s_lnps y a l)
            (ladd (s_tr x) (s_tr y)).
  Definition st_scale (t : F) (x : @State F) : @State F :=
    mkState (fun k a l => t * s_vort x k a l) (fun k a l => t * s_div x k a l)
            (fun k a l => t * s_temp x k a l) (fun a l => t * s_lnps x a l)
            (map (fun q => fun k a l => t * q k a l) (s_tr x)).
  Definition StateSp : VSp F (@State F) := {| vz := st_zero; va := st_add; vs := st_scale |}.

  Lemma StSupp_zero : StSupp st_zero.
  Proof. unfold StSupp, pe_Supp3, Supp, st_zero, zero3. cbn [s_vort s_div s_temp s_lnps s_tr]. repeat split; auto. Qed.

  Lemma st_zero_at_add x y a l : st_zero_at x a l -> st_zero_at y a l -> st_zero_at (st_add x y) a l.
  Proof.
    intros (Hv & Hd & Ht & Hp & Htr) (Hv' & Hd' & Ht' & Hp' & Htr'). unfold st_zero_at.
    cbn [st_add s_vort s_div s_temp s_lnps s_tr]. split; [|split; [|split; [|split]]]; try intros k.
    - rewrite Hv, Hv'. ring.
    - rewrite Hd, Hd'. ring.
    - rewrite Ht, Ht'. ring.
    - rewrite Hp, Hp'. ring.
    - apply ladd_Forall; [|exact Htr|exact Htr']. intros p q Hp0 Hq0 k. rewrite Hp0, Hq0. ring.
  Qed.

  Lemma st_zero_at_scale t x a l : st_zero_at x a l -> st_zero_at (st_scale t x) a l.
  Proof.
    intros (Hv & Hd & Ht & Hp & Htr). unfold st_zero_at.
    cbn [st_scale s_vort s_div s_temp s_lnps s_tr]. split; [|split; [|split; [|split]]]; try intros k.
    - rewrite Hv. ring.
    - rewrite Hd. ring.
    - rewrite Ht. ring.
    - rewrite Hp. ring.
    - apply Forall_forall. intros q Hin. apply in_map_iff in Hin. destruct Hin as (q0 & <- & Hq0).
      rewrite Forall_forall in Htr. intros k. rewrite (Htr q0 Hq0). ring.
  Qed.

  Lemma StSupp_add x y : StSupp x -> StSupp y -> StSupp (st_add x y).
  Proof.
    intros Hx Hy. apply StSupp_pointwise. intros a l Ha Hl Hm. apply st_zero_at_add; now apply StSupp_pointwise.
  Qed.
  Lemma StSupp_scale t x : StSupp x -> StSupp (st_scale t x).
  Proof. apply (StSupp_columnwise (st_scale t)), st_zero_at_scale. Qed.

  Variable invt : F -> nat -> @Mat F.     (* np.linalg.inv of the implicit matrices, per eta and total wavenumber *)
  Local Notation Gi := (fun eta => implicit_inverse_full g c eta (invt eta)).

  Lemma InvSub_StSupp :
    pe_H_p_support -> pe_H_deriv_mask -> pe_masked orog -> InvSub (vo := StateSp) E (implicit_terms_full g c) Gi StSupp.
  Proof.
    intros Hp Hd Ho. split.
    - exact StSupp_zero.
    - exact StSupp_add.
    - exact StSupp_scale.
    - intros x _. now apply pe_explicit_into_Supp.
    - exact pe_implicit_preserves_Supp.
    - intros eta x. apply pe_inverse_preserves_Supp.
  Qed.

  (** every step term (hence every integrator: Thm/Invariants.v [bridge_*]), every filter
      stack that keeps the pattern, every number of steps *)
  Theorem primeq_term_preserves_subspace (t : stepterm F) (env : nat -> @State F) :
    pe_H_p_support -> pe_H_deriv_mask -> pe_masked orog ->
    (forall i, StSupp (env i)) -> StSupp (eval (vo := StateSp) E (implicit_terms_full g c) Gi t env).
  Proof. intros Hp Hd Ho. now apply (InvSub_eval (vo := StateSp)), InvSub_StSupp. Qed.

  Theorem primeq_trajectory_in_subspace (t : stepterm F) (filters : list (@State F -> @State F -> @State F)) :
    pe_H_p_support -> pe_H_deriv_mask -> pe_masked orog ->
    (forall f, In f filters -> forall u un, StSupp u -> StSupp un -> StSupp (f u un)) ->
    forall k u, StSupp u ->
      StSupp (iter k (with_filters (step_of (vo := StateSp) E (implicit_terms_full g c) Gi t) filters) u).
  Proof. intros Hp Hd Ho. now apply (InvSub_trajectory (vo := StateSp)), InvSub_StSupp. Qed.

  Theorem primeq_leapfrog_trajectory_in_subspace (t : stepterm F)
          (filters : list (@State F * @State F -> @State F * @State F -> @State F * @State F)) :
    pe_H_p_support -> pe_H_deriv_mask -> pe_masked orog ->
    (forall f, In f filters -> forall u un, S2 StSupp u -> S2 StSupp un -> S2 StSupp (f u un)) ->
    forall k u, S2 StSupp u ->
      S2 StSupp (iter k (with_filters (lf_step_of (vo := StateSp) E (implicit_terms_full g c) Gi t) filters) u).
  Proof. intros Hp Hd Ho. now apply (lf_trajectory_in_subspace (vo := StateSp)), InvSub_StSupp. Qed.

  (** global means.  The implicit inverse passes the (0,0) vorticity coefficient untouched (definitionally); for the
      divergence it does so when the divergence rows of the inverse table of total wavenumber 0 are unit rows
      [pe_H_inv0_div_rows] - which holds for every right inverse of the assembled matrix [pe_right_inverse_div_rows] *)
  Definition pe_H_inv0_div_rows : Prop :=
    forall eta i j, (i < cK c)%nat -> (j < 2 * cK c + 1)%nat -> invt eta 0%nat i j = eye i j.

  Lemma pe_inverse_div_mean (eta : F) (s : @State F) k :
    pe_H_inv0_div_rows -> (k < cK c)%nat ->
    s_div (Gi eta s) k 0%nat 0%nat = s_div s k 0%nat 0%nat.
  Proof.
    intros Hrows Hk. cbn [implicit_inverse_full s_div]. unfold inverse_split. cbv zeta. cbn [c_div c_temp col_of].
    unfold matvec, blk.
    assert (E1 : sumn (cK c) (fun h => invt eta 0%nat (0 + k)%nat (0 + h)%nat * s_div s h 0%nat 0%nat) = s_div s k 0%nat 0%nat).
    { rewrite <- (sumn_delta_l (cK c) k (fun h => s_div s h 0%nat 0%nat) Hk). apply sumn_ext. intros h Hh.
      cbn [Nat.add]. rewrite (Hrows eta k h Hk) by lia. reflexivity. }
    assert (E2 : sumn (cK c) (fun h => invt eta 0%nat (0 + k)%nat (cK c + h)%nat * s_temp s h 0%nat 0%nat) = 0).
    { apply sumn_zero. intros h Hh. cbn [Nat.add]. rewrite (Hrows eta k (cK c + h)%nat Hk) by lia.
      unfold eye, delta. destruct (Nat.eqb_spec k (cK c + h)); [lia|ring]. }
    assert (E3 : sumn 1 (fun h => invt eta 0%nat (0 + k)%nat (2 * cK c + h)%nat * lnps_vec (col_of s 0%nat 0%nat) h) = 0).
    { apply sumn_zero. intros h Hh. cbn [Nat.add]. rewrite (Hrows eta k (2 * cK c + h)%nat Hk) by lia.
      unfold eye, delta. destruct (Nat.eqb_spec k (2 * cK c + h)); [lia|ring]. }
    rewrite E1, E2, E3. ring.
  Qed.

  (** the component "(0,0) coefficient of level k" of vorticity / divergence *)
  Definition P_vort (k : nat) (s : @State F) : F := s_vort s k 0%nat 0%nat.
  Definition P_div (k : nat) (s : @State F) : F := s_div s k 0%nat 0%nat.

  Lemma Obs_P_vort lev :
    hr g <> 0 -> (2 <= L)%nat -> (0 < R)%nat ->
    Observable (vo := StateSp) E (implicit_terms_full g c) Gi (fun _ => True) (P_vort lev) 0.
  Proof.
    intros Hr HL HR0. split; try reflexivity. intros x _. exact (proj1 (pe_explicit_means_vanish x lev Hr HL HR0)).
  Qed.

  Lemma Obs_P_div lev :
    hr g <> 0 -> (2 <= L)%nat -> (0 < R)%nat -> pe_H_inv0_div_rows -> (lev < cK c)%nat ->
    Observable (vo := StateSp) E (implicit_terms_full g c) Gi (fun _ => True) (P_div lev) 0.
  Proof.
    intros Hr HL HR0 Hrows Hlev. split; try reflexivity.
    - intros x _. exact (proj2 (pe_explicit_means_vanish x lev Hr HL HR0)).
    - intros x _. exact (proj2 (pe_implicit_means_vanish x lev Hr)).
    - intros eta x _. exact (pe_inverse_div_mean eta x lev Hrows Hlev).
  Qed.

  (** along every trajectory of a consistent step term (every Runge-Kutta-type integrator), with filters that
      keep the means, after every number of steps, from ANY initial state *)
  Theorem primeq_means_conserved (t : stepterm F) (cs : F) (filters : list (@State F -> @State F -> @State F)) lev :
    hr g <> 0 -> (2 <= L)%nat -> (0 < R)%nat ->
    consistent t cs ->
    (forall f, In f filters -> forall u un, P_vort lev (f u un) = P_vort lev un /\ P_div lev (f u un) = P_div lev un) ->
    forall k u,
      P_vort lev (iter k (with_filters (step_of (vo := StateSp) E (implicit_terms_full g c) Gi t) filters) u) = P_vort lev u /\
      (pe_H_inv0_div_rows -> (lev < cK c)%nat ->
       P_div lev (iter k (with_filters (step_of (vo := StateSp) E (implicit_terms_full g c) Gi t) filters) u) = P_div lev u).
  Proof.
    intros Hr HL HR0 Hc Hf k u.
    pose proof (fun P HP Hf' => proj2 (conserved_component (vo := StateSp) E (implicit_terms_full g c) Gi _ (InvSub_True _ _ _)
                                         P t cs filters HP Hc Hf' k u Logic.I)) as CK.
    split; [|intros Hrows Hlev]; apply CK.
    - now apply Obs_P_vort.
    - intros f Hin v vn _ _. split; [exact Logic.I|exact (proj1 (Hf f Hin v vn))].
    - now apply Obs_P_div.
    - intros f Hin v vn _ _. split; [exact Logic.I|exact (proj2 (Hf f Hin v vn))].
  Qed.
End PEInvariants.

(** The named hypotheses from more primitive facts:
    [pe_H_inv0_div_rows] from "the table at total wavenumber 0 is a right inverse of the assembled matrix";
    [pe_H_p_support] from "basis.p is the table built by the Legendre recurrence" (Thm/Legendre.v, Thm/SymmetryLegendre.v);
    [pe_H_deriv_mask] from "the recurrence weight a vanishes at l = |m|" (reference layout). *)
From Dino Require Import Gen.Legendre Model.Legendre Model.Symmetry Thm.Legendre Thm.Symmetry Thm.SymmetryLegendre.

Section PEDerived.
  Context {F : Type} {o : Ops F} {Fc : FieldC o}.
  Add Field FFif2 : (field_c : FieldTh o).
  Variable g : @HGrid F.
  Local Notation M := (hM g).
  Local Notation R := (hR g).
  Local Notation L := (hL g).
  Local Notation J := (hJ g).

  Definition pe_H_inv0_right_inverse (c : @PEcfg F) (invt : F -> nat -> @Mat F) : Prop :=
    forall eta i j, (i < 2 * cK c + 1)%nat -> (j < 2 * cK c + 1)%nat ->
      matmul (2 * cK c + 1) (implicit_matrix c eta (Deriv.lap_eig L (hr g) 0%nat)) (invt eta 0%nat) i j = eye i j.

  (** at eigenvalue 0 the divergence rows of the assembled matrix are unit rows: first block row [I 0 0] *)
  Lemma pe_matrix_div_row_l0 (c : @PEcfg F) (eta lam : F) i k :
    lam = 0 -> (i < cK c)%nat -> implicit_matrix c eta lam i k = delta i k.
  Proof.
    intros -> Hi. unfold implicit_matrix. cbv zeta.
    destruct (Nat.ltb_spec i (cK c)) as [_|H]; [|lia].
    destruct (Nat.ltb_spec k (cK c)) as [Hk|Hk]; [reflexivity|].
    unfold delta. destruct (Nat.eqb_spec i k) as [E|_]; [lia|].
    destruct (Nat.ltb_spec k (2 * cK c)); ring.
  Qed.

  Theorem pe_right_inverse_div_rows (c : @PEcfg F) (invt : F -> nat -> @Mat F) :
    hr g <> 0 -> (2 <= L)%nat -> pe_H_inv0_right_inverse c invt -> pe_H_inv0_div_rows c invt.
  Proof.
    intros Hr HL Hri eta i j Hi Hj.
    pose proof (Hri eta i j ltac:(lia) Hj) as E. unfold matmul in E.
    rewrite (sumn_ext (2 * cK c + 1) _ (fun k => delta i k * invt eta 0%nat k j)) in E.
    - rewrite sumn_delta_l in E by lia. exact E.
    - intros k _. rewrite (pe_matrix_div_row_l0 c eta _ i k); [reflexivity| |exact Hi].
      exact (lap_eig_0 L 1 L (hr g) Hr HL (le_n L) Nat.lt_0_1).
  Qed.

  (** an explicit right inverse for one level (used for the non-vacuity example): [[1 0 0] [-eta H 1 0] [-eta th 0 1]] *)
  Definition pe_inv0_one_level (c : @PEcfg F) (eta : F) : @Mat F :=
    fun i j => match i, j with
               | 0%nat, 0%nat => 1 | 1%nat, 1%nat => 1 | 2%nat, 2%nat => 1
               | 1%nat, 0%nat => - (eta * temp_weights c 0%nat 0%nat)
               | 2%nat, 0%nat => - (eta * thickness (cb c) 0%nat)
               | _, _ => 0
               end.
  Lemma pe_inv0_one_level_right_inverse (c : @PEcfg F) (eta lam : F) i j :
    cK c = 1%nat -> lam = 0 -> (i < 3)%nat -> (j < 3)%nat ->
    matmul 3 (implicit_matrix c eta lam) (pe_inv0_one_level c eta) i j = eye i j.
  Proof.
    intros HK -> Hi Hj. unfold matmul, implicit_matrix. cbv zeta. rewrite HK.
    destruct i as [|[|[|i]]]; [| | |lia]; (destruct j as [|[|[|j]]]; [| | |lia]);
      cbn [sumn pe_inv0_one_level Nat.ltb Nat.leb Nat.mul Nat.add Nat.sub eye delta Nat.eqb]; ring.
  Qed.

  (** the support of basis.p from the recurrence.  [pe_p_is_evaluate]: basis.p[a] is the row |m(a)| of
      legendre.evaluate (the table the code builds: C01 / C10 compare it with the implementation's basis.p) *)
  Definition pe_p_is_evaluate (sq : F -> F) (x y : nat -> F) : Prop :=
    forall a j l, (a < R)%nat -> (j < J)%nat -> (l < L)%nat ->
                  hp g a j l = leg_basis_p false sq J x y M L a j l.

  Lemma pe_mask_false a l : (l < L)%nat -> (Deriv.mask false M L a l = false <-> (l < dref_j a)%nat).
  Proof.
    intros Hl. unfold Deriv.mask. rewrite (proj1 (dlon_index_is_wavenumber M a)), (laxis_lt L l Hl).
    apply Nat.leb_gt.
  Qed.

  Theorem pe_H_p_support_from_recurrence (sq : F -> F) (x y : nat -> F) :
    pe_p_is_evaluate sq x y -> pe_H_p_support g.
  Proof.
    intros Hp i a j l _ Ha Hj Hl Hm. rewrite (Hp a j l Ha Hj Hl).
    rewrite (leg_basis_p_support sq J x y false M L a j l); [ring|].
    left. unfold sy_wav. now apply pe_mask_false.
  Qed.

  (** div_cos_lat / curl_cos_lat keep the mask, from the recurrence weight a = 0 at l = |m| *)
  Definition pe_H_a_diag : Prop :=
    forall a l, (a < R)%nat -> (l < L)%nat -> l = dref_j a -> ha g a l = 0.

  Lemma pe_dlon_masked (x : nat -> nat -> F) a l :
    pe_masked g x -> (a < R)%nat -> (l < L)%nat -> (l < dref_j a)%nat -> dlon_ref R x a l = 0.
  Proof.
    intros Hx Ha Hl Hm. rewrite dlon_ref_unfold by assumption. unfold dref_j in Hm.
    destruct (Nat.eqb_spec (a mod 2) 0) as [He|Ho]; cbn [negb].
    - destruct (Nat.eqb_spec a 0) as [E0|N0]; [ring|].
      rewrite (Hx (a - 1)%nat l); [ring|lia|exact Hl|]. apply pe_mask_false; [exact Hl|]. unfold dref_j. lia.
    - destruct (Nat.ltb_spec (S a) R) as [H1|H1]; [|ring].
      rewrite (Hx (S a) l); [ring|exact H1|exact Hl|]. apply pe_mask_false; [exact Hl|]. unfold dref_j. lia.
  Qed.

  Lemma pe_D2_masked (y : nat -> nat -> F) a l :
    pe_H_a_diag -> pe_masked g y -> (a < R)%nat -> (l < L)%nat -> (l < dref_j a)%nat ->
    D2 L L (ha g) (hb g) y a l = 0.
  Proof.
    intros Hd Hy Ha Hl Hm. rewrite D2_entries by assumption. unfold tri. cbv beta.
    assert (B : l <> 0%nat -> y a (l - 1)%nat = 0).
    { intros N0. apply Hy; [exact Ha|lia|]. apply pe_mask_false; lia. }
    assert (A : (S l < L)%nat -> ha g a (S l) = 0 \/ y a (S l) = 0).
    { intros H1. destruct (Nat.eq_dec (S l) (dref_j a)) as [E|E].
      - left. exact (Hd a (S l) Ha H1 E).
      - right. apply Hy; [exact Ha|exact H1|]. apply pe_mask_false; lia. }
    destruct (Nat.ltb_spec (S l) L) as [H1|H1]; destruct (Nat.eqb_spec l 0) as [E0|N0].
    - destruct (A H1) as [Z|Z]; rewrite Z; ring.
    - rewrite (B N0). destruct (A H1) as [Z|Z]; rewrite Z; ring.
    - ring.
    - rewrite (B N0). ring.
  Qed.

  Theorem pe_H_deriv_mask_from_weights : pe_H_a_diag -> pe_H_deriv_mask g.
  Proof.
    intros Hd x y Hx Hy. split; intros a l Ha Hl Hm; apply (pe_mask_false a l Hl) in Hm.
    - unfold divm, div_cos_lat, clip_if, d_dlon. cbn [fst snd].
      rewrite (pe_dlon_masked x a l Hx Ha Hl Hm), (pe_D2_masked y a l Hd Hy Ha Hl Hm).
      replace (0 + 0) with (0 : F) by ring. apply fdiv0.
    - unfold curlm, curl_cos_lat, clip_if, d_dlon. cbn [fst snd].
      rewrite (pe_dlon_masked y a l Hy Ha Hl Hm), (pe_D2_masked x a l Hd Hx Ha Hl Hm).
      replace (0 - 0) with (0 : F) by ring. apply fdiv0.
  Qed.

  (** the pattern theorems resting on the recurrence table, the weight property and the orography only *)
  Variable c : @PEcfg F.
  Variable grav : F.
  Variable orog : nat -> nat -> F.
  Variable invt : F -> nat -> @Mat F.
  Local Notation E := (explicit_terms_full g c grav orog).
  Local Notation Gi := (fun eta => implicit_inverse_full g c eta (invt eta)).

  Theorem pe_explicit_into_Supp_from_recurrence (sq : F -> F) (x y : nat -> F) (s : @State F) :
    pe_p_is_evaluate sq x y -> pe_H_a_diag -> pe_masked g orog -> StSupp g (E s).
  Proof.
    intros Hp Hd Ho. apply pe_explicit_into_Supp; [now apply (pe_H_p_support_from_recurrence sq x y)| |exact Ho].
    now apply pe_H_deriv_mask_from_weights.
  Qed.

  Theorem primeq_trajectory_in_subspace_from_recurrence (sq : F -> F) (x y : nat -> F)
          (t : stepterm F) (filters : list (@State F -> @State F -> @State F)) :
    pe_p_is_evaluate sq x y -> pe_H_a_diag -> pe_masked g orog ->
    (forall f, In f filters -> forall u un, StSupp g u -> StSupp g un -> StSupp g (f u un)) ->
    forall k u, StSupp g u ->
      StSupp g (iter k (with_filters (step_of (vo := StateSp) E (implicit_terms_full g c) Gi t) filters) u).
  Proof.
    intros Hp Hd Ho. apply primeq_trajectory_in_subspace; [now apply (pe_H_p_support_from_recurrence sq x y)| |exact Ho].
    now apply pe_H_deriv_mask_from_weights.
  Qed.

  Theorem primeq_leapfrog_trajectory_in_subspace_from_recurrence (sq : F -> F) (x y : nat -> F) (t : stepterm F)
          (filters : list (@State F * @State F -> @State F * @State F -> @State F * @State F)) :
    pe_p_is_evaluate sq x y -> pe_H_a_diag -> pe_masked g orog ->
    (forall f, In f filters -> forall u un, S2 (StSupp g) u -> S2 (StSupp g) un -> S2 (StSupp g) (f u un)) ->
    forall k u, S2 (StSupp g) u ->
      S2 (StSupp g) (iter k (with_filters (lf_step_of (vo := StateSp) E (implicit_terms_full g c) Gi t) filters) u).
  Proof.
    intros Hp Hd Ho. apply primeq_leapfrog_trajectory_in_subspace; [now apply (pe_H_p_support_from_recurrence sq x y)| |exact Ho].
    now apply pe_H_deriv_mask_from_weights.
  Qed.

  (** the divergence half of primeq_means_conserved resting on the inverse property only *)
  Theorem primeq_means_conserved_from_inverse (t : stepterm F) (cs : F) (filters : list (@State F -> @State F -> @State F)) lev :
    hr g <> 0 -> (2 <= L)%nat -> (0 < R)%nat ->
    consistent t cs ->
    (forall f, In f filters -> forall u un, P_vort lev (f u un) = P_vort lev un /\ P_div lev (f u un) = P_div lev un) ->
    pe_H_inv0_right_inverse c invt -> (lev < cK c)%nat ->
    forall k u,
      P_vort lev (iter k (with_filters (step_of (vo := StateSp) E (implicit_terms_full g c) Gi t) filters) u) = P_vort lev u /\
      P_div lev (iter k (with_filters (step_of (vo := StateSp) E (implicit_terms_full g c) Gi t) filters) u) = P_div lev u.
  Proof.
    intros Hr HL HR0 Hc Hf Hri Hlev k u.
    destruct (primeq_means_conserved g c grav orog invt t cs filters lev Hr HL HR0 Hc Hf k u) as [A B].
    split; [exact A|]. apply B; [|exact Hlev]. now apply pe_right_inverse_div_rows.
  Qed.
End PEDerived.

(** leapfrog: a component that sees F = 0, G = 0, G_inv = id and has the same value m on both snapshots keeps the
    value m on both snapshots along every trajectory of semi_implicit_leapfrog (any dt, alpha) with filters that keep it *)
Section LFMean.
  Context {F : Type} {o : Ops F} {Fc : FieldC o}.
  Add Field FFif3 : (field_c : FieldTh o).
  Context {V : Type} {vo : VSp F V} (Fx G : V -> V) (Ginv : F -> V -> V) (P : V -> F).
  Hypothesis HP : Observable Fx G Ginv (fun _ => True) P 0.

  Definition Pm (m : F) (pc : V * V) : Prop := P (fst pc) = m /\ P (snd pc) = m.

  Theorem lf_mean_trajectory (dt alpha m : F) (filters : list (V * V -> V * V -> V * V)) :
    (forall f, In f filters -> forall u un, Pm m u -> Pm m un -> Pm m (f u un)) ->
    forall k u, Pm m u -> Pm m (iter k (with_filters (lf_step_of Fx G Ginv (leapfrog_term dt alpha)) filters) u).
  Proof.
    apply filtered_iter_preserves. intros pc [Hp Hc]. split; [exact Hc|].
    rewrite (lf_step_component Fx G Ginv _ (InvSub_True _ _ _) P 0 HP _ pc (conj Logic.I Logic.I)).
    rewrite leapfrog_scalar. cbn [env2]. rewrite Hp. ring.
  Qed.
End LFMean.

Section PELeapfrogMeans.
  Context {F : Type} {o : Ops F} {Fc : FieldC o}.
  Add Field FFif4 : (field_c : FieldTh o).
  Variables (g : @HGrid F) (c : @PEcfg F) (grav : F) (orog : nat -> nat -> F) (invt : F -> nat -> @Mat F).
  Local Notation E := (explicit_terms_full g c grav orog).
  Local Notation Gi := (fun eta => implicit_inverse_full g c eta (invt eta)).
  Local Notation lfstep dt alpha := (lf_step_of (vo := StateSp) E (implicit_terms_full g c) Gi (leapfrog_term dt alpha)).

  Theorem primeq_leapfrog_means_conserved (dt alpha : F) lev (mv md : F)
          (filters : list (@State F * @State F -> @State F * @State F -> @State F * @State F)) :
    hr g <> 0 -> (2 <= hL g)%nat -> (0 < hR g)%nat ->
    (forall k u, (forall f, In f filters -> forall v vn, Pm (P_vort lev) mv v -> Pm (P_vort lev) mv vn -> Pm (P_vort lev) mv (f v vn)) ->
                 Pm (P_vort lev) mv u -> Pm (P_vort lev) mv (iter k (with_filters (lfstep dt alpha) filters) u)) /\
    (pe_H_inv0_right_inverse g c invt -> (lev < cK c)%nat ->
     forall k u, (forall f, In f filters -> forall v vn, Pm (P_div lev) md v -> Pm (P_div lev) md vn -> Pm (P_div lev) md (f v vn)) ->
                 Pm (P_div lev) md u -> Pm (P_div lev) md (iter k (with_filters (lfstep dt alpha) filters) u)).
  Proof.
    intros Hr HL HR0. split.
    - intros k u Hf Hu.
      now apply (lf_mean_trajectory (vo := StateSp) _ _ _ _ (Obs_P_vort g c grav orog invt lev Hr HL HR0)).
    - intros Hri Hlev k u Hf Hu.
      now apply (lf_mean_trajectory (vo := StateSp) _ _ _ _
                   (Obs_P_div g c grav orog invt lev Hr HL HR0 (pe_right_inverse_div_rows g c invt Hr HL Hri) Hlev)).
  Qed.
End PELeapfrogMeans.
