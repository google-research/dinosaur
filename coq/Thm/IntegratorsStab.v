(** C06, stability part: |r(0,z)| <= 1 for every z with Re z <= 0, over the reals
    (complex numbers as pairs).  The step functions of Model/Integrators.v are
    instantiated at V = Cplx, F = 0, G = z., G_inv(., eta) = (1 - eta z)^-1 . *)
From Dino Require Import Base.Ops Base.Inst Gen.Tableaux Model.Integrators Thm.Integrators Thm.IntegratorsArk.
From Coq Require Import Reals Lra Qreals.
Local Open Scope R_scope.

Definition Cplx := (R * R)%type.
#[export] Instance CVOps : VOps R Cplx := {|
  vzero := (0, 0);
  vadd a b := (fst a + fst b, snd a + snd b);
  vscal c a := (c * fst a, c * snd a) |}.
Definition nsq (u : Cplx) : R := fst u * fst u + snd u * snd u.
Definition F0 (u : Cplx) : Cplx := (0, 0).
Definition Gz (z u : Cplx) : Cplx := (fst z * fst u - snd z * snd u, fst z * snd u + snd z * fst u).
Definition Dz (z : Cplx) (eta : R) : R :=
  (1 - eta * fst z) * (1 - eta * fst z) + (eta * snd z) * (eta * snd z).
(** u / (1 - eta z) *)
Definition Ginvz (z u : Cplx) (eta : R) : Cplx :=
  let wr := 1 - eta * fst z in let wi := - (eta * snd z) in
  ((fst u * wr + snd u * wi) / Dz z eta, (snd u * wr - fst u * wi) / Dz z eta).

(** the pairs are a module over R, and the zero test of the reals is exact *)
#[export] Instance Cplx_module : ModuleC ROps CVOps.
Proof.
  constructor.
  - intros [a b] [c d]. cbn. f_equal; ring.
  - intros [a b] [c d] [e f]. cbn. f_equal; ring.
  - intros [a b]. cbn. f_equal; ring.
  - intros c [a b] [e f]. cbn. f_equal; ring.
  - intros a b [e f]. cbn. f_equal; ring.
  - intros a b [e f]. cbn. f_equal; ring.
  - intros [a b]. cbn. f_equal; ring.
  - intros [a b]. cbn. f_equal; ring.
Qed.
Lemma R_nz_false (c : R) : @nz R ROps c = false -> c = 0.
Proof.
  unfold nz. rewrite Bool.negb_false_iff. cbn. unfold Reqb. now destruct (Req_EM_T c 0).
Qed.

Lemma Dz_ge_1 z eta : 0 <= eta -> fst z <= 0 -> 1 <= Dz z eta.
Proof.
  intros He Hx. unfold Dz.
  assert (0 <= eta * - fst z) by (apply Rmult_le_pos; lra).
  assert (0 <= (eta * snd z) * (eta * snd z)) by apply Rle_0_sqr.
  nra.
Qed.

Lemma Ginvz_inverse z u eta : Dz z eta <> 0 ->
  Ginvz z (vadd u (vscal (- eta) (Gz z u))) eta = u.
Proof.
  intros HD. destruct u as [a b], z as [x y]. unfold Ginvz, Gz; cbn [fst snd vadd vscal CVOps].
  unfold Dz in *; cbn [fst snd] in *. f_equal; field; exact HD.
Qed.

Lemma Ginvz_nsq z v eta : Dz z eta <> 0 -> nsq (Ginvz z v eta) = nsq v / Dz z eta.
Proof.
  intros HD. destruct v as [a b], z as [x y]. unfold Ginvz, nsq; cbn [fst snd].
  unfold Dz in *; cbn [fst snd] in *. field. exact HD.
Qed.

(** |1 + c1 z| <= |1 - c2 z| when c1 <= c2, c1 + c2 >= 0, Re z <= 0; hence
    u |-> (1 - c2 z)^-1 (u + c1 z u) is a contraction.  With F = 0 every scheme below
    is a composition of such steps. *)
Lemma theta_contract z u c1 c2 :
  c1 <= c2 -> 0 <= c1 + c2 -> fst z <= 0 ->
  nsq (Ginvz z (vadd u (vscal c1 (Gz z u))) c2) <= nsq u.
Proof.
  intros H12 Hs Hx.
  assert (Hc2 : 0 <= c2) by lra.
  pose proof (Dz_ge_1 z c2 Hc2 Hx) as HD.
  rewrite Ginvz_nsq by lra.
  apply (Rmult_le_reg_r (Dz z c2)); [lra|].
  unfold Rdiv. rewrite Rmult_assoc, Rinv_l, Rmult_1_r by lra.
  destruct u as [a b], z as [x y]. unfold nsq, Gz, Dz in *; cbn [fst snd vadd vscal CVOps] in *.
  assert (P1 : 0 <= (c2 - c1) * (c2 + c1)) by (apply Rmult_le_pos; lra).
  assert (P2 : 0 <= - x * (c1 + c2)) by (apply Rmult_le_pos; lra).
  assert (P3 : 0 <= a * a + b * b) by (pose proof (Rle_0_sqr a); pose proof (Rle_0_sqr b); unfold Rsqr in *; lra).
  assert (P4 : 0 <= x * x + y * y) by (pose proof (Rle_0_sqr x); pose proof (Rle_0_sqr y); unfold Rsqr in *; lra).
  pose proof (Rmult_le_pos _ _ P3 (Rmult_le_pos _ _ P4 P1)) as Q1.
  pose proof (Rmult_le_pos _ _ P3 P2) as Q2.
  match goal with |- ?L <= ?Rr =>
    replace Rr with (L + (2 * ((a * a + b * b) * (- x * (c1 + c2)))
                         + (a * a + b * b) * ((x * x + y * y) * ((c2 - c1) * (c2 + c1))))) by ring
  end.
  lra.
Qed.

Lemma ginv_contract z u eta : 0 <= eta -> fst z <= 0 -> nsq (Ginvz z u eta) <= nsq u.
Proof.
  intros He Hx. pose proof (theta_contract z u f0 eta) as H.
  rewrite vscal_0_l, vadd_0_r in H. apply H; cbn; lra.
Qed.

Lemma half_R : @half R ROps = / 2.
Proof. unfold half; cbn. lra. Qed.

Theorem A_stable_backward_euler z u dt :
  0 <= dt -> fst z <= 0 ->
  nsq (euler_step (vo := CVOps) F0 (Ginvz z) dt u) <= nsq u.
Proof.
  intros Hd Hx. rewrite (euler_reduces_to_implicit (vo := CVOps) vadd_0_r vscal_0_r). now apply ginv_contract.
Qed.

Fixpoint NonDec (l : list R) : Prop :=
  match l with
  | a0 :: ((a1 :: _) as l') => a0 <= a1 /\ NonDec l'
  | _ => True
  end.

Lemma ls_loop_stable z dt : 0 <= dt -> fst z <= 0 ->
  forall be ga al u, NonDec al ->
  nsq (ls_loop (o := ROps) (vo := CVOps) F0 (Gz z) (Ginvz z) dt al be ga (0, 0) u) <= nsq u.
Proof.
  intros Hd Hx. induction be as [|b be IH]; intros ga al u Hal.
  - cbn. apply Rle_refl.
  - destruct ga as [|g ga]; [cbn; apply Rle_refl|].
    destruct al as [|a0 [|a1 al]]; [cbn; apply Rle_refl|cbn; apply Rle_refl|].
    cbn [ls_loop]. destruct Hal as [H01 Hal]. unfold F0.
    change (0, 0) with (@vzero R Cplx CVOps). rewrite !(vadd_scal0_r (vo := CVOps) vadd_0_r vscal_0_r).
    eapply Rle_trans; [apply IH; exact Hal|].
    set (mu := half * dt * (a1 - a0)).
    assert (0 <= mu).
    { unfold mu. rewrite half_R.
      change (0 <= (/ 2 * dt) * (a1 - a0))%R.
      apply Rmult_le_pos; [apply Rmult_le_pos; lra|lra]. }
    change (nsq (Ginvz z (vadd u (vscal mu (Gz z u))) mu) <= nsq u). clearbody mu. apply theta_contract; lra.
Qed.

Theorem A_stable_cn_lowstorage_any z u dt (al be ga : list R) :
  0 <= dt -> fst z <= 0 -> NonDec al ->
  nsq (ls_step (o := ROps) (vo := CVOps) F0 (Gz z) (Ginvz z) dt al be ga u) <= nsq u.
Proof. intros. unfold ls_step. now apply ls_loop_stable. Qed.

Lemma nondec_Q2R (l : list Q) :
  nondecreasing (o := QOps) l = true -> NonDec (map Q2R l).
Proof.
  induction l as [|a0 l IH]; [cbn; auto|].
  destruct l as [|a1 l]; [cbn; auto|].
  intros H. change (nondecreasing (a0 :: a1 :: l)) with (fleb a0 a1 && nondecreasing (a1 :: l))%bool in H.
  apply andb_prop in H. destruct H as [H1 H2]. cbn [map NonDec]. split.
  - cbn in H1. apply Qle_bool_iff in H1. now apply Qle_Rle.
  - apply IH. exact H2.
Qed.

Lemma rk3_alphas_nondecreasing : nondecreasing (o := QOps) rk3_alphas = true.
Proof. vm_compute. reflexivity. Qed.
Lemma rk4_alphas_nondecreasing : nondecreasing (o := QOps) rk4_alphas = true.
Proof. vm_compute. reflexivity. Qed.

Theorem A_stable_cn_rk3 z u dt : 0 <= dt -> fst z <= 0 ->
  nsq (ls_step (o := ROps) (vo := CVOps) F0 (Gz z) (Ginvz z) dt
         (map Q2R rk3_alphas) (map Q2R rk3_betas) (map Q2R rk3_gammas) u) <= nsq u.
Proof. intros. apply A_stable_cn_lowstorage_any; auto. apply nondec_Q2R, rk3_alphas_nondecreasing. Qed.

Theorem A_stable_cn_rk4 z u dt : 0 <= dt -> fst z <= 0 ->
  nsq (ls_step (o := ROps) (vo := CVOps) F0 (Gz z) (Ginvz z) dt
         (map Q2R rk4_alphas) (map Q2R rk4_betas) (map Q2R rk4_gammas) u) <= nsq u.
Proof. intros. apply A_stable_cn_lowstorage_any; auto. apply nondec_Q2R, rk4_alphas_nondecreasing. Qed.

Theorem A_stable_cn_rk2 z u dt : 0 <= dt -> fst z <= 0 ->
  nsq (cn_rk2_step (o := ROps) (vo := CVOps) F0 (Gz z) (Ginvz z) dt u) <= nsq u.
Proof.
  intros Hd Hx. rewrite (cn_rk2_reduces_to_implicit (vo := CVOps) vadd_0_r vscal_0_r). unfold cn_substep.
  set (mu := fmul half dt).
  assert (0 <= mu) by (unfold mu; rewrite half_R; change (0 <= / 2 * dt); lra).
  apply theta_contract; lra.
Qed.

(** semi-implicit leapfrog, alpha >= 1/2: with F = 0 the future snapshot is
    r(z) * previous with r = (1 + 2 dt (1-alpha) z)/(1 - 2 dt alpha z) = rho^2 for
    both characteristic roots rho; |r| <= 1. *)
Theorem A_stable_leapfrog z prev cur dt alpha : 0 <= dt -> / 2 <= alpha -> fst z <= 0 ->
  nsq (snd (leapfrog_step (o := ROps) (vo := CVOps) F0 (Gz z) (Ginvz z) dt alpha (prev, cur))) <= nsq prev.
Proof.
  intros Hd Ha Hx. unfold leapfrog_step, F0. cbn [snd].
  match goal with |- nsq (Ginvz z _ ?e) <= _ => set (c2 := e) end.
  pose (c1 := 2 * dt * (1 - alpha)).
  match goal with |- nsq (Ginvz z ?x _) <= _ =>
    replace x with (vadd prev (vscal c1 (Gz z prev)))
      by (destruct prev; unfold Gz, c1, two; cbn; f_equal; ring)
  end.
  assert (E2 : c2 = 2 * dt * alpha) by (unfold c2, two; cbn; ring).
  clearbody c2. subst c2.
  assert (0 <= dt * (2 * alpha - 1)) by (apply Rmult_le_pos; lra).
  unfold c1. apply theta_contract; lra.
Qed.

Lemma leapfrog_default_alpha_ok : / 2 <= Q2R leapfrog_alpha_default.
Proof.
  assert (H : Qle_bool (1 # 2) leapfrog_alpha_default = true) by (vm_compute; reflexivity).
  apply Qle_bool_iff, Qle_Rle in H.
  replace (/ 2) with (Q2R (1 # 2)); [exact H|]. unfold Q2R; cbn. lra.
Qed.
