(** Proofs about Model/Attrs.v: the shape -> dimension-names table of an
    admissible coordinate system, its collisions outside admissibility, and the
    attrs round trip. *)
From Coq Require Import ZArith List Bool String.
Import ListNotations.
From Dino Require Import Base.Ops Base.Ord Model.Trees Model.Sigma Model.Attrs Thm.Trees.
Local Open Scope Z_scope.

(** the documented table (before the sample/time prefix) *)
Definition documented (K M1 M2 N1 N2 : Z) : table :=
  [ ([], []);
    ([K; M1; M2], d_level :: MODAL);
    ([K; N1; N2], d_level :: NODAL);
    ([N1; N2], NODAL);
    ([M1; M2], MODAL);
    ([1; N1; N2], d_surface :: NODAL);
    ([1; M1; M2], d_surface :: MODAL);
    ([1], [d_surface]) ].

Lemma admissible_inv K modal nodal :
  admissible K modal nodal = true ->
  exists M1 M2 N1 N2, modal = [M1; M2] /\ nodal = [N1; N2] /\ K <> 1 /\ nodal <> modal.
Proof.
  unfold admissible. rewrite !andb_true_iff, !negb_true_iff. intros [[[HK HN] LM] LN].
  destruct modal as [|M1 [|M2 [|]]]; try discriminate. destruct nodal as [|N1 [|N2 [|]]]; try discriminate.
  exists M1, M2, N1, N2. repeat split; [now apply Z.eqb_neq|now apply str_eqb_neq].
Qed.

(** the sample/time prefix is put in front of every shape and every name tuple *)
Definition pre_s (times samples : option Z) : shape :=
  (match samples with Some x => [x] | None => [] end) ++ (match times with Some x => [x] | None => [] end).
Definition pre_d (times samples : option Z) : list Z :=
  (match samples with Some _ => [d_sample] | None => [] end) ++ (match times with Some _ => [d_time] | None => [] end).

Lemma update_is_prefix times samples sd :
  update_shape_dims times samples false sd = (pre_s times samples ++ fst sd, pre_d times samples ++ snd sd).
Proof. destruct sd as [sh d], times, samples; cbn; now rewrite ?andb_false_r. Qed.

Lemma dget_prefixed times samples sh (t : table) :
  dget (pre_s times samples ++ sh) (map (update_shape_dims times samples false) t) =
  option_map (app (pre_d times samples)) (dget sh t).
Proof.
  induction t as [|[k v] t IH]; cbn [map]; [reflexivity|]. rewrite update_is_prefix. cbn.
  rewrite str_eqb_app. now destruct (str_eqb sh k).
Qed.

Lemma add_coords_cons K modal nodal dim vs r t :
  dim <> d_realization -> length vs = 1%nat -> vs <> [K] ->
  add_coords K modal nodal ((dim, vs) :: r) t =
  add_coords K modal nodal r
    (dset vs [dim] (dset (vs ++ nodal) (dim :: NODAL) (dset (vs ++ modal) (dim :: MODAL) t))).
Proof.
  intros Hd Hl Hv. cbn [add_coords].
  now rewrite (proj2 (Z.eqb_neq _ _) Hd), Hl, (proj2 (str_eqb_neq _ _) Hv).
Qed.

Lemma add_coords_nodup K modal nodal addl : forall t t',
  NoDup (map fst t) -> add_coords K modal nodal addl t = Some t' -> NoDup (map fst t').
Proof.
  induction addl as [|[dim vs] r IH]; intros t t' ND; cbn [add_coords]; [now intros [= <-]|].
  destruct (Z.eqb dim d_realization); [now apply IH|].
  destruct (negb _); [discriminate|]. destruct (str_eqb vs [K]); [discriminate|].
  apply IH. now repeat apply dset_nodup.
Qed.
Lemma basic_table_nodup K modal nodal addl b : basic_table K modal nodal addl = Some b -> NoDup (map fst b).
Proof. apply add_coords_nodup. repeat apply dset_nodup. constructor. Qed.

(** without a realization coordinate the table is the basic one with the prefix
    on every row: the prefixed shapes stay distinct, so [dict] drops nothing *)
Lemma shape_to_dims_prefixed K modal nodal times samples addl :
  has_name d_realization addl = false ->
  shape_to_dims K modal nodal times samples addl =
  option_map (map (update_shape_dims times samples false)) (basic_table K modal nodal addl).
Proof.
  intro Hr. unfold shape_to_dims. rewrite Hr.
  destruct (basic_table K modal nodal addl) as [b|] eqn:Eb; [|reflexivity]. cbn [option_map]. f_equal.
  apply dict_of_nodup. rewrite map_map.
  rewrite (map_ext _ (fun sd => pre_s times samples ++ fst sd)) by (intro; now rewrite update_is_prefix).
  rewrite <- (map_map fst (app (pre_s times samples))).
  apply nodup_map_inj_in; [exact (basic_table_nodup _ _ _ _ _ Eb)|].
  intros x y _ _ E. now apply app_inv_head in E.
Qed.

Lemma with_surface_nil K : K <> 1 -> with_surface K [] = [(d_surface, [1])].
Proof. intro HK. unfold with_surface. now rewrite (proj2 (Z.eqb_neq _ _) HK). Qed.

Lemma dims_of_prefixed K modal nodal times samples addl addl' sh :
  with_surface K addl = addl' -> has_name d_realization addl' = false ->
  dims_of K modal nodal times samples addl (pre_s times samples ++ sh) =
  option_map (fun b => option_map (app (pre_d times samples)) (dget sh b)) (basic_table K modal nodal addl').
Proof.
  intros <- Hr. unfold dims_of, xarray_table. rewrite shape_to_dims_prefixed by exact Hr.
  destruct (basic_table _ _ _ _); cbn [option_map]; [now rewrite dget_prefixed|reflexivity].
Qed.

(** The eight shapes differ pairwise (by rank, by [K <> 1] or by nodal <> modal),
    so every assignment of [basic_table] appends a row, except that the surface
    coordinate overwrites the [surface_nodal_shape] row. *)
Lemma basic_documented K M1 M2 N1 N2 :
  K <> 1 -> [N1; N2] <> [M1; M2] ->
  basic_table K [M1; M2] [N1; N2] [(d_surface, [1])] = Some (documented K M1 M2 N1 N2).
Proof.
  intros HK HNM. unfold basic_table. rewrite add_coords_cons; [|discriminate|reflexivity|congruence]. cbn [add_coords app].
  repeat (rewrite dset_nil || rewrite dset_cons_eq || rewrite dset_cons_neq by congruence).
  reflexivity.
Qed.

Theorem xarray_table_documented K modal nodal times samples :
  admissible K modal nodal = true ->
  exists M1 M2 N1 N2, modal = [M1; M2] /\ nodal = [N1; N2] /\
  xarray_table K modal nodal times samples [] =
    Some (map (update_shape_dims times samples false) (documented K M1 M2 N1 N2)).
Proof.
  intro A. destruct (admissible_inv _ _ _ A) as (M1 & M2 & N1 & N2 & -> & -> & HK & HNM).
  exists M1, M2, N1, N2. split; [reflexivity|split; [reflexivity|]].
  unfold xarray_table. rewrite (with_surface_nil K HK), shape_to_dims_prefixed by reflexivity.
  now rewrite basic_documented.
Qed.

Lemma dget_notin {V} k (d : list (str * V)) : ~ In k (map fst d) -> dget k d = None.
Proof. intro N. destruct (dget k d) eqn:E; [|reflexivity]. destruct N. apply dget_keys. congruence. Qed.

(** For an admissible coordinate system the eight documented roles have
    pairwise different shapes, every role's shape is assigned exactly its
    documented dimension names (after the sample/time prefix), names and shape
    have the same rank, and no other shape is accepted. *)
Theorem dims_inference_injective K modal nodal times samples :
  admissible K modal nodal = true ->
  exists M1 M2 N1 N2, modal = [M1; M2] /\ nodal = [N1; N2] /\
    let doc := documented K M1 M2 N1 N2 in
    NoDup (map fst doc) /\
    (forall sh d, In (sh, d) doc ->
       dims_of K modal nodal times samples [] (pre_s times samples ++ sh) = Some (Some (pre_d times samples ++ d)) /\
       length d = length sh) /\
    (forall sh dd, dims_of K modal nodal times samples [] sh = Some (Some dd) ->
       exists sh0 d0, In (sh0, d0) doc /\ sh = pre_s times samples ++ sh0 /\ dd = pre_d times samples ++ d0).
Proof.
  intro A. destruct (admissible_inv _ _ _ A) as (M1 & M2 & N1 & N2 & -> & -> & HK & HNM).
  exists M1, M2, N1, N2. split; [reflexivity|split; [reflexivity|]]. cbv zeta.
  pose proof (basic_documented K M1 M2 N1 N2 HK HNM) as B.
  pose proof (basic_table_nodup _ _ _ _ _ B) as ND.
  split; [exact ND|split].
  - intros sh d Hi. split.
    + rewrite (dims_of_prefixed _ _ _ _ _ _ _ _ (with_surface_nil K HK) eq_refl), B. cbn [option_map].
      now rewrite (In_dget _ _ _ ND Hi).
    + cbn in Hi. repeat (destruct Hi as [Hi|Hi]; [injection Hi as <- <-; reflexivity|]). contradiction.
  - intros sh dd H. unfold dims_of, xarray_table in H.
    rewrite (with_surface_nil K HK), shape_to_dims_prefixed, B in H by reflexivity.
    assert (G : In (sh, dd) (map (update_shape_dims times samples false) (documented K M1 M2 N1 N2)))
      by (apply dget_In; cbn [option_map] in H; congruence).
    apply in_map_iff in G as ([sh0 d0] & E & Hi).
    rewrite update_is_prefix in E. injection E as <- <-. now exists sh0, d0.
Qed.

(** one layer: a 3-d nodal field (1, lon, lat) is given the two names (lon, lat)
    (the surface_nodal_shape entry overwrites the level entry and no surface
    coordinate is added), so the dataset cannot be built *)
Theorem dims_one_layer_refuted M1 M2 N1 N2 times samples :
  dims_of 1 [M1; M2] [N1; N2] times samples [] (pre_s times samples ++ [1; N1; N2])
  = Some (Some (pre_d times samples ++ NODAL)).
Proof.
  rewrite (dims_of_prefixed 1 _ _ _ _ [] [] _ eq_refl eq_refl).
  unfold basic_table. cbn [add_coords option_map]. now rewrite dget_dset_same.
Qed.

(** equal nodal and modal shapes: a 2-d field is labelled as modal while 3-d
    fields of the same horizontal shape are labelled as nodal *)
Theorem dims_nodal_eq_modal_refuted K N1 N2 times samples :
  K <> 1 ->
  dims_of K [N1; N2] [N1; N2] times samples [] (pre_s times samples ++ [N1; N2])
    = Some (Some (pre_d times samples ++ MODAL)) /\
  dims_of K [N1; N2] [N1; N2] times samples [] (pre_s times samples ++ [K; N1; N2])
    = Some (Some (pre_d times samples ++ d_level :: NODAL)) /\
  dims_of K [N1; N2] [N1; N2] times samples [] (pre_s times samples ++ [1; N1; N2])
    = Some (Some (pre_d times samples ++ d_surface :: NODAL)).
Proof.
  intro HK. rewrite !(dims_of_prefixed _ _ _ _ _ _ _ _ (with_surface_nil K HK) eq_refl).
  unfold basic_table. rewrite add_coords_cons; [|discriminate|reflexivity|congruence]. cbn [add_coords app option_map].
  (* the last assignment to a shape wins *)
  repeat split; now rewrite !dget_dset_other, dget_dset_same by congruence.
Qed.

(** the attribute keys and class names of the model, spelled out *)
Definition spell (x : string) : str := map (fun a => Z.of_N (Ascii.N_of_ascii a)) (list_ascii_of_string x).
Lemma keys_spelled :
  k_lw = spell "longitude_wavenumbers" /\
  k_tw = spell "total_wavenumbers" /\
  k_lon_nodes = spell "longitude_nodes" /\
  k_lat_nodes = spell "latitude_nodes" /\
  k_spacing = spell "latitude_spacing" /\
  k_offset = spell "longitude_offset" /\
  k_radius = spell "radius" /\
  k_impl = spell "spherical_harmonics_impl" /\
  k_mesh = spell "spmd_mesh" /\
  k_htype = spell "horizontal_grid_type" /\
  k_vtype = spell "vertical_grid_type" /\
  k_boundaries = spell "boundaries" /\
  k_layers = spell "layers" /\
  k_centers = spell "centers" /\
  n_grid = spell "Grid" /\
  n_sigma = spell "SigmaCoordinates" /\
  n_layer = spell "LayerCoordinates" /\
  n_pressure = spell "PressureCoordinates" /\
  default_impl = spell "RealSphericalHarmonics" /\
  spacings = [spell "gauss"; spell "equiangular"; spell "equiangular_with_poles"].
Proof. repeat split; reflexivity. Qed.

Section AttrsThm.
  Context {F : Type} {o : Ops F}.
  Variables tol0 tol1 : F.

  (** the attribute dictionary holds every field under its own key (a finite
      fact about the literal keys) *)
  Lemma cs_asdict_fields (g : grid) (v : vertical) :
    exists a : @attrs F, cs_asdict g v = Some a /\
      get_str k_htype a = Some n_grid /\ get_int k_lw a = Some (g_lw g) /\ get_int k_tw a = Some (g_tw g) /\
      get_int k_lon_nodes a = Some (g_lon_nodes g) /\ get_int k_lat_nodes a = Some (g_lat_nodes g) /\
      get_str k_spacing a = Some (g_spacing g) /\ get_num k_offset a = Some (g_offset g) /\
      get_num k_radius a = Some (g_radius g) /\ dget k_impl a = Some (AStr (g_impl g)) /\
      dget k_mesh a = Some (AStr (match g_mesh g with Some m => m | None => [] end)) /\
      dget k_vtype a = Some (AStr (vertical_name v)) /\
      match v with
      | VSigma b => get_list k_boundaries a = Some b
      | VLayer n => get_int k_layers a = Some n
      | VPressure c => get_list k_centers a = Some c
      end.
  Proof. destruct g, v; eexists; (split; [reflexivity|]); vm_compute; repeat split; reflexivity. Qed.

  (** [coordinate_system_from_attrs(cs.asdict())] rebuilds every field that
      defines the discretisation - wavenumbers, node counts, latitude spacing,
      longitude offset, radius, and the vertical coordinate with its
      boundaries / layers / centers - and drops exactly the implementation
      class (reset to the default) and the mesh (reset to None). *)
  Theorem attrs_roundtrip (g : grid) (v : vertical) :
    grid_ok g = true -> vertical_ok tol0 tol1 v = true ->
    exists a, cs_asdict g v = Some a /\
              from_attrs tol0 tol1 a = Some (restored g, Some v).
  Proof.
    intros Hg Hv.
    destruct (cs_asdict_fields g v) as (a & Ea & E0 & E1 & E2 & E3 & E4 & E5 & E6 & E7 & E8 & E9 & EV & EB).
    exists a. split; [exact Ea|].
    unfold from_attrs. rewrite E0, E1, E2, E3, E4, E5, E6, E7, E8, E9, EV, str_eqb_refl.
    unfold grid_ok in *. cbn [g_spacing negb]. rewrite Hg. cbn [negb].
    destruct v; cbn -[vertical_ok]; rewrite EB; cbn [option_map]; now rewrite Hv.
  Qed.
End AttrsThm.
