(** Theorems about the primitive-equation column model (property C04):
    the total tendency does not depend on the reference-temperature split.
    Every statement is for an arbitrary field, arbitrary K, arbitrary levels. *)
From Dino Require Import Base.Ops Base.Field Base.Sums Base.Ord Model.Sigma Thm.Sigma Model.Implicit Model.PrimEq.
Local Open Scope F_scope.

Section Algebra.
  Context {F : Type} {o : Ops F} {Fc : FieldC o}.
  Add Field FFp : (field_c : FieldTh o).
  Hypothesis two_nz : two <> 0.

  (** the vertical building blocks are linear on the K levels ([column_linear], Thm/Sigma.v) *)
  Lemma cumsum_dot_scal K a (x : nat -> F) j :
    cumsum_dot K (fun k => a * x k) j = a * cumsum_dot K x j.
  Proof. now apply (clin_scal K _ (cumsum_dot_linear K)). Qed.

  Variable c : @PEcfg F.

  Lemma cumint_linear : column_linear (cK c) (cumint c).
  Proof.
    intros z x y a b j H. unfold cumint, cum_sigma_integral, cumsum_m. apply cumsum_dot_linear.
    intros k Hk. unfold xdsigma. rewrite (H k Hk). ring.
  Qed.
  Lemma sigma_dot_linear : column_linear (cK c) (sigma_dot c).
  Proof. intros z x y a b r H. unfold sigma_dot. cbv zeta. rewrite !(cumint_linear z x y a b) by exact H. ring. Qed.
  Lemma g_part_linear : column_linear (cK c) (g_part c).
  Proof.
    intros z x y a b n H. unfold g_part. cbv zeta. rewrite !fdiv_mul, !(cumint_linear z x y a b) by exact H.
    destruct (Nat.eqb n 0); ring.
  Qed.

  Lemma cumint_ext (g h : nat -> F) j :
    (forall k, (k < cK c)%nat -> g k = h k) -> cumint c g j = cumint c h j.
  Proof.
    intros H. unfold cumint, cum_sigma_integral, cumsum_m. apply cumsum_dot_ext.
    intros k Hk. unfold xdsigma. now rewrite H.
  Qed.
  Lemma sigma_dot_ext (g h : nat -> F) r :
    (forall k, (k < cK c)%nat -> g k = h k) -> sigma_dot c g r = sigma_dot c h r.
  Proof. intros H. unfold sigma_dot. cbv zeta. now rewrite !(cumint_ext g h) by exact H. Qed.
  Lemma g_part_ext (g h : nat -> F) n :
    (forall k, (k < cK c)%nat -> g k = h k) -> g_part c g n = g_part c h n.
  Proof. intros H. unfold g_part. cbv zeta. now rewrite !(cumint_ext g h) by exact H. Qed.

  (** centred vertical advection with zero boundary values, in closed form *)
  Definition adv_term (w xx : nat -> F) (n : nat) : F :=
    if Nat.ltb (S n) (cK c) then w n * centered_difference (cb c) xx n else 0.
  Lemma vertical_tendency_closed (w xx : nat -> F) n :
    (n < cK c)%nat ->
    vertical_tendency c w xx n
    = (- half) * (adv_term w xx n + (if Nat.eqb n 0 then 0 else adv_term w xx (n - 1))).
  Proof.
    intros Hn. unfold vertical_tendency, centered_vertical_advection, adv_term. cbv zeta.
    f_equal. f_equal.
    - destruct (Nat.ltb_spec (S n) (cK c)).
      + now rewrite !pad_tb_mid by lia.
      + assert (S n = cK c) as -> by lia. rewrite !pad_tb_K by lia. ring.
    - destruct n as [|n].
      + cbn [Nat.eqb]. rewrite !pad_tb_0. ring.
      + cbn [Nat.eqb]. rewrite !pad_tb_mid by lia.
        replace (S n - 1)%nat with n by lia.
        destruct (Nat.ltb_spec (S n) (cK c)); [reflexivity|lia].
  Qed.

  Lemma centered_difference_add (x y : nat -> F) k :
    centered_difference (cb c) (fun j => x j + y j) k
    = centered_difference (cb c) x k + centered_difference (cb c) y k.
  Proof. unfold centered_difference. ring. Qed.

  Lemma adv_term_add_x (w x y : nat -> F) n :
    adv_term w (fun j => x j + y j) n = adv_term w x n + adv_term w y n.
  Proof. unfold adv_term. rewrite centered_difference_add. destruct (Nat.ltb (S n) (cK c)); ring. Qed.
  Lemma adv_term_add_w (w1 w2 x : nat -> F) n :
    adv_term (fun j => w1 j + w2 j) x n = adv_term w1 x n + adv_term w2 x n.
  Proof. unfold adv_term. destruct (Nat.ltb (S n) (cK c)); ring. Qed.
  Lemma adv_term_ext (w1 w2 x1 x2 : nat -> F) :
    (forall k, (S k < cK c)%nat -> w1 k = w2 k) -> (forall k, (k < cK c)%nat -> x1 k = x2 k) ->
    forall n, adv_term w1 x1 n = adv_term w2 x2 n.
  Proof.
    intros Hw Hx n. unfold adv_term, centered_difference.
    destruct (Nat.ltb_spec (S n) (cK c)); [|reflexivity]. now rewrite Hw, !Hx by lia.
  Qed.
  Lemma adv_term_const (w x : nat -> F) :
    (forall k, (k < cK c)%nat -> x k = x 0%nat) -> forall n, adv_term w x n = 0.
  Proof.
    intros Hx n. unfold adv_term, centered_difference.
    destruct (Nat.ltb_spec (S n) (cK c)); [|reflexivity]. rewrite (Hx (S n)), (Hx n) by lia. ring.
  Qed.

  Lemma vertical_tendency_add_x (w x y : nat -> F) n :
    (n < cK c)%nat ->
    vertical_tendency c w (fun j => x j + y j) n = vertical_tendency c w x n + vertical_tendency c w y n.
  Proof. intros Hn. rewrite !vertical_tendency_closed, !adv_term_add_x by exact Hn. destruct (Nat.eqb n 0); ring. Qed.
  Lemma vertical_tendency_add_w (w1 w2 x : nat -> F) n :
    (n < cK c)%nat ->
    vertical_tendency c (fun j => w1 j + w2 j) x n = vertical_tendency c w1 x n + vertical_tendency c w2 x n.
  Proof. intros Hn. rewrite !vertical_tendency_closed, !adv_term_add_w by exact Hn. destruct (Nat.eqb n 0); ring. Qed.
  Lemma vertical_tendency_ext (w1 w2 x1 x2 : nat -> F) n :
    (n < cK c)%nat ->
    (forall k, (S k < cK c)%nat -> w1 k = w2 k) -> (forall k, (k < cK c)%nat -> x1 k = x2 k) ->
    vertical_tendency c w1 x1 n = vertical_tendency c w2 x2 n.
  Proof.
    intros Hn Hw Hx. rewrite !vertical_tendency_closed by exact Hn.
    now rewrite !(adv_term_ext w1 w2 x1 x2 Hw Hx).
  Qed.
  Lemma vertical_tendency_const (w x : nat -> F) n :
    (n < cK c)%nat -> (forall k, (k < cK c)%nat -> x k = x 0%nat) -> vertical_tendency c w x n = 0.
  Proof.
    intros Hn Hx. rewrite vertical_tendency_closed, !(adv_term_const w x Hx) by exact Hn.
    destruct (Nat.eqb n 0); ring.
  Qed.

  Let K := cK c.
  Let th := thickness (cb c).
  Hypothesis th2_nz : forall k, (S k < K)%nat -> th k + th (S k) <> 0.

  Lemma cumint_as_sum (d : nat -> F) r :
    cumint c d r = sumn K (fun s => tril r s * (th s * d s)).
  Proof.
    unfold cumint, cum_sigma_integral, cumsum_m, cumsum_dot, tril, xdsigma.
    apply sumn_ext. intros i Hi. fold th. ring.
  Qed.
  Lemma cumint_last (d : nat -> F) : (0 < K)%nat -> cumint c d (K - 1) = sumn K (fun s => th s * d s).
  Proof.
    intros HK. rewrite cumint_as_sum. apply sumn_ext. intros i Hi. unfold tril.
    destruct (Nat.leb_spec i (K - 1)); [|lia]. cbn. ring.
  Qed.

  Lemma roll_pos (a : Mat) r s : (0 < r)%nat -> (r < K)%nat -> roll1_zero K a r s = a (r - 1)%nat s.
  Proof.
    intros H0 H1. unfold roll1_zero. destruct (Nat.eqb_spec r 0); [lia|].
    f_equal. replace (r + K - 1)%nat with ((r - 1) + 1 * K)%nat by lia.
    rewrite Nat.mod_add by lia. apply Nat.mod_small. lia.
  Qed.

  (** [k0] of [temp_weights] (Model/Implicit.v) *)
  Definition k0 (r : nat) : F :=
    if Nat.ltb (S r) K then (cTref c (S r) - cTref c r) / (th r + th (S r)) else 0.

  Lemma adv_term_tref (w : nat -> F) n : (- half) * adv_term w (cTref c) n = - (k0 n * w n).
  Proof.
    unfold adv_term, k0. fold K. destruct (Nat.ltb_spec (S n) K) as [H|H]; [|ring].
    unfold centered_difference, c2c, centers, half. pose proof (th2_nz n H) as Hx. unfold th, thickness in Hx |- *.
    field. repeat split; try exact two_nz; try exact Hx;
      intro E; apply Hx; rewrite <- E; field; exact two_nz.
  Qed.

  (** a row of the matrix [k] of [temp_weights] applied to the divergence *)
  Lemma k_row_sum (d : nat -> F) r :
    (0 < K)%nat ->
    sumn K (fun s => k0 r * (tril r s - cumsum_seq th r) * (th s * d s)) = - (k0 r * sigma_dot c d r).
  Proof.
    intros HK. unfold sigma_dot. cbv zeta. fold K. rewrite (cumint_last d HK). rewrite cumint_as_sum.
    unfold sum_sigma. fold th.
    rewrite (sumn_ext K _ (fun s => k0 r * (tril r s * (th s * d s)) - k0 r * cumsum_seq th r * (th s * d s)))
      by (intros; ring).
    rewrite sumn_sub, !sumn_scal_l. ring.
  Qed.

  Theorem implicit_temperature_is_explicit_counterpart (d : nat -> F) r :
    (r < K)%nat ->
    temp_implicit_col c d r
    = vertical_tendency c (sigma_dot c d) (cTref c) r - ckappa c * (cTref c r * g_part c d r).
  Proof.
    intros Hr. assert (HK : (0 < K)%nat) by lia.
    unfold temp_implicit_col, temp_implicit_dense, matvec, neg_temp_weights, temp_weights. cbv zeta.
    fold K. fold th.
    rewrite vertical_tendency_closed by exact Hr.
    replace ((- half) * (adv_term (sigma_dot c d) (cTref c) r
                         + (if Nat.eqb r 0 then 0 else adv_term (sigma_dot c d) (cTref c) (r - 1))))
      with ((- half) * adv_term (sigma_dot c d) (cTref c) r
            + (if Nat.eqb r 0 then 0 else (- half) * adv_term (sigma_dot c d) (cTref c) (r - 1)))
      by (destruct (Nat.eqb r 0); ring).
    rewrite !adv_term_tref.
    unfold g_part. cbv zeta. fold K. fold th. rewrite !cumint_as_sum.
    destruct r as [|r].
    - (* top layer: no shifted terms *)
      cbn [Nat.eqb].
      rewrite (sumn_ext K _ (fun s =>
           - (ckappa c * cTref c 0%nat * alpha K (cls c) 0%nat * finv (th 0%nat)) * (tril 0%nat s * (th s * d s))
           + k0 0%nat * (tril 0%nat s - cumsum_seq th 0%nat) * (th s * d s))).
      2:{ intros s Hs. unfold roll1_zero. cbn [Nat.eqb]. fold (k0 0%nat). rewrite !fdiv_mul.
          unfold k0. fold K. rewrite !fdiv_mul. ring. }
      rewrite sumn_add, sumn_scal_l, k_row_sum by exact HK. rewrite !fdiv_mul. ring.
    - cbn [Nat.eqb]. replace (S r - 1)%nat with r by lia.
      rewrite (sumn_ext K _ (fun s =>
           - (ckappa c * cTref c (S r) * alpha K (cls c) (S r) * finv (th (S r))) * (tril (S r) s * (th s * d s))
           + - (ckappa c * cTref c (S r) * alpha K (cls c) r * finv (th (S r))) * (tril r s * (th s * d s))
           + k0 (S r) * (tril (S r) s - cumsum_seq th (S r)) * (th s * d s)
           + k0 r * (tril r s - cumsum_seq th r) * (th s * d s))).
      2:{ intros s Hs. rewrite !roll_pos by lia. replace (S r - 1)%nat with r by lia.
          unfold k0. fold K.
          destruct (Nat.ltb_spec (S (S r)) K), (Nat.ltb_spec (S r) K); try lia; rewrite !fdiv_mul; ring. }
      rewrite !sumn_add, !sumn_scal_l, !k_row_sum by exact HK. rewrite !fdiv_mul. ring.
  Qed.
End Algebra.

Section UniqueBranch.
  Context {F : Type} {o : Ops F} {Fc : FieldC o}.
  Add Field FFu : (field_c : FieldTh o).
  Hypothesis feqb_sound : forall x y : F, feqb x y = true -> x = y.
  Variable c : @PEcfg F.

  Lemma tref_uniform_spec :
    tref_nonuniform c = false -> forall k, (k < cK c)%nat -> cTref c k = cTref c 0%nat.
  Proof.
    unfold tref_nonuniform. intros H k Hk.
    destruct (feqb (cTref c k) (cTref c 0%nat)) eqn:E; [now apply feqb_sound|].
    exfalso. assert (X : existsb (fun k => negb (feqb (cTref c k) (cTref c 0%nat))) (seq 0 (cK c)) = true).
    { apply existsb_exists. exists k. split; [apply in_seq; lia|]. now rewrite E. }
    rewrite X in H. discriminate.
  Qed.

  (** when the code skips the branch, the skipped term is exactly zero *)
  Theorem unique_branch_zero (w : nat -> F) n :
    (n < cK c)%nat -> tref_nonuniform c = false -> vertical_tendency c w (cTref c) n = 0.
  Proof.
    intros Hn H. apply vertical_tendency_const; [exact Hn|]. now apply tref_uniform_spec.
  Qed.

  (** hence the tendency does not depend on the branch at all *)
  Theorem temp_vertical_tendency_branch_free (va : bool) (x : NCol) n :
    (n < cK c)%nat ->
    temp_vertical_tendency c va x n
    = (if va then vertical_tendency c (sigma_dot_full c x) (n_temp x) n else 0)
      + vertical_tendency c (sigma_dot_explicit c x) (cTref c) n.
  Proof.
    intros Hn. unfold temp_vertical_tendency. cbv zeta.
    destruct (tref_nonuniform c) eqn:E; [reflexivity|].
    rewrite (unique_branch_zero _ n Hn E). ring.
  Qed.

  (** the test is "some entry differs from the first", i.e. np.unique(...).size > 1 *)
  Hypothesis feqb_refl : forall x : F, feqb x x = true.
  Theorem tref_nonuniform_iff :
    tref_nonuniform c = true <-> exists k, (k < cK c)%nat /\ cTref c k <> cTref c 0%nat.
  Proof.
    unfold tref_nonuniform. rewrite existsb_exists. split.
    - intros (k & Hin & Hk). apply in_seq in Hin. exists k. split; [lia|].
      intro E. rewrite E, feqb_refl in Hk. discriminate.
    - intros (k & Hk & Hne). exists k. split; [apply in_seq; lia|].
      destruct (feqb (cTref c k) (cTref c 0%nat)) eqn:E; [|reflexivity].
      exfalso. apply Hne. now apply feqb_sound.
  Qed.
End UniqueBranch.

(** The temperature equation of one column, for the configuration's own reference profile:
    vertical + adiabatic explicit tendency plus the implicit H.divergence term, written with the
    absolute temperature [n_temp x + cTref c].  The adiabatic term enters through the profile [Tf]
    that multiplies the full omega/p, so that the dry and the moist classes are instances. *)
Section ColumnTemperature.
  Context {F : Type} {o : Ops F} {Fc : FieldC o}.
  Add Field FFct : (field_c : FieldTh o).
  Hypothesis two_nz : two <> 0.
  Hypothesis feqb_sound : forall x y : F, feqb x y = true -> x = y.
  Variable c : @PEcfg F.
  Hypothesis th2_nz : forall k, (S k < cK c)%nat -> thickness (cb c) k + thickness (cb c) (S k) <> 0.

  Lemma sdf_split (x : NCol) r :
    sigma_dot_full c x r = sigma_dot c (n_div x) r + sigma_dot_explicit c x r.
  Proof. exact (clin_add _ _ (sigma_dot_linear c) (n_div x) (g_explicit x) r). Qed.
  Lemma gp_split (x : NCol) n :
    g_part c (g_full_adiabatic x) n = g_part c (g_explicit x) n + g_part c (n_div x) n.
  Proof. exact (clin_add _ _ (g_part_linear c) (g_explicit x) (n_div x) n). Qed.

  Lemma vertical_tendency_sdf_split (x : NCol) (Tr : nat -> F) n :
    (n < cK c)%nat ->
    vertical_tendency c (sigma_dot_full c x) Tr n
    = vertical_tendency c (sigma_dot c (n_div x)) Tr n + vertical_tendency c (sigma_dot_explicit c x) Tr n.
  Proof.
    intros Hn. rewrite <- vertical_tendency_add_w by exact Hn.
    apply vertical_tendency_ext; [exact Hn| |reflexivity]. intros; apply sdf_split.
  Qed.

  Theorem temp_column_closed (va : bool) (Tf : nat -> F) (x : NCol) n :
    (n < cK c)%nat ->
    temp_vertical_tendency c va x n
    + ckappa c * (t_omega_over_sigma_sp c (cTref c) (g_explicit x) (u_dot_grad x) n
                  + t_omega_over_sigma_sp c Tf (g_full_adiabatic x) (u_dot_grad x) n)
    + temp_implicit_col c (n_div x) n
    = vertical_tendency c (sigma_dot_full c x) (if va then fun k => n_temp x k + cTref c k else cTref c) n
      + ckappa c * ((cTref c n + Tf n) * (u_dot_grad x n - g_part c (g_full_adiabatic x) n)).
  Proof.
    intros Hn.
    rewrite (temp_vertical_tendency_branch_free feqb_sound c va x n Hn).
    rewrite (implicit_temperature_is_explicit_counterpart two_nz c th2_nz (n_div x) n Hn).
    unfold t_omega_over_sigma_sp. rewrite gp_split.
    destruct va; [rewrite (vertical_tendency_add_x c _ (n_temp x) (cTref c) n Hn)|];
      rewrite (vertical_tendency_sdf_split x (cTref c) n Hn); ring.
  Qed.
End ColumnTemperature.

Section Invariance.
  Context {F : Type} {o : Ops F} {Fc : FieldC o}.
  Add Field FFq : (field_c : FieldTh o).
  Hypothesis two_nz : two <> 0.
  Hypothesis feqb_sound : forall x y : F, feqb x y = true -> x = y.

  (** [c] carries K, the levels, log(centers), R and kappa; its own profile is irrelevant *)
  Variable c : @PEcfg F.
  Hypothesis th2_nz : forall k, (S k < cK c)%nat -> thickness (cb c) k + thickness (cb c) (S k) <> 0.

  (** the tendency written with the absolute temperature [T] only *)
  Definition temp_closed (x : NCol) (T : nat -> F) (n : nat) : F :=
    vertical_tendency c (sigma_dot_full c x) T n
    + ckappa c * (T n * (u_dot_grad x n - g_part c (g_full_adiabatic x) n)).
  Definition temp_closed_moist (m : Moist) (x : NCol) (q T : nat -> F) (n : nat) : F :=
    vertical_tendency c (sigma_dot_full c x) T n
    + ckappa c * (T n * ((1 + (mRv m / cR c - 1) * q n) / (1 + (mCpv m / (cR c / ckappa c) - 1) * q n))
                  * (u_dot_grad x n - g_part c (g_full_adiabatic x) n)).

  (** [temp_column_closed] for the split T = Tref + (T - Tref): nothing but the profile of
      [with_tref c Tref] and the temperature of [with_temp x _] differs from [c], [x] *)
  Lemma tref_split_closed_gen (va : bool) (Tref T Tf : nat -> F) (x : NCol) n :
    (n < cK c)%nat ->
    let ci := with_tref c Tref in
    let xi := with_temp x (fun k => T k - Tref k) in
    temp_vertical_tendency ci va xi n
    + ckappa c * (t_omega_over_sigma_sp ci Tref (g_explicit xi) (u_dot_grad xi) n
                  + t_omega_over_sigma_sp ci Tf (g_full_adiabatic xi) (u_dot_grad xi) n)
    + temp_implicit_col ci (n_div x) n
    = vertical_tendency c (sigma_dot_full c x) (if va then T else Tref) n
      + ckappa c * ((Tref n + Tf n) * (u_dot_grad x n - g_part c (g_full_adiabatic x) n)).
  Proof.
    intros Hn ci xi.
    transitivity (vertical_tendency c (sigma_dot_full c x) (if va then fun k => (T k - Tref k) + Tref k else Tref) n
                  + ckappa c * ((Tref n + Tf n) * (u_dot_grad x n - g_part c (g_full_adiabatic x) n))).
    - exact (temp_column_closed two_nz feqb_sound ci th2_nz va Tf xi n Hn).
    - f_equal. destruct va; [|reflexivity]. apply vertical_tendency_ext; [exact Hn|reflexivity|]. intros; ring.
  Qed.

  Theorem tref_split_closed (Tref T : nat -> F) (x : NCol) n :
    (n < cK c)%nat ->
    let ci := with_tref c Tref in
    let xi := with_temp x (fun k => T k - Tref k) in
    temp_vertical_tendency ci true xi n + temp_adiabatic ci xi n + temp_implicit_col ci (n_div x) n
    = temp_closed x T n.
  Proof.
    intros Hn ci xi.
    etransitivity; [exact (tref_split_closed_gen true Tref T (fun k => T k - Tref k) x n Hn)|].
    unfold temp_closed. ring.
  Qed.

  (** The property, temperature equation (nodal layer): for any two reference
      profiles and the same absolute temperature, vertical + adiabatic explicit
      tendency plus the implicit H.divergence term is the same. *)
  Theorem tref_split_invariance (T1 T2 T : nat -> F) (x : NCol) n :
    (n < cK c)%nat ->
    let c1 := with_tref c T1 in let c2 := with_tref c T2 in
    let x1 := with_temp x (fun k => T k - T1 k) in let x2 := with_temp x (fun k => T k - T2 k) in
    temp_vertical_tendency c1 true x1 n + temp_adiabatic c1 x1 n + temp_implicit_col c1 (n_div x) n
    = temp_vertical_tendency c2 true x2 n + temp_adiabatic c2 x2 n + temp_implicit_col c2 (n_div x) n.
  Proof.
    intros Hn c1 c2 x1 x2.
    unfold c1, c2, x1, x2. now rewrite !tref_split_closed by exact Hn.
  Qed.

  (** moist classes: the virtual-temperature factors; T' A + Tref B with 1 + B = A multiplies the full omega/p *)
  Theorem tref_split_closed_moist (m : Moist) (Tref T q : nat -> F) (x : NCol) n :
    (n < cK c)%nat ->
    1 + (mCpv m / (cR c / ckappa c) - 1) * q n <> 0 ->
    let ci := with_tref c Tref in
    let xi := with_temp x (fun k => T k - Tref k) in
    temp_vertical_tendency ci true xi n + temp_adiabatic_moist ci m xi q n + temp_implicit_col ci (n_div x) n
    = temp_closed_moist m x q T n.
  Proof.
    intros Hn Hq ci xi.
    set (cc := mCpv m / (cR c / ckappa c)) in *. set (ee := mRv m / cR c).
    etransitivity;
      [exact (tref_split_closed_gen true Tref T
                (fun k => (T k - Tref k) * ((1 + (ee - 1) * q k) / (1 + (cc - 1) * q k))
                          + Tref k * (((ee - cc) * q k) / (1 + (cc - 1) * q k))) x n Hn)|].
    unfold temp_closed_moist. fold cc ee. field. exact Hq.
  Qed.

  Theorem tref_split_invariance_moist (m : Moist) (T1 T2 T q : nat -> F) (x : NCol) n :
    (n < cK c)%nat ->
    1 + (mCpv m / (cR c / ckappa c) - 1) * q n <> 0 ->
    let c1 := with_tref c T1 in let c2 := with_tref c T2 in
    let x1 := with_temp x (fun k => T k - T1 k) in let x2 := with_temp x (fun k => T k - T2 k) in
    temp_vertical_tendency c1 true x1 n + temp_adiabatic_moist c1 m x1 q n + temp_implicit_col c1 (n_div x) n
    = temp_vertical_tendency c2 true x2 n + temp_adiabatic_moist c2 m x2 q n + temp_implicit_col c2 (n_div x) n.
  Proof.
    intros Hn Hq c1 c2 x1 x2.
    unfold c1, c2, x1, x2. now rewrite !tref_split_closed_moist by assumption.
  Qed.

  (** include_vertical_advection = False: the sum still contains the advection of
      the reference profile by the full sigma_dot, so it is split dependent
      unless both profiles are level-uniform *)
  Theorem tref_split_closed_no_va (Tref T : nat -> F) (x : NCol) n :
    (n < cK c)%nat ->
    let ci := with_tref c Tref in
    let xi := with_temp x (fun k => T k - Tref k) in
    temp_vertical_tendency ci false xi n + temp_adiabatic ci xi n + temp_implicit_col ci (n_div x) n
    = vertical_tendency c (sigma_dot_full c x) Tref n
      + ckappa c * (T n * (u_dot_grad x n - g_part c (g_full_adiabatic x) n)).
  Proof.
    intros Hn ci xi.
    etransitivity; [exact (tref_split_closed_gen false Tref T (fun k => T k - Tref k) x n Hn)|]. cbv beta iota. ring.
  Qed.

  Theorem tref_split_invariance_no_va_uniform (T1 T2 T : nat -> F) (x : NCol) n :
    (n < cK c)%nat ->
    (forall k, (k < cK c)%nat -> T1 k = T1 0%nat) -> (forall k, (k < cK c)%nat -> T2 k = T2 0%nat) ->
    let c1 := with_tref c T1 in let c2 := with_tref c T2 in
    let x1 := with_temp x (fun k => T k - T1 k) in let x2 := with_temp x (fun k => T k - T2 k) in
    temp_vertical_tendency c1 false x1 n + temp_adiabatic c1 x1 n + temp_implicit_col c1 (n_div x) n
    = temp_vertical_tendency c2 false x2 n + temp_adiabatic c2 x2 n + temp_implicit_col c2 (n_div x) n.
  Proof.
    intros Hn U1 U2 c1 c2 x1 x2. unfold c1, c2, x1, x2.
    rewrite !tref_split_closed_no_va by exact Hn.
    rewrite !(vertical_tendency_const c _ _ n Hn) by assumption. reflexivity.
  Qed.

  (** log-surface-pressure equation: neither half depends on the profile at all *)
  Theorem lnps_invariance (T1 T2 T : nat -> F) (x : NCol) :
    let c1 := with_tref c T1 in let c2 := with_tref c T2 in
    let x1 := with_temp x (fun k => T k - T1 k) in let x2 := with_temp x (fun k => T k - T2 k) in
    log_pressure_tendency c1 x1 + lnps_implicit_col c1 (n_div x)
    = log_pressure_tendency c2 x2 + lnps_implicit_col c2 (n_div x).
  Proof. reflexivity. Qed.
End Invariance.

Section PressureGradient.
  Context {F : Type} {o : Ops F} {Fc : FieldC o}.
  Add Field FFr : (field_c : FieldTh o).
  Variable c : @PEcfg F.
  Hypothesis R_nz : cR c <> 0.

  (** [combined_u/v] read [rt] at level [k] only, as rt k * sec2 * grad(lnps); the rest involves neither
      the profile of the configuration nor the temperature of the column *)
  Lemma combined_u_rt (va : bool) (x : NCol) (rt : nat -> F) k :
    combined_u c va x rt k = combined_u c va x (fun _ => 0) k + rt k * (n_gx x * n_sec2 x).
  Proof. unfold combined_u. cbv zeta. ring. Qed.
  Lemma combined_v_rt (va : bool) (x : NCol) (rt : nat -> F) k :
    combined_v c va x rt k = combined_v c va x (fun _ => 0) k + rt k * (n_gy x * n_sec2 x).
  Proof. unfold combined_v. cbv zeta. ring. Qed.
  Lemma combined_u_split (va : bool) (Tref t : nat -> F) (x : NCol) (rt : nat -> F) k :
    combined_u (with_tref c Tref) va (with_temp x t) rt k
    = combined_u c va x (fun _ => 0) k + rt k * (n_gx x * n_sec2 x).
  Proof. exact (combined_u_rt va x rt k). Qed.
  Lemma combined_v_split (va : bool) (Tref t : nat -> F) (x : NCol) (rt : nat -> F) k :
    combined_v (with_tref c Tref) va (with_temp x t) rt k
    = combined_v c va x (fun _ => 0) k + rt k * (n_gy x * n_sec2 x).
  Proof. exact (combined_v_rt va x rt k). Qed.

  (** dry (q = 0) and moist classes: combined_u/v + (R T_ref + (Rv-R) T_ref q) sec2 grad(lnps)
      depends on the absolute temperature only *)
  Theorem effective_pgf_invariant (va : bool) (m : Moist) (T1 T2 T q : nat -> F) (x : NCol) k :
    let c1 := with_tref c T1 in let c2 := with_tref c T2 in
    let x1 := with_temp x (fun j => T j - T1 j) in let x2 := with_temp x (fun j => T j - T2 j) in
    effective_pgf_u c1 va m x1 (rt_moist c1 m x1 q) q k = effective_pgf_u c2 va m x2 (rt_moist c2 m x2 q) q k /\
    effective_pgf_v c1 va m x1 (rt_moist c1 m x1 q) q k = effective_pgf_v c2 va m x2 (rt_moist c2 m x2 q) q k.
  Proof.
    intros c1 c2 x1 x2. subst c1 c2 x1 x2. unfold effective_pgf_u, effective_pgf_v.
    rewrite !combined_u_split, !combined_v_split.
    unfold tref_pgf_u, tref_pgf_v, rt_moist, moisture_contribution.
    cbn [with_tref with_temp cR cTref n_temp n_sec2 n_gx n_gy].
    split; field; exact R_nz.
  Qed.

  Theorem effective_pgf_invariant_dry (va : bool) (m : Moist) (T1 T2 T : nat -> F) (x : NCol) k :
    let c1 := with_tref c T1 in let c2 := with_tref c T2 in
    let x1 := with_temp x (fun j => T j - T1 j) in let x2 := with_temp x (fun j => T j - T2 j) in
    let z := fun _ : nat => 0 in
    effective_pgf_u c1 va m x1 (rt_dry c1 x1) z k = effective_pgf_u c2 va m x2 (rt_dry c2 x2) z k /\
    effective_pgf_v c1 va m x1 (rt_dry c1 x1) z k = effective_pgf_v c2 va m x2 (rt_dry c2 x2) z k.
  Proof.
    intros c1 c2 x1 x2 z. subst c1 c2 x1 x2. unfold effective_pgf_u, effective_pgf_v.
    rewrite !combined_u_split, !combined_v_split.
    unfold tref_pgf_u, tref_pgf_v, rt_dry, z.
    cbn [with_tref with_temp cR cTref n_temp n_sec2 n_gx n_gy].
    split; ring.
  Qed.

  (** cloud class: the condensate loading multiplies T' only; the difference is
      exactly R (T1 - T2) (qc + qi) sec2 grad(lnps) *)
  Theorem effective_pgf_cloud_defect (va : bool) (m : Moist) (T1 T2 T q qc qi : nat -> F) (x : NCol) k :
    let c1 := with_tref c T1 in let c2 := with_tref c T2 in
    let x1 := with_temp x (fun j => T j - T1 j) in let x2 := with_temp x (fun j => T j - T2 j) in
    effective_pgf_u c1 va m x1 (rt_cloud c1 m x1 q qc qi) q k - effective_pgf_u c2 va m x2 (rt_cloud c2 m x2 q qc qi) q k
    = cR c * (T1 k - T2 k) * (qc k + qi k) * n_gx x * n_sec2 x.
  Proof.
    intros c1 c2 x1 x2. subst c1 c2 x1 x2. unfold effective_pgf_u.
    rewrite !combined_u_split.
    unfold tref_pgf_u, rt_cloud, moisture_contribution.
    cbn [with_tref with_temp cR cTref n_temp n_sec2 n_gx n_gy].
    field; exact R_nz.
  Qed.
End PressureGradient.

Section Linear.
  Context {F : Type} {o : Ops F} {Fc : FieldC o}.
  Add Field FFl : (field_c : FieldTh o).

  (** the first clause stands in for functional extensionality *)
  Definition linear {A B : Type} (L : (A -> F) -> B -> F) : Prop :=
    (forall x y, (forall a, x a = y a) -> forall b, L x b = L y b) /\
    (forall (t : F) x y b, L (fun a => x a + t * y a) b = L x b + t * L y b).
  Definition linear2 {A B : Type} (D : (A -> F) -> (A -> F) -> B -> F) : Prop :=
    (forall x1 y1 x2 y2, (forall a, x1 a = y1 a) -> (forall a, x2 a = y2 a) -> forall b, D x1 x2 b = D y1 y2 b) /\
    (forall (t : F) x1 y1 x2 y2 b,
        D (fun a => x1 a + t * y1 a) (fun a => x2 a + t * y2 a) b = D x1 x2 b + t * D y1 y2 b).

  Lemma lin_comb {A B} (L : (A -> F) -> B -> F) (HL : linear L) (x y z : A -> F) (t : F) :
    (forall a, x a = y a + t * z a) -> forall b, L x b = L y b + t * L z b.
  Proof. intros E b. destruct HL as [He Hl]. rewrite (He x _ E). apply Hl. Qed.
  Lemma lin_ext {A B} (L : (A -> F) -> B -> F) (HL : linear L) (x y : A -> F) :
    (forall a, x a = y a) -> forall b, L x b = L y b.
  Proof. destruct HL as [He _]. apply He. Qed.
  Lemma lin2_comb {A B} (D : (A -> F) -> (A -> F) -> B -> F) (HD : linear2 D) (x1 y1 z1 x2 y2 z2 : A -> F) (t : F) :
    (forall a, x1 a = y1 a + t * z1 a) -> (forall a, x2 a = y2 a + t * z2 a) ->
    forall b, D x1 x2 b = D y1 y2 b + t * D z1 z2 b.
  Proof. intros E1 E2 b. destruct HD as [He Hl]. rewrite (He x1 _ x2 _ E1 E2). apply Hl. Qed.

  Lemma self_add_zero (z : F) : z = z + 1 * z -> z = 0.
  Proof. intros E. transitivity (z + 1 * z - z); [ring|]. rewrite <- E. ring. Qed.
  Lemma lin_zero {A B} (L : (A -> F) -> B -> F) (HL : linear L) b : L (fun _ => 0) b = 0.
  Proof. apply self_add_zero. apply (lin_comb L HL). intros; ring. Qed.
  Lemma lin2_zero {A B} (D : (A -> F) -> (A -> F) -> B -> F) (HD : linear2 D) b :
    D (fun _ => 0) (fun _ => 0) b = 0.
  Proof. apply self_add_zero. apply (lin2_comb D HD); intros; ring. Qed.

  Lemma lin_scal {A B} (L : (A -> F) -> B -> F) (HL : linear L) (x z : A -> F) (t : F) :
    (forall a, x a = t * z a) -> forall b, L x b = t * L z b.
  Proof.
    intros E b. rewrite (lin_comb L HL x (fun _ => 0) z t) by (intros; cbv beta; rewrite E; ring).
    rewrite lin_zero by exact HL. ring.
  Qed.
  Lemma lin_comb2 {A B} (L : (A -> F) -> B -> F) (HL : linear L) (x z1 z2 : A -> F) (t1 t2 : F) :
    (forall a, x a = t1 * z1 a + t2 * z2 a) -> forall b, L x b = t1 * L z1 b + t2 * L z2 b.
  Proof.
    intros E b.
    rewrite (lin_comb L HL x (fun a => t1 * z1 a) z2 t2) by exact E.
    rewrite (lin_scal L HL (fun a => t1 * z1 a) z1 t1) by reflexivity. reflexivity.
  Qed.
  Lemma lin2_comb2 {A B} (D : (A -> F) -> (A -> F) -> B -> F) (HD : linear2 D)
        (x1 x2 y1 y2 z1 z2 : A -> F) (t1 t2 : F) :
    (forall a, x1 a = t1 * y1 a + t2 * z1 a) -> (forall a, x2 a = t1 * y2 a + t2 * z2 a) ->
    forall b, D x1 x2 b = t1 * D y1 y2 b + t2 * D z1 z2 b.
  Proof.
    intros E1 E2 b.
    rewrite (lin2_comb D HD x1 (fun a => t1 * y1 a) z1 x2 (fun a => t1 * y2 a) z2 t2 E1 E2 b).
    rewrite (lin2_comb D HD (fun a => t1 * y1 a) (fun _ => 0) y1 (fun a => t1 * y2 a) (fun _ => 0) y2 t1)
      by (intros; cbv beta; ring).
    rewrite lin2_zero by exact HD. ring.
  Qed.

  Lemma lin_add {A B} (L : (A -> F) -> B -> F) (HL : linear L) (x y : A -> F) b :
    L (fun v => x v + y v) b = L x b + L y b.
  Proof. rewrite (lin_comb L HL (fun v => x v + y v) x y 1) by (intros; ring). ring. Qed.
  Lemma lin2_scal_ext {A B} (D : (A -> F) -> (A -> F) -> B -> F) (HD : linear2 D) (k : F) (x y x' y' : A -> F) b :
    (forall v, x' v = k * x v) -> (forall v, y' v = k * y v) -> D x' y' b = k * D x y b.
  Proof.
    intros Hx Hy. rewrite (lin2_comb2 D HD x' y' x y x y k 0) by (intros; rewrite ?Hx, ?Hy; ring). ring.
  Qed.
  Lemma lin2_scal {A B} (D : (A -> F) -> (A -> F) -> B -> F) (HD : linear2 D) (k : F) (x y : A -> F) b :
    D (fun v => k * x v) (fun v => k * y v) b = k * D x y b.
  Proof. now apply lin2_scal_ext. Qed.

  (** A column operator (matrix over the levels) commutes with any linear horizontal
      operator acting level by level: H.(to_nodal div) = to_nodal(H.div) etc. *)
  Theorem column_commutes {A B} (L : (A -> F) -> B -> F) (HL : linear L)
          (K : nat) (M : Mat) (xs : nat -> A -> F) (r : nat) (b : B) :
    L (fun a => matvec K M (fun s => xs s a) r) b = matvec K M (fun s => L (xs s) b) r.
  Proof.
    unfold matvec. induction K as [|K IH]; cbn [sumn].
    - apply lin_zero, HL.
    - rewrite <- IH.
      rewrite (lin_comb L HL _ (fun a => sumn K (fun h => M r h * xs h a)) (xs K) (M r K)) by (intros; cbv beta; ring).
      reflexivity.
  Qed.
End Linear.

(** The modal layer: explicit + implicit tendencies of every coefficient, over abstract linear
    horizontal operators, written with the absolute temperature *)
Section Modal.
  Context {F : Type} {o : Ops F} {Fc : FieldC o}.
  Add Field FFm : (field_c : FieldTh o).
  Hypothesis two_nz : two <> 0.
  Hypothesis feqb_sound : forall x y : F, feqb x y = true -> x = y.
  Variables W P : Type.
  Variable toN : (W -> F) -> P -> F.
  Variable toM : (P -> F) -> W -> F.
  Variable divc curlc : (W -> F) -> (W -> F) -> W -> F.
  Variable lap clip : (W -> F) -> W -> F.
  Hypothesis toM_lin : linear toM.
  Hypothesis divc_lin : linear2 divc.
  Hypothesis curlc_lin : linear2 curlc.
  Hypothesis lap_lin : linear lap.
  Hypothesis clip_lin : linear clip.

  Variable c : @PEcfg F.
  Hypothesis th2_nz : forall k, (S k < cK c)%nat -> thickness (cb c) k + thickness (cb c) (S k) <> 0.
  Hypothesis R_nz : cR c <> 0.
  Variable grav : F.
  Variable m : @Moist F.

  (** the state: nodal columns [X] (their temperature entry is ignored), absolute
      nodal temperature [T], modal divergence [dv], modal absolute temperature [Tm],
      modal lnps, the modal coefficients [onem] of the constant field one, orography;
      moist classes: nodal specific humidity, its nodal cos_lat_grad, nodal laplacian(lnps) *)
  Variable X : P -> @NCol F.
  Variable T : nat -> P -> F.
  Variable dv : nat -> W -> F.
  Variable Tm : nat -> W -> F.
  Variable lnps onem orog : W -> F.
  Variable q gqx gqy : P -> nat -> F.
  Variable lapn : P -> F.
  Hypothesis div_nodal : forall p k, n_div (X p) k = toN (dv k) p.

  Definition Xs (Tref : nat -> F) (p : P) : @NCol F := with_temp (X p) (fun k => T k p - Tref k).
  Definition Tms (Tref : nat -> F) (k : nat) (w : W) : F := Tm k w - Tref k * onem w.

  (** admissible state: the divergence survives to_nodal -> to_modal -> clip *)
  Hypothesis H_roundtrip : forall s w, clip (toM (toN (dv s))) w = dv s w.
  (** the velocity handed to div_sec_lat has the state's divergence *)
  Hypothesis H_div_vel : forall r w,
      clip (divc (toM (fun p => n_u (X p) r * n_sec2 (X p))) (toM (fun p => n_v (X p) r * n_sec2 (X p)))) w
      = clip (toM (fun p => n_div (X p) r)) w.
  (** exactness of the horizontal operators on the (clipped) lnps of the state *)
  Hypothesis H_div_grad : forall w,
      clip (divc (toM (fun p => n_gx (X p) * n_sec2 (X p))) (toM (fun p => n_gy (X p) * n_sec2 (X p)))) w = lap lnps w.
  Hypothesis H_curl_grad : forall w,
      clip (curlc (toM (fun p => n_gx (X p) * n_sec2 (X p))) (toM (fun p => n_gy (X p) * n_sec2 (X p)))) w = 0.
  (** laplacian kills the (0,0)-only field produced by _add_constant *)
  Hypothesis lap_const : forall w, lap onem w = 0.
  (** Leibniz rule on the nodal side for q * grad(lnps) (alias-free product) *)
  Definition qgx (r : nat) (p : P) : F := q p r * (n_gx (X p) * n_sec2 (X p)).
  Definition qgy (r : nat) (p : P) : F := q p r * (n_gy (X p) * n_sec2 (X p)).
  Definition leib_div (r : nat) (p : P) : F :=
    q p r * lapn p + n_sec2 (X p) * (gqx p r * n_gx (X p) + gqy p r * n_gy (X p)).
  Definition leib_curl (r : nat) (p : P) : F :=
    n_sec2 (X p) * (n_gx (X p) * gqy p r - n_gy (X p) * gqx p r).
  Hypothesis H_leibniz : forall r w,
      clip (fun w' => divc (toM (qgx r)) (toM (qgy r)) w' - toM (leib_div r) w') w = 0.
  Hypothesis H_leibniz_curl : forall r w,
      clip (fun w' => curlc (toM (qgx r)) (toM (qgy r)) w' + toM (leib_curl r) w') w = 0.

  Lemma lin2_toM_comb (D : (W -> F) -> (W -> F) -> W -> F) (HD : linear2 D) (x1 y1 z1 x2 y2 z2 : P -> F) (t : F) :
    (forall p, x1 p = y1 p + t * z1 p) -> (forall p, x2 p = y2 p + t * z2 p) ->
    forall w, D (toM x1) (toM x2) w = D (toM y1) (toM y2) w + t * D (toM z1) (toM z2) w.
  Proof. intros E1 E2. apply (lin2_comb D HD); apply (lin_comb toM toM_lin); assumption. Qed.

  (** temperature equation: any nodal total [tot] whose column sum with the implicit term is
      [base] plus the horizontal-advection term of the variation (dry: [tref_split_closed],
      moist: [tref_split_closed_moist]) *)
  Theorem temperature_modal_closed_gen (Tref : nat -> F) (tot base : P -> F) r w :
    (forall p, tot p + temp_implicit_col (with_tref c Tref) (n_div (X p)) r
               = hsa_nodal (Xs Tref p) (n_temp (Xs Tref p)) r + base p) ->
    clip (fun w' => toM tot w'
                    + - divc (toM (fun p => hsa_mu (Xs Tref p) (n_temp (Xs Tref p)) r))
                             (toM (fun p => hsa_mv (Xs Tref p) (n_temp (Xs Tref p)) r)) w') w
    + temp_tendency_implicit W (with_tref c Tref) dv r w
    = clip (fun w' => toM (fun p => T r p * n_div (X p) r + base p) w'
                      + - divc (toM (fun p => n_u (X p) r * T r p * n_sec2 (X p)))
                               (toM (fun p => n_v (X p) r * T r p * n_sec2 (X p))) w') w.
  Proof.
    intros E. unfold temp_tendency_implicit, temp_implicit_col, temp_implicit_dense in E |- *.
    set (M := neg_temp_weights (with_tref c Tref)) in E |- *. change (cK (with_tref c Tref)) with (cK c) in E |- *.
    (* [tot], [hsa_mu], [hsa_mv] as the term that stays (with the full [T]) plus a scalar times a
       remainder: the shape [lin_comb] takes *)
    assert (EN : forall p, tot p = (T r p * n_div (X p) r + base p)
                                   + (- (1)) * (Tref r * n_div (X p) r + matvec (cK c) M (fun s => toN (dv s) p) r)).
    { intros p. specialize (E p). unfold matvec in E |- *.
      rewrite (sumn_ext (cK c) (fun h => M r h * toN (dv h) p) (fun h => M r h * n_div (X p) h))
        by (intros; now rewrite div_nodal).
      set (i := sumn (cK c) (fun h => M r h * n_div (X p) h)) in E |- *.
      transitivity (tot p + i - i); [ring|]. rewrite E. unfold hsa_nodal, Xs. cbn [with_temp n_temp n_div]. ring. }
    assert (EU : forall p, hsa_mu (Xs Tref p) (n_temp (Xs Tref p)) r
                   = n_u (X p) r * T r p * n_sec2 (X p) + (- Tref r) * (n_u (X p) r * n_sec2 (X p))).
    { intros p. unfold hsa_mu. cbn. ring. }
    assert (EV : forall p, hsa_mv (Xs Tref p) (n_temp (Xs Tref p)) r
                   = n_v (X p) r * T r p * n_sec2 (X p) + (- Tref r) * (n_v (X p) r * n_sec2 (X p))).
    { intros p. unfold hsa_mv. cbn. ring. }
    (* push through to_modal and div *)
    set (Z := fun w' => toM (fun p => Tref r * n_div (X p) r + matvec (cK c) M (fun s => toN (dv s) p) r) w').
    set (DV := fun w' => divc (toM (fun p => n_u (X p) r * n_sec2 (X p))) (toM (fun p => n_v (X p) r * n_sec2 (X p))) w').
    set (B := fun w' => toM (fun p => T r p * n_div (X p) r + base p) w'
                       + - divc (toM (fun p => n_u (X p) r * T r p * n_sec2 (X p)))
                                (toM (fun p => n_v (X p) r * T r p * n_sec2 (X p))) w').
    rewrite (lin_comb clip clip_lin _ B (fun w' => - Z w' + Tref r * DV w') (1)).
    2:{ intros w'. unfold B, Z, DV.
        rewrite (lin_comb toM toM_lin _ _ _ _ EN w').
        rewrite (lin2_toM_comb divc divc_lin _ _ _ _ _ _ (- Tref r) EU EV w').
        ring. }
    rewrite (lin_comb clip clip_lin (fun w' => - Z w' + Tref r * DV w') (fun w' => (- (1)) * Z w') DV (Tref r))
      by (intros; cbv beta; ring).
    rewrite (lin_scal clip clip_lin (fun w' => - (1) * Z w') Z (- (1))) by (intros; cbv beta; ring).
    unfold DV. rewrite H_div_vel.
    (* [clip Z] is the matrix applied to the round trip of [dv] (that is [dv], by [H_roundtrip])
       plus [Tref r] times the clipped divergence *)
    rewrite (lin_comb clip clip_lin Z (fun w' => matvec (cK c) M (fun s => toM (toN (dv s)) w') r)
               (toM (fun p => n_div (X p) r)) (Tref r)).
    2:{ intros w'. unfold Z.
        rewrite (lin_comb toM toM_lin (fun p => Tref r * n_div (X p) r + matvec (cK c) M (fun s => toN (dv s) p) r)
                   (fun p => matvec (cK c) M (fun s => toN (dv s) p) r)
                   (fun p => n_div (X p) r) (Tref r)) by (intros; cbv beta; ring).
        now rewrite (column_commutes toM toM_lin). }
    rewrite (column_commutes clip clip_lin (cK c) M (fun s w' => toM (toN (dv s)) w') r w).
    unfold matvec.
    rewrite (sumn_ext (cK c) (fun h => M r h * clip (fun w' => toM (toN (dv h)) w') w) (fun h => M r h * dv h w)).
    2:{ intros h _. f_equal. rewrite <- (H_roundtrip h w). apply (lin_ext clip clip_lin). reflexivity. }
    ring.
  Qed.

  Definition temp_base (r : nat) (w' : W) : F :=
    toM (fun p => T r p * n_div (X p) r + temp_closed c (X p) (fun k => T k p) r) w'
    + - divc (toM (fun p => n_u (X p) r * T r p * n_sec2 (X p))) (toM (fun p => n_v (X p) r * T r p * n_sec2 (X p))) w'.
  Definition temp_base_m (r : nat) (w' : W) : F :=
    toM (fun p => T r p * n_div (X p) r + temp_closed_moist c m (X p) (q p) (fun k => T k p) r) w'
    + - divc (toM (fun p => n_u (X p) r * T r p * n_sec2 (X p))) (toM (fun p => n_v (X p) r * T r p * n_sec2 (X p))) w'.

  Theorem temperature_modal_closed (Tref : nat -> F) r w :
    (r < cK c)%nat ->
    temp_tendency_explicit W P toM divc clip (with_tref c Tref) (Xs Tref) r w
    + temp_tendency_implicit W (with_tref c Tref) dv r w
    = clip (temp_base r) w.
  Proof.
    intros Hr. apply temperature_modal_closed_gen. intros p.
    rewrite <- (tref_split_closed two_nz feqb_sound c th2_nz Tref (fun k => T k p) (X p) r Hr).
    unfold temp_nodal_total, Xs. ring.
  Qed.

  Theorem temperature_modal_closed_moist (Tref : nat -> F) r w :
    (r < cK c)%nat ->
    (forall p, 1 + (mCpv m / (cR c / ckappa c) - 1) * q p r <> 0) ->
    temp_tendency_explicit_moist W P toM divc clip (with_tref c Tref) m (Xs Tref) q r w
    + temp_tendency_implicit W (with_tref c Tref) dv r w
    = clip (temp_base_m r) w.
  Proof.
    intros Hr Hq. apply temperature_modal_closed_gen. intros p.
    rewrite <- (tref_split_closed_moist two_nz feqb_sound c th2_nz m Tref (fun k => T k p) (q p) (X p) r Hr (Hq p)).
    unfold temp_nodal_total_moist, Xs. ring.
  Qed.

  (** the implicit divergence term, for any class *)
  Lemma div_implicit_closed (Tref : nat -> F) r w :
    div_tendency_implicit W lap (with_tref c Tref) (Tms Tref) lnps r w
    = - lap (fun w' => geo_diff false c (fun k => Tm k w') r) w - cR c * Tref r * lap lnps w.
  Proof.
    unfold div_tendency_implicit.
    set (gs := sumn (cK c) (fun k => geo_weights (cK c) (cR c) (cls c) r k * Tref k)).
    rewrite (lin_comb lap lap_lin
               (fun w' => div_implicit_potential (with_tref c Tref) false (fun k => Tms Tref k w') (lnps w') r)
               (fun w' => geo_diff false c (fun k => Tm k w') r + (- gs) * onem w')
               lnps (cR c * Tref r)).
    2:{ intros w'. unfold div_implicit_potential, geo_diff, geo_diff_dense, Tms, gs.
        cbn [with_tref cK cR cls cTref].
        rewrite (sumn_ext (cK c) (fun k => geo_weights (cK c) (cR c) (cls c) r k * (Tm k w' - Tref k * onem w'))
                   (fun k => geo_weights (cK c) (cR c) (cls c) r k * Tm k w'
                             - geo_weights (cK c) (cR c) (cls c) r k * Tref k * onem w')) by (intros; ring).
        rewrite sumn_sub, sumn_scal_r. ring. }
    rewrite (lin_comb lap lap_lin (fun w' => geo_diff false c (fun k => Tm k w') r + (- gs) * onem w')
               (fun w' => geo_diff false c (fun k => Tm k w') r) onem (- gs)) by reflexivity.
    rewrite lap_const. ring.
  Qed.

  (** the vector handed to div / curl and the rest of the explicit tendency, with the absolute temperature;
      dry and with-time classes, [_m] below: moist classes *)
  Definition cu_abs (p : P) (r : nat) : F := combined_u c true (X p) (fun k => cR c * T k p) r.
  Definition cv_abs (p : P) (r : nat) : F := combined_v c true (X p) (fun k => cR c * T k p) r.
  Definition div_base (r : nat) (w' : W) : F :=
    - divc (toM (fun p => cu_abs p r)) (toM (fun p => cv_abs p r)) w'
    + - lap (toM (fun p => kinetic (X p) r)) w' + - grav * lap orog w' + 0.
  Definition vort_base (r : nat) (w' : W) : F :=
    - curlc (toM (fun p => cu_abs p r)) (toM (fun p => cv_abs p r)) w' + 0.

  Lemma cu_split (Tref : nat -> F) p r :
    combined_u (with_tref c Tref) true (Xs Tref p) (rt_dry (with_tref c Tref) (Xs Tref p)) r
    = cu_abs p r + (- (cR c * Tref r)) * (n_gx (X p) * n_sec2 (X p)).
  Proof.
    unfold cu_abs, Xs. rewrite combined_u_split, (combined_u_rt c true (X p) (fun k => cR c * T k p)).
    unfold rt_dry. cbn [with_tref with_temp cR n_temp]. ring.
  Qed.
  Lemma cv_split (Tref : nat -> F) p r :
    combined_v (with_tref c Tref) true (Xs Tref p) (rt_dry (with_tref c Tref) (Xs Tref p)) r
    = cv_abs p r + (- (cR c * Tref r)) * (n_gy (X p) * n_sec2 (X p)).
  Proof.
    unfold cv_abs, Xs. rewrite combined_v_split, (combined_v_rt c true (X p) (fun k => cR c * T k p)).
    unfold rt_dry. cbn [with_tref with_temp cR n_temp]. ring.
  Qed.

  Theorem divergence_modal_closed (Tref : nat -> F) r w :
    div_tendency_explicit W P toM divc lap clip (with_tref c Tref) grav (Xs Tref)
                          (fun p => rt_dry (with_tref c Tref) (Xs Tref p)) orog (fun _ => 0) r w
    + div_tendency_implicit W lap (with_tref c Tref) (Tms Tref) lnps r w
    = clip (div_base r) w - lap (fun w' => geo_diff false c (fun k => Tm k w') r) w.
  Proof.
    rewrite div_implicit_closed. unfold div_tendency_explicit.
    set (DG := divc (toM (fun p => n_gx (X p) * n_sec2 (X p))) (toM (fun p => n_gy (X p) * n_sec2 (X p)))).
    rewrite (lin_comb clip clip_lin _ (div_base r) DG (cR c * Tref r)).
    2:{ intros w'. unfold div_base, DG.
        rewrite (lin2_toM_comb divc divc_lin _ _ _ _ _ _ (- (cR c * Tref r))
                   (fun p => cu_split Tref p r) (fun p => cv_split Tref p r) w').
        change (fun p => kinetic (Xs Tref p) r) with (fun p => kinetic (X p) r).
        ring. }
    unfold DG. rewrite H_div_grad. ring.
  Qed.

  Theorem vorticity_modal_closed (Tref : nat -> F) r w :
    vort_tendency_explicit W P toM curlc clip (with_tref c Tref) (Xs Tref)
                           (fun p => rt_dry (with_tref c Tref) (Xs Tref p)) (fun _ => 0) r w
    = clip (vort_base r) w.
  Proof.
    unfold vort_tendency_explicit.
    set (CG := curlc (toM (fun p => n_gx (X p) * n_sec2 (X p))) (toM (fun p => n_gy (X p) * n_sec2 (X p)))).
    rewrite (lin_comb clip clip_lin _ (vort_base r) CG (cR c * Tref r)).
    2:{ intros w'. unfold vort_base, CG.
        rewrite (lin2_toM_comb curlc curlc_lin _ _ _ _ _ _ (- (cR c * Tref r))
                   (fun p => cu_split Tref p r) (fun p => cv_split Tref p r) w').
        ring. }
    unfold CG. rewrite H_curl_grad. ring.
  Qed.

  Definition rt_abs_m (p : P) (k : nat) : F := cR c * T k p * (1 + moisture_contribution c m (q p) k).
  Definition cu_abs_m (p : P) (r : nat) : F := combined_u c true (X p) (rt_abs_m p) r.
  Definition cv_abs_m (p : P) (r : nat) : F := combined_v c true (X p) (rt_abs_m p) r.
  Definition geo_abs_m (p : P) (r : nat) : F :=
    geo_diff false c (fun k => q p k * T k p * (mRv m / cR c - 1)) r.
  Definition div_base_m (r : nat) (w' : W) : F :=
    - divc (toM (fun p => cu_abs_m p r)) (toM (fun p => cv_abs_m p r)) w'
    + - lap (toM (fun p => kinetic (X p) r)) w' + - grav * lap orog w'
    + - lap (toM (fun p => geo_abs_m p r)) w'.
  Definition vort_base_m (r : nat) (w' : W) : F :=
    - curlc (toM (fun p => cu_abs_m p r)) (toM (fun p => cv_abs_m p r)) w'.

  Lemma cu_split_m (Tref : nat -> F) p r :
    combined_u (with_tref c Tref) true (Xs Tref p) (rt_moist (with_tref c Tref) m (Xs Tref p) (q p)) r
    = cu_abs_m p r + (- Tref r) * (cR c * (n_gx (X p) * n_sec2 (X p)) + (mRv m - cR c) * qgx r p).
  Proof.
    unfold cu_abs_m, Xs. rewrite combined_u_split, (combined_u_rt c true (X p) (rt_abs_m p)).
    unfold rt_abs_m, rt_moist, moisture_contribution, qgx. cbn [with_tref with_temp cR n_temp].
    field. exact R_nz.
  Qed.
  Lemma cv_split_m (Tref : nat -> F) p r :
    combined_v (with_tref c Tref) true (Xs Tref p) (rt_moist (with_tref c Tref) m (Xs Tref p) (q p)) r
    = cv_abs_m p r + (- Tref r) * (cR c * (n_gy (X p) * n_sec2 (X p)) + (mRv m - cR c) * qgy r p).
  Proof.
    unfold cv_abs_m, Xs. rewrite combined_v_split, (combined_v_rt c true (X p) (rt_abs_m p)).
    unfold rt_abs_m, rt_moist, moisture_contribution, qgy. cbn [with_tref with_temp cR n_temp].
    field. exact R_nz.
  Qed.
  Lemma hum_div_split (Tref : nat -> F) p r :
    humidity_div_nodal (with_tref c Tref) m (Xs Tref p) (q p) (gqx p) (gqy p) (lapn p) r
    = (Tref r * (mRv m - cR c)) * leib_div r p.
  Proof.
    unfold humidity_div_nodal, leib_div, Xs. cbv zeta.
    cbn [with_tref with_temp cR cTref n_sec2 n_gx n_gy]. ring.
  Qed.
  Lemma hum_curl_split (Tref : nat -> F) p r :
    humidity_curl_nodal (with_tref c Tref) m (Xs Tref p) (gqx p) (gqy p) r
    = (Tref r * (mRv m - cR c)) * leib_curl r p.
  Proof.
    unfold humidity_curl_nodal, leib_curl, Xs. cbv zeta.
    cbn [with_tref with_temp cR cTref n_sec2 n_gx n_gy]. ring.
  Qed.
  Lemma hum_geo_abs (Tref : nat -> F) p r :
    humidity_geo_nodal (with_tref c Tref) false m (Xs Tref p) (q p) r = geo_abs_m p r.
  Proof.
    unfold humidity_geo_nodal, geo_abs_m, geo_diff, geo_diff_dense, humidity_temperature_diff, Xs.
    cbn [with_tref cK cR cls cTref]. apply sumn_ext. intros k _.
    cbn [with_temp n_temp]. ring.
  Qed.

  (** the T_ref part of combined_(u,v), as seen by a linear2 operator: R grad(lnps) + (Rv - R) q grad(lnps) *)
  Lemma lin2_tref_part (D : (W -> F) -> (W -> F) -> W -> F) (HD : linear2 D) r w' :
    D (toM (fun p => cR c * (n_gx (X p) * n_sec2 (X p)) + (mRv m - cR c) * qgx r p))
      (toM (fun p => cR c * (n_gy (X p) * n_sec2 (X p)) + (mRv m - cR c) * qgy r p)) w'
    = cR c * D (toM (fun p => n_gx (X p) * n_sec2 (X p))) (toM (fun p => n_gy (X p) * n_sec2 (X p))) w'
      + (mRv m - cR c) * D (toM (qgx r)) (toM (qgy r)) w'.
  Proof. apply (lin2_comb2 D HD); apply (lin_comb2 toM toM_lin); reflexivity. Qed.

  Theorem divergence_modal_closed_moist (Tref : nat -> F) r w :
    div_tendency_explicit W P toM divc lap clip (with_tref c Tref) grav (Xs Tref)
        (fun p => rt_moist (with_tref c Tref) m (Xs Tref p) (q p)) orog
        (fun w' => humidity_div_modal W P toM lap (with_tref c Tref) m (Xs Tref) q gqx gqy lapn r w') r w
    + div_tendency_implicit W lap (with_tref c Tref) (Tms Tref) lnps r w
    = clip (div_base_m r) w - lap (fun w' => geo_diff false c (fun k => Tm k w') r) w.
  Proof.
    rewrite div_implicit_closed. unfold div_tendency_explicit.
    set (DG := divc (toM (fun p => n_gx (X p) * n_sec2 (X p))) (toM (fun p => n_gy (X p) * n_sec2 (X p)))).
    set (LB := fun w' => divc (toM (qgx r)) (toM (qgy r)) w' - toM (leib_div r) w').
    set (Z := fun w' => cR c * DG w' + (mRv m - cR c) * LB w').
    rewrite (lin_comb clip clip_lin _ (div_base_m r) Z (Tref r)).
    2:{ intros w'. unfold div_base_m, Z, LB, DG, humidity_div_modal.
        rewrite (lin2_toM_comb divc divc_lin _ _ _ _ _ _ (- Tref r)
                   (fun p => cu_split_m Tref p r) (fun p => cv_split_m Tref p r) w').
        rewrite (lin2_tref_part divc divc_lin).
        rewrite (lin_scal toM toM_lin _ (leib_div r) (Tref r * (mRv m - cR c)) (fun a => hum_div_split Tref a r) w').
        rewrite (lin_ext lap lap_lin _ (toM (fun p => geo_abs_m p r))
                   (lin_ext toM toM_lin _ (fun p => geo_abs_m p r) (fun a => hum_geo_abs Tref a r)) w').
        change (fun p => kinetic (Xs Tref p) r) with (fun p => kinetic (X p) r).
        ring. }
    unfold Z. rewrite (lin_comb2 clip clip_lin _ DG LB (cR c) (mRv m - cR c) (fun a => eq_refl) w).
    unfold DG, LB. rewrite H_div_grad, H_leibniz. ring.
  Qed.

  Theorem vorticity_modal_closed_moist (Tref : nat -> F) r w :
    vort_tendency_explicit W P toM curlc clip (with_tref c Tref) (Xs Tref)
        (fun p => rt_moist (with_tref c Tref) m (Xs Tref p) (q p))
        (fun w' => humidity_curl_modal W P toM (with_tref c Tref) m (Xs Tref) gqx gqy r w') r w
    = clip (vort_base_m r) w.
  Proof.
    unfold vort_tendency_explicit.
    set (CG := curlc (toM (fun p => n_gx (X p) * n_sec2 (X p))) (toM (fun p => n_gy (X p) * n_sec2 (X p)))).
    set (LC := fun w' => curlc (toM (qgx r)) (toM (qgy r)) w' + toM (leib_curl r) w').
    set (Z := fun w' => cR c * CG w' + (mRv m - cR c) * LC w').
    rewrite (lin_comb clip clip_lin _ (vort_base_m r) Z (Tref r)).
    2:{ intros w'. unfold vort_base_m, Z, LC, CG, humidity_curl_modal.
        rewrite (lin2_toM_comb curlc curlc_lin _ _ _ _ _ _ (- Tref r)
                   (fun p => cu_split_m Tref p r) (fun p => cv_split_m Tref p r) w').
        rewrite (lin2_tref_part curlc curlc_lin).
        rewrite (lin_scal toM toM_lin _ (leib_curl r) (Tref r * (mRv m - cR c)) (fun a => hum_curl_split Tref a r) w').
        ring. }
    unfold Z. rewrite (lin_comb2 clip clip_lin _ CG LC (cR c) (mRv m - cR c) (fun a => eq_refl) w).
    unfold CG, LC. rewrite H_curl_grad, H_leibniz_curl. ring.
  Qed.

  (** The property at the modal layer: explicit + implicit is the same for any two reference profiles *)
  Corollary temperature_modal_invariance (T1 T2 : nat -> F) r w :
    (r < cK c)%nat ->
    temp_tendency_explicit W P toM divc clip (with_tref c T1) (Xs T1) r w
    + temp_tendency_implicit W (with_tref c T1) dv r w
    = temp_tendency_explicit W P toM divc clip (with_tref c T2) (Xs T2) r w
      + temp_tendency_implicit W (with_tref c T2) dv r w.
  Proof. intros Hr. now rewrite !temperature_modal_closed. Qed.

  Corollary divergence_modal_invariance (T1 T2 : nat -> F) r w :
    div_tendency_explicit W P toM divc lap clip (with_tref c T1) grav (Xs T1)
                          (fun p => rt_dry (with_tref c T1) (Xs T1 p)) orog (fun _ => 0) r w
    + div_tendency_implicit W lap (with_tref c T1) (Tms T1) lnps r w
    = div_tendency_explicit W P toM divc lap clip (with_tref c T2) grav (Xs T2)
                            (fun p => rt_dry (with_tref c T2) (Xs T2 p)) orog (fun _ => 0) r w
      + div_tendency_implicit W lap (with_tref c T2) (Tms T2) lnps r w.
  Proof. now rewrite !divergence_modal_closed. Qed.

  Corollary vorticity_modal_invariance (T1 T2 : nat -> F) r w :
    vort_tendency_explicit W P toM curlc clip (with_tref c T1) (Xs T1)
                           (fun p => rt_dry (with_tref c T1) (Xs T1 p)) (fun _ => 0) r w
    = vort_tendency_explicit W P toM curlc clip (with_tref c T2) (Xs T2)
                             (fun p => rt_dry (with_tref c T2) (Xs T2 p)) (fun _ => 0) r w.
  Proof. now rewrite !vorticity_modal_closed. Qed.

  Corollary temperature_modal_invariance_moist (T1 T2 : nat -> F) r w :
    (r < cK c)%nat ->
    (forall p, 1 + (mCpv m / (cR c / ckappa c) - 1) * q p r <> 0) ->
    temp_tendency_explicit_moist W P toM divc clip (with_tref c T1) m (Xs T1) q r w
    + temp_tendency_implicit W (with_tref c T1) dv r w
    = temp_tendency_explicit_moist W P toM divc clip (with_tref c T2) m (Xs T2) q r w
      + temp_tendency_implicit W (with_tref c T2) dv r w.
  Proof. intros Hr Hq. now rewrite !temperature_modal_closed_moist. Qed.

  Corollary divergence_modal_invariance_moist (T1 T2 : nat -> F) r w :
    div_tendency_explicit W P toM divc lap clip (with_tref c T1) grav (Xs T1)
        (fun p => rt_moist (with_tref c T1) m (Xs T1 p) (q p)) orog
        (fun w' => humidity_div_modal W P toM lap (with_tref c T1) m (Xs T1) q gqx gqy lapn r w') r w
    + div_tendency_implicit W lap (with_tref c T1) (Tms T1) lnps r w
    = div_tendency_explicit W P toM divc lap clip (with_tref c T2) grav (Xs T2)
          (fun p => rt_moist (with_tref c T2) m (Xs T2 p) (q p)) orog
          (fun w' => humidity_div_modal W P toM lap (with_tref c T2) m (Xs T2) q gqx gqy lapn r w') r w
      + div_tendency_implicit W lap (with_tref c T2) (Tms T2) lnps r w.
  Proof. now rewrite !divergence_modal_closed_moist. Qed.

  Corollary vorticity_modal_invariance_moist (T1 T2 : nat -> F) r w :
    vort_tendency_explicit W P toM curlc clip (with_tref c T1) (Xs T1)
        (fun p => rt_moist (with_tref c T1) m (Xs T1 p) (q p))
        (fun w' => humidity_curl_modal W P toM (with_tref c T1) m (Xs T1) gqx gqy r w') r w
    = vort_tendency_explicit W P toM curlc clip (with_tref c T2) (Xs T2)
          (fun p => rt_moist (with_tref c T2) m (Xs T2 p) (q p))
          (fun w' => humidity_curl_modal W P toM (with_tref c T2) m (Xs T2) gqx gqy r w') r w.
  Proof. now rewrite !vorticity_modal_closed_moist. Qed.
End Modal.
