(** Theorems about the reference spherical-harmonic transform model (C01).
    Every statement: any field [F], any sizes, any tables, any input. *)
From Dino Require Import Base.Ops Base.Sums Model.SHT.
Local Open Scope F_scope.

Lemma div2_double k : (2 * k / 2 = k)%nat.
Proof. rewrite Nat.mul_comm. apply Nat.div_mul. lia. Qed.
Lemma div2_double1 k : ((2 * k + 1) / 2 = k)%nat.
Proof. symmetry. apply (Nat.div_unique (2 * k + 1) 2 k 1); lia. Qed.

Lemma ltb_true a b : (a < b)%nat -> (a <? b) = true.
Proof. apply Nat.ltb_lt. Qed.
Lemma ltb_false a b : (b <= a)%nat -> (a <? b) = false.
Proof. apply Nat.ltb_ge. Qed.

Lemma mabs_real_lt M a : (a < 2 * M - 1)%nat -> (mabs_real a < M)%nat.
Proof. intros H. unfold mabs_real. apply Nat.div_lt_upper_bound; lia. Qed.

Lemma m_real_abs a : Z.abs (m_real a) = Z.of_nat (mabs_real a).
Proof.
  unfold m_real, mabs_real.
  destruct (Nat.even a) eqn:E.
  - apply Nat.even_spec in E. destruct E as [k ->].
    rewrite Z.abs_opp, Z.abs_eq by lia. f_equal.
    now rewrite div2_double, div2_double1.
  - rewrite Z.abs_eq by lia. reflexivity.
Qed.

Lemma mask_real_spec a l : mask_real a l = Nat.leb (mabs_real a) l.
Proof.
  unfold mask_real, l_real. rewrite m_real_abs.
  destruct (Nat.leb_spec (mabs_real a) l); [apply Z.leb_le | apply Z.leb_gt]; lia.
Qed.

Lemma mask_real_true a l : mask_real a l = true <-> (mabs_real a <= l)%nat.
Proof. rewrite mask_real_spec. apply Nat.leb_le. Qed.

Lemma mask_real_false a l : mask_real a l = false <-> (l < mabs_real a)%nat.
Proof. rewrite mask_real_spec. apply Nat.leb_gt. Qed.

Lemma mabs_real_even m : mabs_real (2 * m) = m.
Proof. unfold mabs_real. apply div2_double1. Qed.
Lemma mabs_real_odd m : (1 <= m)%nat -> mabs_real (2 * m - 1) = m.
Proof.
  intros H. unfold mabs_real. replace (2 * m - 1 + 1)%nat with (2 * m)%nat by lia. apply div2_double.
Qed.

Section Thm.
  Context {F : Type} {o : Ops F} {Fc : FieldC o}.
  Add Field FFsht : (field_c : FieldTh o).

  (** staged arrays: the entry inside the index range, 0 outside *)
  Lemma sh_memo2_spec n m (x : nat -> nat -> F) a j :
    sh_memo2 n m x a j = if (Nat.ltb a n && Nat.ltb j m)%bool then x a j else 0.
  Proof.
    unfold sh_memo2. destruct (Nat.ltb_spec a n) as [Ha|Ha]; cbn [andb].
    - rewrite (nth_map_seq (fun a0 => map (x a0) (seq 0 m)) n a []) by assumption.
      destruct (Nat.ltb_spec j m) as [Hj|Hj]; [now apply nth_map_seq|].
      apply nth_overflow. now rewrite map_length, seq_length.
    - rewrite (nth_overflow (map _ (seq 0 n)) []) by (now rewrite map_length, seq_length). destruct j; reflexivity.
  Qed.
  Lemma sh_memo2_ok n m (g : nat -> nat -> F) a j :
    (a < n)%nat -> (j < m)%nat -> sh_memo2 n m g a j = g a j.
  Proof. intros Ha Hj. now rewrite sh_memo2_spec, !ltb_true by assumption. Qed.
  Lemma sh_memo2_zero n m (x : nat -> nat -> F) a j : x a j = 0 -> sh_memo2 n m x a j = 0.
  Proof. intros H. rewrite sh_memo2_spec. now destruct (_ && _)%bool. Qed.

  Lemma sum2_ext n m (g h : nat -> nat -> F) :
    (forall i j, (i < n)%nat -> (j < m)%nat -> g i j = h i j) -> sum2 n m g = sum2 n m h.
  Proof. intros H. unfold sum2. apply sumn_ext; intros i Hi. apply sumn_ext; intros j Hj. auto. Qed.

  Lemma sum2_swap n m (g : nat -> nat -> F) : sum2 n m g = sum2 m n (fun j i => g i j).
  Proof. unfold sum2. apply sumn_exchange. Qed.

  Lemma sum2_scal_l n m c (g : nat -> nat -> F) : sum2 n m (fun i j => c * g i j) = c * sum2 n m g.
  Proof.
    unfold sum2. rewrite <- sumn_scal_l. apply sumn_ext; intros i _. apply sumn_scal_l.
  Qed.

  Lemma sum2_scal_r n m c (g : nat -> nat -> F) : sum2 n m (fun i j => g i j * c) = sum2 n m g * c.
  Proof.
    unfold sum2. rewrite <- sumn_scal_r. apply sumn_ext; intros i _. apply sumn_scal_r.
  Qed.

  Lemma sum2_zero n m (g : nat -> nat -> F) :
    (forall i j, (i < n)%nat -> (j < m)%nat -> g i j = 0) -> sum2 n m g = 0.
  Proof. intros H. unfold sum2. apply sumn_zero; intros i Hi. apply sumn_zero; intros j Hj. auto. Qed.

  (** exchange of two double sums (the whole "linearity" content of the transform) *)
  Lemma sum2_sum2_exchange n m k q (g : nat -> nat -> nat -> nat -> F) :
    sum2 n m (fun i j => sum2 k q (fun b l => g i j b l))
    = sum2 k q (fun b l => sum2 n m (fun i j => g i j b l)).
  Proof. apply sumn4_exchange. Qed.

  Lemma sumn_delta_r n k (g : nat -> F) :
    (k < n)%nat -> sumn n (fun i => delta i k * g i) = g k.
  Proof.
    intros Hk. rewrite <- (sumn_delta_l n k g Hk). apply sumn_ext; intros i _.
    unfold delta. rewrite (Nat.eqb_sym i k). reflexivity.
  Qed.

  Section Tables.
    Variables (K L I J : nat).
    Variable f : nat -> nat -> F.
    Variable p : nat -> nat -> nat -> F.
    Variable w : nat -> F.

    Lemma synth_eq x i j : (j < J)%nat ->
      synth K L J f p x i j = sum2 K L (fun a l => ylm f p a l i j * x a l).
    Proof.
      intros Hj. unfold synth, inv_fourier, sum2. apply sumn_ext; intros a Ha.
      rewrite sh_memo2_ok by assumption. unfold inv_legendre, ylm.
      rewrite <- sumn_scal_l. apply sumn_ext; intros l _. ring.
    Qed.

    Lemma analysis_eq z a l : (a < K)%nat ->
      analysis K I J f p w z a l = sum2 I J (fun i j => (w j * ylm f p a l i j) * z i j).
    Proof.
      intros Ha. unfold analysis, fwd_legendre. rewrite sum2_swap. unfold sum2.
      apply sumn_ext; intros j Hj. rewrite sh_memo2_ok by assumption.
      unfold fwd_fourier. rewrite <- sumn_scal_l. apply sumn_ext; intros i Hi.
      rewrite sh_memo2_ok by assumption. unfold ylm. ring.
    Qed.

    (** synthesis and analysis only read their argument inside the index range *)
    Lemma synth_ext x x' i j : (j < J)%nat ->
      (forall a l, (a < K)%nat -> (l < L)%nat -> x a l = x' a l) ->
      synth K L J f p x i j = synth K L J f p x' i j.
    Proof.
      intros Hj H. rewrite !synth_eq by assumption. apply sum2_ext; intros a l Ha Hl.
      now rewrite H.
    Qed.

    Lemma analysis_ext z z' a l : (a < K)%nat ->
      (forall i j, (i < I)%nat -> (j < J)%nat -> z i j = z' i j) ->
      analysis K I J f p w z a l = analysis K I J f p w z' a l.
    Proof.
      intros Ha H. rewrite !analysis_eq by assumption. apply sum2_ext; intros i j Hi Hj.
      now rewrite H.
    Qed.

    (** linearity (used by the plugin's "basis + linearity" argument) *)
    Lemma synth_linear c x y i j : (j < J)%nat ->
      synth K L J f p (fun a l => c * x a l + y a l) i j
      = c * synth K L J f p x i j + synth K L J f p y i j.
    Proof.
      intros Hj. rewrite !synth_eq by assumption.
      rewrite <- sum2_scal_l. unfold sum2. rewrite <- sumn_add.
      apply sumn_ext; intros a _. rewrite <- sumn_add. apply sumn_ext; intros l _. ring.
    Qed.

    Lemma analysis_linear c z y a l : (a < K)%nat ->
      analysis K I J f p w (fun i j => c * z i j + y i j) a l
      = c * analysis K I J f p w z a l + analysis K I J f p w y a l.
    Proof.
      intros Ha. rewrite !analysis_eq by assumption.
      rewrite <- sum2_scal_l. unfold sum2. rewrite <- sumn_add.
      apply sumn_ext; intros i _. rewrite <- sumn_add. apply sumn_ext; intros j _. ring.
    Qed.

    Theorem sht_gram x a l : (a < K)%nat ->
      analysis K I J f p w (synth K L J f p x) a l
      = gram_apply K L (gram I J f p w) x a l.
    Proof.
      intros Ha. rewrite analysis_eq by assumption. unfold gram_apply.
      transitivity (sum2 I J (fun i j => sum2 K L (fun b l' =>
                      (w j * (ylm f p a l i j * ylm f p b l' i j)) * x b l'))).
      { apply sum2_ext; intros i j Hi Hj. rewrite synth_eq by assumption.
        rewrite <- sum2_scal_l. apply sum2_ext; intros b l' _ _. ring. }
      rewrite sum2_sum2_exchange. apply sum2_ext; intros b l' _ _.
      unfold gram. now rewrite sum2_scal_r.
    Qed.

    (** orthonormality hypotheses (table obligations) *)
    Variable wf : F.
    Variable wp : nat -> F.
    Variable mabs : nat -> nat.           (* |m| of modal row a *)

    Definition H_weights := forall j, (j < J)%nat -> w j = wf * wp j.
    Definition H_fourier_orth := forall a b, (a < K)%nat -> (b < K)%nat ->
      wf * sumn I (fun i => f i a * f i b) = delta a b.
    Definition H_legendre_orth := forall a l l', (a < K)%nat ->
      (mabs a <= l)%nat -> (l < L)%nat -> (mabs a <= l')%nat -> (l' < L)%nat ->
      sumn J (fun j => wp j * (p a j l * p a j l')) = delta l l'.
    Definition H_p_support := forall a j l, (a < K)%nat -> (j < J)%nat -> (l < L)%nat ->
      (l < mabs a)%nat -> p a j l = 0.

    Lemma gram_factor a l b l' : H_weights ->
      gram I J f p w a l b l'
      = (wf * sumn I (fun i => f i a * f i b)) * sumn J (fun j => wp j * (p a j l * p b j l')).
    Proof.
      intros Hw. unfold gram, sum2.
      transitivity (sumn I (fun i => (f i a * f i b) * (wf * sumn J (fun j => wp j * (p a j l * p b j l'))))).
      { apply sumn_ext; intros i _. rewrite <- sumn_scal_l, <- sumn_scal_l.
        apply sumn_ext; intros j Hj. rewrite (Hw j Hj). unfold ylm. ring. }
      rewrite sumn_scal_r. ring.
    Qed.

    (** orthonormality only up to the degree of exactness [D] of the latitude rule *)
    Definition H_legendre_orth_deg (D : nat) := forall a l l', (a < K)%nat ->
      (mabs a <= l)%nat -> (l < L)%nat -> (mabs a <= l')%nat -> (l' < L)%nat -> (l + l' <= D)%nat ->
      sumn J (fun j => wp j * (p a j l * p a j l')) = delta l l'.

    Lemma H_legendre_orth_any_deg D : H_legendre_orth -> H_legendre_orth_deg D.
    Proof. intros H a l l' Ha H1 H2 H3 H4 _. now apply H. Qed.

    (** the Legendre Gram block of row [a] is the identity on the triangle and 0 outside *)
    Lemma legendre_block D a l l' :
      H_legendre_orth_deg D -> H_p_support -> (a < K)%nat -> (l < L)%nat -> (l' < L)%nat ->
      (l + l' <= D)%nat ->
      sumn J (fun j => wp j * (p a j l * p a j l'))
      = if Nat.leb (mabs a) l then delta l l' else 0.
    Proof.
      intros Ho Hs Ha Hl Hl' HD.
      destruct (Nat.leb_spec (mabs a) l) as [Hal|Hal].
      - destruct (Nat.le_gt_cases (mabs a) l') as [Hal'|Hal'].
        + now apply Ho.
        + rewrite sumn_zero.
          * unfold delta. destruct (Nat.eqb_spec l l'); [lia|reflexivity].
          * intros j Hj. rewrite (Hs a j l') by assumption. ring.
      - apply sumn_zero. intros j Hj. rewrite (Hs a j l) by assumption. ring.
    Qed.

    (** band-limited form of the round trip: the rule is exact to degree [D], the
        input has no coefficients at l' >= Lb; every output entry with
        l + (Lb-1) <= D is returned exactly (masked) *)
    Theorem sht_roundtrip_bandlimited D Lb x a l :
      H_weights -> H_fourier_orth -> H_legendre_orth_deg D -> H_p_support ->
      (forall b l', (b < K)%nat -> (Lb <= l')%nat -> (l' < L)%nat -> x b l' = 0) ->
      (a < K)%nat -> (l < L)%nat -> (l + (Lb - 1) <= D)%nat ->
      analysis K I J f p w (synth K L J f p x) a l
      = if Nat.leb (mabs a) l then x a l else 0.
    Proof.
      intros Hw Hf Ho Hs Hx Ha Hl HD. rewrite sht_gram by assumption. unfold gram_apply, sum2.
      transitivity (sumn K (fun b => delta a b *
                      sumn L (fun l' => sumn J (fun j => wp j * (p a j l * p b j l')) * x b l'))).
      { apply sumn_ext; intros b Hb. rewrite <- sumn_scal_l. apply sumn_ext; intros l' _.
        rewrite gram_factor by assumption. rewrite (Hf a b Ha Hb). ring. }
      rewrite sumn_delta_l by assumption.
      transitivity (sumn L (fun l' => (if Nat.leb (mabs a) l then delta l l' else 0) * x a l')).
      { apply sumn_ext; intros l' Hl'.
        destruct (Nat.le_gt_cases Lb l') as [Hb|Hb].
        - rewrite (Hx a l') by assumption. ring.
        - rewrite (legendre_block D) by (auto; lia). reflexivity. }
      destruct (Nat.leb (mabs a) l).
      - now apply sumn_delta_l.
      - apply sumn_zero; intros; ring.
    Qed.

    Theorem sht_roundtrip x a l :
      H_weights -> H_fourier_orth -> H_legendre_orth -> H_p_support ->
      (a < K)%nat -> (l < L)%nat ->
      analysis K I J f p w (synth K L J f p x) a l
      = if Nat.leb (mabs a) l then x a l else 0.
    Proof.
      intros Hw Hf Ho Hs Ha Hl.
      apply (sht_roundtrip_bandlimited (2 * L) L); auto.
      - now apply H_legendre_orth_any_deg.
      - intros; lia.
      - lia.
    Qed.

    (** coefficients outside the triangle never influence the synthesis *)
    Theorem sht_masked_inert x i j :
      H_p_support -> (j < J)%nat ->
      synth K L J f p x i j
      = synth K L J f p (fun a l => if Nat.leb (mabs a) l then x a l else 0) i j.
    Proof.
      intros Hs Hj. rewrite !synth_eq by assumption. apply sum2_ext; intros a l Ha Hl.
      destruct (Nat.leb_spec (mabs a) l) as [H|H]; [reflexivity|].
      unfold ylm. rewrite (Hs a j l) by assumption. ring.
    Qed.

    (** the integral is r^2/(c0 c1) times the (0,0) coefficient of the analysis *)
    Theorem sht_integral (r c0 c1 : F) x :
      H_weights -> H_fourier_orth -> H_legendre_orth -> H_p_support ->
      mabs 0%nat = 0%nat ->
      (forall i, (i < I)%nat -> f i 0%nat = c1) ->
      (forall j, (j < J)%nat -> p 0%nat j 0%nat = c0) ->
      c0 * c1 <> 0 -> (0 < K)%nat -> (0 < L)%nat ->
      integrate I J w r (synth K L J f p x) = (r * r) * (1 / (c0 * c1)) * x 0%nat 0%nat.
    Proof.
      intros Hw Hf Ho Hs Hm0 Hf0 Hp0 Hc HK HL.
      transitivity ((r * r) * (1 / (c0 * c1)) * analysis K I J f p w (synth K L J f p x) 0%nat 0%nat).
      - rewrite analysis_eq by assumption. unfold integrate.
        rewrite sum2_swap. unfold sum2. rewrite <- sumn_scal_l.
        apply sumn_ext; intros j Hj. rewrite <- !sumn_scal_l.
        apply sumn_ext; intros i Hi. unfold ylm. rewrite (Hf0 i Hi), (Hp0 j Hj). field.
        split; intro Z; apply Hc; rewrite Z; ring.
      - rewrite sht_roundtrip, Hm0 by assumption. reflexivity.
    Qed.
  End Tables.

  (** leading axes act independently (slice n of the output is the
      transform of slice n of the input and depends on no other slice) *)
  Theorem sht_batch_synth K L J f p (x x' : nat -> nat -> nat -> F) n i j :
    (j < J)%nat ->
    (forall a l, (a < K)%nat -> (l < L)%nat -> x n a l = x' n a l) ->
    synth_batch K L J f p x n i j = synth K L J f p (x' n) i j.
  Proof. intros Hj H. unfold synth_batch. now apply synth_ext. Qed.

  Theorem sht_batch_analysis K I J f p w (z z' : nat -> nat -> nat -> F) n a l :
    (a < K)%nat ->
    (forall i j, (i < I)%nat -> (j < J)%nat -> z n i j = z' n i j) ->
    analysis_batch K I J f p w z n a l = analysis K I J f p w (z' n) a l.
  Proof. intros Ha H. unfold analysis_batch. now apply analysis_ext. Qed.

End Thm.
