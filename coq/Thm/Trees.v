(** Proofs about Model/Trees.v: nested-dictionary flatten/unflatten round trips,
    pytree packing utilities, spectral prefix slicing / zero padding.

    Dictionaries: a tree is described by the list of its terminal entries
    (key path, leaf or empty dictionary), and [look] reads off such a list what
    is found at a path ([entries_look]).  [flatten_dict] returns the entries of
    its argument with the paths joined ([flatten_spec]); [unflatten_dict] of the
    joined keys of a prefix-free entry list builds a dictionary with exactly
    these entries ([Spec], [unflatten_entries]). *)
From Coq Require Import ZArith List Bool Lia Permutation.
Import ListNotations.
From Dino Require Import Model.Trees.

Lemma nodup_app {A} (l1 l2 : list A) :
  NoDup (l1 ++ l2) <-> NoDup l1 /\ NoDup l2 /\ forall x, In x l1 -> ~ In x l2.
Proof.
  induction l1 as [|a l1 IH]; cbn; [intuition constructor|].
  rewrite !NoDup_cons_iff, IH, in_app_iff. split.
  - intros (N & N1 & N2 & D). repeat split; auto. intros x [<-|H]; auto.
  - intros ((N & N1) & N2 & D). repeat split; auto. intros [H|H]; [auto|apply (D a); auto].
Qed.
Lemma nodup_map_inj_in {A B} (f : A -> B) (l : list A) :
  NoDup l -> (forall x y, In x l -> In y l -> f x = f y -> x = y) -> NoDup (map f l).
Proof.
  induction l as [|a l IH]; cbn; intros N Inj; [constructor|].
  inversion N as [|? ? A1 A2]; subst. constructor.
  - rewrite in_map_iff. intros (y & Hy & Iy). apply A1.
    rewrite (Inj a y); auto.
  - apply IH; auto.
Qed.

Lemma str_eqb_eq a b : str_eqb a b = true <-> a = b.
Proof.
  revert b; induction a as [|x a IH]; intros [|y b]; cbn; split; intro H; try easy.
  - apply andb_true_iff in H as [H1 H2]. apply Z.eqb_eq in H1. apply IH in H2. now subst.
  - injection H as -> ->. rewrite Z.eqb_refl. cbn. now apply IH.
Qed.
Lemma str_eqb_spec a b : reflect (a = b) (str_eqb a b).
Proof. apply iff_reflect. symmetry. apply str_eqb_eq. Qed.
Lemma str_eqb_refl a : str_eqb a a = true.
Proof. now apply str_eqb_eq. Qed.
Lemma str_eqb_neq a b : str_eqb a b = false <-> a <> b.
Proof. destruct (str_eqb_spec a b); split; congruence. Qed.
Lemma str_eqb_sym a b : str_eqb a b = str_eqb b a.
Proof. destruct (str_eqb_spec a b) as [->|N]; symmetry; [apply str_eqb_refl|apply str_eqb_neq; congruence]. Qed.
Lemma str_eqb_app p a b : str_eqb (p ++ a) (p ++ b) = str_eqb a b.
Proof. induction p as [|x p IH]; cbn; [reflexivity|]. now rewrite Z.eqb_refl. Qed.
Lemma str_eq_dec (a b : str) : {a = b} + {a <> b}.
Proof. destruct (str_eqb_spec a b); [now left|now right]. Qed.

Section DictLemmas.
  Context {V : Type}.
  Implicit Types d : list (str * V).

  Lemma dset_nil k v : dset k v ([] : list (str * V)) = [(k, v)].
  Proof. reflexivity. Qed.
  Lemma dset_cons_eq k v w d : dset k v ((k, w) :: d) = (k, v) :: d.
  Proof. cbn. now rewrite str_eqb_refl. Qed.
  Lemma dset_cons_neq k k' v w d : k <> k' -> dset k v ((k', w) :: d) = (k', w) :: dset k v d.
  Proof. intro N. cbn. apply str_eqb_neq in N. now rewrite N. Qed.

  Lemma dget_dset_same k v d : dget k (dset k v d) = Some v.
  Proof.
    induction d as [|[k' v'] d IH]; cbn; [now rewrite str_eqb_refl|].
    destruct (str_eqb k k') eqn:E; cbn; rewrite E; auto.
  Qed.
  Lemma dget_dset_other k k' v d : k' <> k -> dget k' (dset k v d) = dget k' d.
  Proof.
    intro N. apply str_eqb_neq in N. induction d as [|[k2 v2] d IH]; cbn; [now rewrite N|].
    destruct (str_eqb_spec k k2) as [<-|]; cbn; [now rewrite N|]. now rewrite IH.
  Qed.
  Lemma dget_In k v d : dget k d = Some v -> In (k, v) d.
  Proof.
    induction d as [|[k' v'] d IH]; cbn; [easy|].
    destruct (str_eqb_spec k k') as [->|]; [intros [= ->]; now left|auto].
  Qed.
  Lemma dget_keys k d : dget k d <> None <-> In k (map fst d).
  Proof.
    induction d as [|[k' v'] d IH]; cbn; [tauto|].
    destruct (str_eqb_spec k k') as [->|N]; [intuition congruence|]. rewrite IH. intuition congruence.
  Qed.
  Lemma In_dget k v d : NoDup (map fst d) -> In (k, v) d -> dget k d = Some v.
  Proof.
    induction d as [|[k' v'] d IH]; cbn; [easy|]. intros ND [A|A].
    - injection A as -> ->. now rewrite str_eqb_refl.
    - inversion ND as [|? ? N1 N2]; subst. destruct (str_eqb_spec k k') as [->|]; [|auto].
      destruct N1. apply in_map_iff. now exists (k', v).
  Qed.
  Lemma dset_notin k v d : ~ In k (map fst d) -> dset k v d = d ++ [(k, v)].
  Proof.
    induction d as [|[k' v'] d IH]; cbn [map In fst]; [easy|]. intro N.
    rewrite dset_cons_neq, IH by intuition congruence. reflexivity.
  Qed.
  Lemma dset_keys k v d : map fst (dset k v d) = if dmem k d then map fst d else map fst d ++ [k].
  Proof.
    unfold dmem. induction d as [|[k' v'] d IH]; cbn; [reflexivity|].
    destruct (str_eqb k k') eqn:E; cbn; [reflexivity|]. rewrite IH. now destruct (dget k d).
  Qed.
  Lemma dset_nodup k v d : NoDup (map fst d) -> NoDup (map fst (dset k v d)).
  Proof.
    intro ND. rewrite dset_keys. unfold dmem. destruct (dget k d) eqn:E; auto.
    apply nodup_app. repeat split; auto; [repeat constructor; easy|].
    intros x Hx [<-|[]]. now apply dget_keys in Hx.
  Qed.
  Lemma in_dset_key k v d a b : In (a, b) (dset k v d) -> In (a, b) d \/ (a = k /\ b = v).
  Proof.
    induction d as [|[k' v'] d IH]; cbn.
    - intros [[= <- <-]|[]]. now right.
    - destruct (str_eqb_spec k k') as [<-|N]; cbn.
      + intros [[= <- <-]|H]; [now right|left; now right].
      + intros [H|H]; [left; now left|]. destruct (IH H); auto.
  Qed.
  Lemma dmerge_Forall_snd (P : V -> Prop) (b a : list (str * V)) :
    (forall e, In e a -> P (snd e)) -> (forall e, In e b -> P (snd e)) ->
    forall e, In e (dmerge a b) -> P (snd e).
  Proof.
    unfold dmerge. revert a. induction b as [|[k v] b IH]; intros a Ha Hb; cbn [fold_left]; [exact Ha|].
    apply IH; [|intros e He; apply Hb; now right].
    intros [a1 b1] H1. apply in_dset_key in H1 as [H1|[_ ->]]; [exact (Ha _ H1)|]. apply (Hb (k, v)). now left.
  Qed.
  Lemma dmerge_fresh (b a : list (str * V)) : NoDup (map fst (a ++ b)) -> dmerge a b = a ++ b.
  Proof.
    unfold dmerge. revert a. induction b as [|[k v] b IH]; intros a ND; cbn; [now rewrite app_nil_r|].
    rewrite dset_notin, IH, <- app_assoc; [reflexivity|now rewrite <- app_assoc|].
    rewrite map_app in ND. apply NoDup_remove_2 in ND. rewrite in_app_iff in ND. tauto.
  Qed.
  Lemma dict_of_nodup (b : list (str * V)) : NoDup (map fst b) -> dict_of b = b.
  Proof. apply (dmerge_fresh b []). Qed.
End DictLemmas.

Lemma has_dup_false l : has_dup l = false <-> NoDup l.
Proof.
  induction l as [|x l IH]; cbn; [intuition constructor|].
  rewrite orb_false_iff, IH, NoDup_cons_iff. apply and_iff_compat_r.
  rewrite <- not_true_iff_false, existsb_exists. split.
  - intros H Hi. apply H. exists x. split; [exact Hi|apply str_eqb_refl].
  - intros H (y & Hy & E). apply str_eqb_eq in E. now subst.
Qed.

Fixpoint join (sep : Z) (p : list str) : str :=
  match p with
  | [] => []
  | [k] => k
  | k :: r => k ++ sep :: join sep r
  end.

Lemma split_nosep sep k : contains sep k = false -> split sep k = [k].
Proof.
  induction k as [|c k IH]; cbn; [easy|].
  rewrite orb_false_iff. intros [H1 H2]. rewrite Z.eqb_sym, H1, IH; auto.
Qed.
Lemma split_app_sep sep k s : contains sep k = false -> split sep (k ++ sep :: s) = k :: split sep s.
Proof.
  induction k as [|c k IH]; cbn.
  - now rewrite Z.eqb_refl.
  - rewrite orb_false_iff. intros [H1 H2]. rewrite Z.eqb_sym, H1, IH; auto.
Qed.
Lemma split_join sep p :
  p <> [] -> Forall (fun k => contains sep k = false) p -> split sep (join sep p) = p.
Proof.
  induction p as [|k p IH]; [easy|]. intros _ Hp. inversion Hp as [|? ? H1 H2]; subst.
  destruct p as [|k2 p].
  - cbn. now apply split_nosep.
  - change (join sep (k :: k2 :: p)) with (k ++ sep :: join sep (k2 :: p)).
    rewrite split_app_sep by auto. f_equal. apply IH; [easy|auto].
Qed.
Lemma join_cons sep k p : p <> [] -> join sep (k :: p) = k ++ sep :: join sep p.
Proof. destruct p; [easy|reflexivity]. Qed.
Lemma split_nonnil sep s : split sep s <> [].
Proof. destruct s as [|c s]; cbn; [easy|]. destruct (Z.eqb c sep); [easy|]. now destruct (split sep s). Qed.
Lemma split_parts_nosep sep s : Forall (fun k => contains sep k = false) (split sep s).
Proof.
  induction s as [|c s IH]; cbn; [repeat constructor|].
  destruct (Z.eqb c sep) eqn:E.
  - constructor; auto.
  - destruct (split sep s) as [|h t]; [repeat constructor; cbn; now rewrite Z.eqb_sym, E|].
    inversion IH; subst. constructor; auto. cbn. rewrite Z.eqb_sym, E. auto.
Qed.
Lemma join_split sep s : join sep (split sep s) = s.
Proof.
  induction s as [|c s IH]; cbn; [reflexivity|].
  destruct (Z.eqb c sep) eqn:E.
  - apply Z.eqb_eq in E. subst c.
    rewrite join_cons by apply split_nonnil. now rewrite IH.
  - pose proof (split_nonnil sep s) as NN.
    destruct (split sep s) as [|h t]; [easy|].
    destruct t as [|h2 t]; cbn in *; now rewrite <- IH.
Qed.

Inductive pcmp_t := PEq | PQ | PP | PInc.
(** [PQ]: q is a strict prefix of p; [PP]: p is a strict prefix of q *)
Fixpoint pcmp (q p : list str) : pcmp_t :=
  match q, p with
  | [], [] => PEq
  | [], _ :: _ => PQ
  | _ :: _, [] => PP
  | a :: q', b :: p' => if str_eqb a b then pcmp q' p' else PInc
  end.

Lemma pcmp_eq q p : pcmp q p = PEq <-> q = p.
Proof.
  revert p; induction q as [|a q IH]; intros [|b p]; cbn; try easy.
  destruct (str_eqb_spec a b) as [->|N]; rewrite ?IH; split; congruence.
Qed.
Lemma pcmp_refl q : pcmp q q = PEq.
Proof. now apply pcmp_eq. Qed.
Lemma pcmp_inc_sym q p : pcmp q p = PInc -> pcmp p q = PInc.
Proof.
  revert p; induction q as [|a q IH]; intros [|b p]; cbn; try easy.
  rewrite (str_eqb_sym b a). destruct (str_eqb a b); auto.
Qed.
Lemma pcmp_pp_pq q p : pcmp q p = PP <-> pcmp p q = PQ.
Proof.
  revert p; induction q as [|a q IH]; intros [|b p]; cbn; try easy.
  rewrite (str_eqb_sym b a). destruct (str_eqb a b); [apply IH|easy].
Qed.
(** p strict prefix of q, p incomparable with a: q incomparable with a *)
Lemma pcmp_trans_inc q p a : pcmp q p = PP -> pcmp p a = PInc -> pcmp q a = PInc.
Proof.
  revert p a; induction q as [|x q IH]; intros [|y p] [|z a]; cbn; try easy.
  destruct (str_eqb_spec x y) as [<-|]; [|easy]. destruct (str_eqb x z); [apply IH|easy].
Qed.

Definition tv (val : tree) : option (option Z) :=
  match val with Leaf v => Some (Some v) | Node _ => Some None end.
Definition terminal (val : tree) : Prop := match val with Leaf _ => True | Node l => l = [] end.

Lemma view_nil t : view [] t = tv t.
Proof. now destruct t. Qed.
Lemma view_cons k q l : view (k :: q) (Node l) = match dget k l with Some c => view q c | None => None end.
Proof. unfold view. cbn. now destruct (dget k l). Qed.
Lemma view_cons_leaf k q v : view (k :: q) (Leaf v) = None.
Proof. reflexivity. Qed.
Lemma view_terminal k q val : terminal val -> view (k :: q) val = None.
Proof. destruct val as [v|l]; cbn; [reflexivity|]. intros ->. reflexivity. Qed.

(** one step of [ins] on a path of two or more keys: the sub-dictionary found
    under the first key (an empty one if there is none) receives the rest *)
Definition sub_at (k : str) (d : dict) : dict :=
  match dget k d with Some (Node s) => s | _ => [] end.
Lemma ins_cons2 k k2 rest val d :
  ins (k :: k2 :: rest) val d =
  match dget k d with
  | Some (Leaf _) => None
  | _ => option_map (fun s => dset k (Node s) d) (ins (k2 :: rest) val (sub_at k d))
  end.
Proof.
  unfold sub_at. cbn [ins]. destruct (dget k d) as [[v|s]|]; try reflexivity; now destruct (ins (k2 :: rest) val _).
Qed.
Lemma ins_cons2_some k k2 rest val d d' :
  ins (k :: k2 :: rest) val d = Some d' ->
  exists s, ins (k2 :: rest) val (sub_at k d) = Some s /\ d' = dset k (Node s) d.
Proof.
  rewrite ins_cons2. destruct (ins (k2 :: rest) val (sub_at k d)) as [s|]; destruct (dget k d) as [[v|s0]|];
    try discriminate; intros [= <-]; eauto.
Qed.
Lemma view_sub_at k d q : q <> [] -> view (k :: q) (Node d) = view q (Node (sub_at k d)).
Proof.
  intro NN. rewrite view_cons. unfold sub_at. destruct q as [|b q]; [easy|].
  destruct (dget k d) as [[v|s]|]; reflexivity.
Qed.

Lemma view_ins p : forall val d d' q,
  terminal val -> ins p val d = Some d' ->
  view q (Node d') = match pcmp q p with
                     | PEq => tv val
                     | PQ => Some None
                     | PP => None
                     | PInc => view q (Node d)
                     end.
Proof.
  induction p as [|k rest IH]; intros val d d' q Ht Hi; [discriminate|].
  destruct q as [|a q]; [reflexivity|]. rewrite view_cons. cbn [pcmp].
  destruct rest as [|k2 rest].
  - injection Hi as <-. destruct (str_eqb_spec a k) as [->|N].
    + rewrite dget_dset_same. destruct q; [apply view_nil|now apply view_terminal].
    + rewrite dget_dset_other by auto. now rewrite view_cons.
  - apply ins_cons2_some in Hi as (s & Hs & ->). destruct (str_eqb_spec a k) as [->|N].
    + rewrite dget_dset_same, (IH val _ s q Ht Hs).
      destruct (pcmp q (k2 :: rest)) eqn:Ec; auto.
      symmetry. apply view_sub_at. now intros ->.
    + rewrite dget_dset_other by auto. now rewrite view_cons.
Qed.

(** insertion succeeds unless a strict prefix of the path holds a leaf *)
Lemma ins_succeeds p : forall val d,
  p <> [] ->
  (forall q v, pcmp q p = PQ -> view q (Node d) <> Some (Some v)) ->
  exists d', ins p val d = Some d'.
Proof.
  induction p as [|k rest IH]; intros val d NN Hv; [easy|].
  destruct rest as [|k2 rest]; [eexists; reflexivity|].
  rewrite ins_cons2. destruct (IH val (sub_at k d)) as [s Hs]; [easy| |].
  - intros q v Hq. destruct q as [|b q]; [discriminate|]. rewrite <- view_sub_at by easy.
    apply Hv. cbn [pcmp]. now rewrite str_eqb_refl.
  - rewrite Hs. destruct (dget k d) as [[v|sub]|] eqn:Eg; cbn [option_map]; eauto.
    exfalso. apply (Hv [k] v); [cbn; now rewrite str_eqb_refl|]. now rewrite view_cons, Eg.
Qed.

Definition entry := (list str * tree)%type.

(** pairwise incomparable paths (prefix-consistent keys) *)
Definition PF (ES : list entry) : Prop :=
  forall e1 e2, In e1 ES -> In e2 ES -> e1 = e2 \/ pcmp (fst e1) (fst e2) = PInc.
Definition paths_nonempty (ES : list entry) : Prop := forall e, In e ES -> fst e <> [].
Definition all_terminal (ES : list entry) : Prop := forall e, In e ES -> terminal (snd e).

Lemma PF_ext ES ES' : (forall e, In e ES <-> In e ES') -> PF ES -> PF ES'.
Proof. intros H P e1 e2 H1 H2. apply P; now apply H. Qed.

(** what one terminal entry says about the path [q]: its own content at its
    path, a dictionary at every strict prefix, nothing elsewhere *)
Definition at_entry (e : entry) (q : list str) : option (option Z) :=
  match pcmp q (fst e) with PEq => tv (snd e) | PQ => Some None | _ => None end.
(** what a list of entries says: the first entry that says something *)
Fixpoint look (ES : list entry) (q : list str) : option (option Z) :=
  match ES with
  | [] => None
  | e :: ES' => match at_entry e q with Some x => Some x | None => look ES' q end
  end.
(** the dictionary [d] contains exactly the terminal entries [ES] *)
Definition Spec (ES : list entry) (d : dict) : Prop :=
  forall k q, view (k :: q) (Node d) = look ES (k :: q).

Lemma look_app A B q : look (A ++ B) q = match look A q with Some x => Some x | None => look B q end.
Proof. induction A as [|e A IH]; cbn; [reflexivity|]. now destruct (at_entry e q). Qed.
Lemma look_some ES q x : look ES q = Some x -> exists e, In e ES /\ at_entry e q = Some x.
Proof.
  induction ES as [|e ES IH]; cbn; [easy|]. destruct (at_entry e q) eqn:E.
  - intros [= <-]. eauto.
  - intro H. destruct (IH H) as (e' & H1 & H2). eauto.
Qed.
Lemma look_none ES q : look ES q = None <-> forall e, In e ES -> at_entry e q = None.
Proof.
  induction ES as [|e ES IH]; cbn; [easy|]. destruct (at_entry e q) eqn:E.
  - split; [easy|]. intro H. rewrite <- E. apply H. now left.
  - rewrite IH. split; [intros H e' [<-|H']; auto|auto].
Qed.

(** prefix-free entries never disagree, so the order of the list does not matter *)
Lemma PF_agree ES e1 e2 q :
  PF ES -> In e1 ES -> In e2 ES -> at_entry e1 q <> None -> at_entry e2 q <> None ->
  at_entry e1 q = at_entry e2 q.
Proof.
  unfold at_entry. intros P H1 H2 A1 A2. destruct (P _ _ H1 H2) as [<-|I]; [reflexivity|].
  destruct (pcmp q (fst e1)) eqn:C1; try easy.
  - apply pcmp_eq in C1 as ->. now rewrite I in A2.
  - destruct (pcmp q (fst e2)) eqn:C2; try easy.
    apply pcmp_eq in C2 as ->. apply pcmp_inc_sym in I. congruence.
Qed.
Lemma look_hit ES e q : PF ES -> In e ES -> at_entry e q <> None -> look ES q = at_entry e q.
Proof.
  intros P He Hx. destruct (look ES q) as [y|] eqn:E.
  - apply look_some in E as (e' & He' & Hy). rewrite <- Hy. apply (PF_agree ES); auto; congruence.
  - now rewrite (proj1 (look_none _ _) E e He) in Hx.
Qed.
Lemma look_ext ES ES' q : PF ES' -> (forall e, In e ES <-> In e ES') -> look ES q = look ES' q.
Proof.
  intros P H. destruct (look ES q) as [x|] eqn:E; symmetry.
  - apply look_some in E as (e & He & Hx). rewrite <- Hx. apply look_hit; [auto|now apply H|congruence].
  - apply look_none. intros e He. apply (proj1 (look_none _ _) E). now apply H.
Qed.

Definition ins_paths (ES : list entry) (acc : option dict) : option dict :=
  fold_left (fun acc e => match acc with Some d => ins (fst e) (snd e) d | None => None end) ES acc.

Lemma ins_paths_snoc ES e acc :
  ins_paths (ES ++ [e]) acc =
  match ins_paths ES acc with Some d => ins (fst e) (snd e) d | None => None end.
Proof. unfold ins_paths. now rewrite fold_left_app. Qed.

Lemma ins_paths_spec ES :
  PF ES -> paths_nonempty ES -> all_terminal ES ->
  exists r, ins_paths ES (Some []) = Some r /\ Spec ES r.
Proof.
  induction ES as [|[p val] ES IH] using rev_ind; intros P NE AT; [now exists []|].
  assert (Ie : In (p, val) (ES ++ [(p, val)])) by (apply in_app_iff; right; now left).
  assert (Is : forall e, In e ES -> In e (ES ++ [(p, val)])) by (intros; apply in_app_iff; now left).
  destruct IH as (r & Hr & S); [intros e1 e2 H1 H2; apply P; auto|intros e H; apply NE; auto|intros e H; apply AT; auto|].
  destruct (ins_succeeds p val r) as [r' Hr']; [exact (NE _ Ie)| |].
  { (* a leaf at a strict prefix of [p] would be an entry of [ES] that disagrees with [(p, val)] *)
    intros [|k q] v Hq Hv; [discriminate|]. rewrite S in Hv.
    apply look_some in Hv as (e & He & Hv).
    assert (A : at_entry (p, val) (k :: q) = Some None) by (unfold at_entry; cbn [fst]; now rewrite Hq).
    pose proof (PF_agree _ e (p, val) (k :: q) P (Is _ He) Ie). intuition congruence. }
  exists r'. split; [now rewrite ins_paths_snoc, Hr|].
  intros k q. rewrite (view_ins p val r r' _ (AT _ Ie) Hr').
  destruct (pcmp (k :: q) p) eqn:Ec; symmetry.
  1,2: rewrite (look_hit _ (p, val)); auto; unfold at_entry; cbn [fst]; rewrite Ec; try reflexivity; now destruct val.
  - apply look_none. intros e He. unfold at_entry.
    destruct (P _ _ Ie He) as [<-|A]; cbn [fst] in *; [now rewrite Ec|]. now rewrite (pcmp_trans_inc _ _ _ Ec A).
  - rewrite look_app, S. cbn. unfold at_entry. cbn [fst]. rewrite Ec. now destruct (look ES (k :: q)).
Qed.

Lemma tree_ind2 (P : tree -> Prop) :
  (forall v, P (Leaf v)) ->
  (forall l, Forall (fun kc => P (snd kc)) l -> P (Node l)) ->
  forall t, P t.
Proof.
  intros HL HN. fix IH 1. intros [v|l]; [apply HL|apply HN].
  induction l as [|[k c] l IHl]; constructor; [apply IH|apply IHl].
Qed.

Definition pcons (k : str) (e : entry) : entry := (k :: fst e, snd e).
Fixpoint entries_t (t : tree) : list entry :=
  match t with
  | Leaf v => [([], Leaf v)]
  | Node [] => [([], Node [])]
  | Node l => flat_map (fun kc => map (pcons (fst kc)) (entries_t (snd kc))) l
  end.
Definition entries (l : dict) : list entry :=
  flat_map (fun kc => map (pcons (fst kc)) (entries_t (snd kc))) l.

Lemma entries_cons k c l : entries ((k, c) :: l) = map (pcons k) (entries_t c) ++ entries l.
Proof. reflexivity. Qed.
Lemma entries_t_node l : l <> [] -> entries_t (Node l) = entries l.
Proof. destruct l; [easy|reflexivity]. Qed.
Lemma in_entries e l :
  In e (entries l) <-> exists k c e', In (k, c) l /\ In e' (entries_t c) /\ e = pcons k e'.
Proof.
  unfold entries. rewrite in_flat_map. split.
  - intros ([k c] & H1 & H2). apply in_map_iff in H2 as (e' & <- & H2). now exists k, c, e'.
  - intros (k & c & e' & H1 & H2 & ->). exists (k, c). split; auto. apply in_map_iff. now exists e'.
Qed.
Lemma entries_t_nonempty t : entries_t t <> [].
Proof.
  induction t as [v|l IH] using tree_ind2; [easy|].
  destruct l as [|[k c] l]; [easy|]. rewrite entries_t_node by easy.
  inversion IH as [|? ? H1 H2]; subst. cbn in *. destruct (entries_t c); [easy|]. easy.
Qed.
Lemma map_fst_pcons k (ES : list entry) : map fst (map (pcons k) ES) = map (cons k) (map fst ES).
Proof. rewrite !map_map. reflexivity. Qed.
Lemma entries_nonempty_paths l : paths_nonempty (entries l).
Proof. intros e He. apply in_entries in He as (k & c & e' & _ & _ & ->). easy. Qed.

Lemma wf_tree_node sep l :
  wf_tree sep (Node l) = true <->
  NoDup (map fst l) /\ forall k c, In (k, c) l -> contains sep k = false /\ wf_tree sep c = true.
Proof.
  cbn [wf_tree]. rewrite andb_true_iff, negb_true_iff, has_dup_false, forallb_forall.
  apply and_iff_compat_l. split.
  - intros H k c Hi. apply H in Hi. apply andb_true_iff in Hi as [H2 H3]. now apply negb_true_iff in H2.
  - intros H [k c] Hi. destruct (H k c Hi) as [H2 H3]. now rewrite H2, H3.
Qed.

Lemma nodup_keys_inj {V} (l : list (str * V)) k c1 c2 :
  NoDup (map fst l) -> In (k, c1) l -> In (k, c2) l -> c1 = c2.
Proof. intros ND H1 H2. apply In_dget in H1, H2; auto. congruence. Qed.

Lemma look_pcons k k' ES q : look (map (pcons k') ES) (k :: q) = if str_eqb k k' then look ES q else None.
Proof.
  induction ES as [|e ES IH]; cbn [map look]; [now destruct (str_eqb k k')|].
  rewrite IH. unfold at_entry. cbn. now destruct (str_eqb k k').
Qed.
Lemma look_root ES : ES <> [] -> paths_nonempty ES -> look ES [] = Some None.
Proof.
  destruct ES as [|e ES]; [easy|]. intros _ NE. specialize (NE e (or_introl eq_refl)).
  cbn. unfold at_entry. now destruct (fst e).
Qed.
Lemma look_entries l k q :
  NoDup (map fst l) ->
  look (entries l) (k :: q) = match dget k l with Some c => look (entries_t c) q | None => None end.
Proof.
  induction l as [|[k' c] l IH]; intro ND; [reflexivity|]. inversion ND as [|? ? N1 N2]; subst.
  rewrite entries_cons, look_app, look_pcons, (IH N2). cbn [dget].
  destruct (str_eqb_spec k k') as [->|N]; [|reflexivity].
  destruct (dget k' l) as [c'|] eqn:E; [|now destruct (look (entries_t c) q)].
  destruct N1. apply dget_keys. congruence.
Qed.

(** a well-formed tree contains exactly its entries *)
Lemma entries_look sep t : wf_tree sep t = true -> forall q, view q t = look (entries_t t) q.
Proof.
  induction t as [v|l IH] using tree_ind2; intro W; [now intros [|k q]|].
  destruct l as [|x0 l0]; [now intros [|k q]|].
  rewrite entries_t_node by easy. destruct (proj1 (wf_tree_node _ _) W) as [ND Wc].
  intros [|k q].
  - symmetry. apply look_root; [|apply entries_nonempty_paths].
    rewrite <- entries_t_node by easy. apply entries_t_nonempty.
  - rewrite view_cons, look_entries by exact ND. destruct (dget k (x0 :: l0)) as [c|] eqn:E; [|reflexivity].
    apply dget_In in E. rewrite Forall_forall in IH. exact (IH _ E (proj2 (Wc _ _ E)) q).
Qed.
(** the entries of a well-formed tree: prefix-free, terminal, with pairwise
    distinct paths free of [sep]; those of a dictionary have non-empty paths
    as well, and these are the lists that flatten and unflatten handle *)
Definition nosep sep (p : list str) : Prop := Forall (fun k => contains sep k = false) p.
Definition wf_entries (sep : Z) (ES : list entry) : Prop :=
  PF ES /\ all_terminal ES /\ NoDup (map fst ES) /\ forall e, In e ES -> nosep sep (fst e).
Definition good_entries (sep : Z) (ES : list entry) : Prop := wf_entries sep ES /\ paths_nonempty ES.

Lemma wf_entries_single sep t : terminal t -> wf_entries sep [([], t)].
Proof.
  intro T. repeat split; [|intros e [<-|[]]; exact T|repeat constructor; easy|intros e [<-|[]]; constructor].
  intros e1 e2 [<-|[]] [<-|[]]. now left.
Qed.
Lemma entries_t_good sep t : wf_tree sep t = true -> wf_entries sep (entries_t t).
Proof.
  induction t as [v|l IH] using tree_ind2; intro W; [now apply wf_entries_single|].
  destruct l as [|x0 l0]; [now apply wf_entries_single|].
  rewrite entries_t_node by easy. remember (x0 :: l0) as l eqn:El. clear El x0 l0.
  destruct (proj1 (wf_tree_node _ _) W) as [ND Wc]. clear W.
  assert (G : forall k c, In (k, c) l -> wf_entries sep (entries_t c)).
  { rewrite Forall_forall in IH. intros k c H. apply (IH _ H), (Wc k c H). }
  clear IH. repeat split.
  - intros e1 e2 H1 H2.
    apply in_entries in H1 as (k1 & c1 & e1' & A1 & B1 & ->).
    apply in_entries in H2 as (k2 & c2 & e2' & A2 & B2 & ->).
    cbn. destruct (str_eqb_spec k1 k2) as [<-|]; [|now right]. rewrite (nodup_keys_inj _ _ _ _ ND A2 A1) in B2.
    destruct (proj1 (G _ _ A1) _ _ B1 B2) as [->|Pc']; [now left|now right].
  - intros e He. apply in_entries in He as (k & c & e' & H1 & H2 & ->). exact (proj1 (proj2 (G _ _ H1)) _ H2).
  - induction l as [|[k c] l IHl]; [constructor|]. inversion ND as [|? ? N1 N2]; subst.
    rewrite entries_cons, map_app. apply nodup_app. split; [|split].
    + rewrite map_fst_pcons.
      apply nodup_map_inj_in; [apply (G k c); now left|now intros ? ? _ _ [= ->]].
    + apply IHl; auto; intros k2 c2 H; [apply Wc|apply (G k2)]; now right.
    + intros p Hp Hp2. apply in_map_iff in Hp as (e1 & <- & H1). apply in_map_iff in H1 as (e1' & <- & H1).
      apply in_map_iff in Hp2 as (e2 & Eq & H2).
      apply in_entries in H2 as (k2 & c2 & e2' & A2 & B2 & ->). cbn in Eq. injection Eq as -> _.
      apply N1. apply in_map_iff. now exists (k, c2).
  - intros e He. apply in_entries in He as (k & c & e' & H1 & H2 & ->).
    constructor; [apply (Wc _ _ H1)|apply (G _ _ H1), H2].
Qed.

(** leaf / empty-dictionary parts of an entry list, in order *)
Definition leaf_part (ES : list entry) : list (list str * Z) :=
  flat_map (fun e => match snd e with Leaf v => [(fst e, v)] | Node _ => [] end) ES.
Definition empty_part (ES : list entry) : list (list str) :=
  flat_map (fun e => match snd e with Leaf _ => [] | Node _ => [fst e] end) ES.

Lemma leaf_part_app a b : leaf_part (a ++ b) = leaf_part a ++ leaf_part b.
Proof. unfold leaf_part. now rewrite flat_map_app. Qed.
Lemma empty_part_app a b : empty_part (a ++ b) = empty_part a ++ empty_part b.
Proof. unfold empty_part. now rewrite flat_map_app. Qed.
Lemma leaf_part_pcons k ES :
  leaf_part (map (pcons k) ES) = map (fun pv => (k :: fst pv, snd pv)) (leaf_part ES).
Proof.
  induction ES as [|[p [v|l]] ES IH]; cbn; [reflexivity| |]; unfold leaf_part in *; cbn; now rewrite IH.
Qed.
Lemma empty_part_pcons k ES : empty_part (map (pcons k) ES) = map (cons k) (empty_part ES).
Proof.
  induction ES as [|[p [v|l]] ES IH]; cbn; [reflexivity| |]; unfold empty_part in *; cbn; now rewrite IH.
Qed.
Lemma in_leaf_part ES p v : In (p, v) (leaf_part ES) <-> In (p, Leaf v) ES.
Proof.
  unfold leaf_part. rewrite in_flat_map. split.
  - intros ([p' [v'|l]] & H1 & H2); cbn in H2; [|easy]. destruct H2 as [[= -> ->]|[]]. auto.
  - intro H. exists (p, Leaf v). split; auto. now left.
Qed.
Lemma in_empty_part ES p : In p (empty_part ES) <-> exists l, In (p, Node l) ES.
Proof.
  unfold empty_part. rewrite in_flat_map. split.
  - intros ([p' [v'|l]] & H1 & H2); cbn in H2; [easy|]. destruct H2 as [<-|[]]. eauto.
  - intros [l H]. exists (p, Node l). split; auto. now left.
Qed.
Lemma parts_perm ES : Permutation (map fst (leaf_part ES) ++ empty_part ES) (map fst ES).
Proof.
  unfold leaf_part, empty_part. induction ES as [|[p [v|l]] ES IH]; cbn; [constructor|now constructor|].
  symmetry. apply Permutation_cons_app. now symmetry.
Qed.

Lemma entries_spec sep d : wf_tree sep (Node d) = true -> Spec (entries d) d.
Proof.
  intros W k q. destruct d as [|x0 d0]; [reflexivity|].
  rewrite <- entries_t_node by easy. now apply (entries_look sep).
Qed.
Lemma entries_good sep d : wf_tree sep (Node d) = true -> good_entries sep (entries d).
Proof.
  intro W. split; [|apply entries_nonempty_paths].
  destruct d as [|x0 d0]; [repeat split; easy || constructor|].
  rewrite <- entries_t_node by easy. now apply entries_t_good.
Qed.

(** the flat key of the path [p] *)
Definition mk (sep : Z) (prefix : str) (nested : bool) (p : list str) : str :=
  new_key_of sep prefix nested (join sep p).
Definition mk_items sep prefix nested (LP : list (list str * Z)) : list (str * Z) :=
  map (fun pv => (mk sep prefix nested (fst pv), snd pv)) LP.

Lemma mk_cons sep prefix nested k p :
  p <> [] -> mk sep prefix nested (k :: p) = mk sep (new_key_of sep prefix nested k) true p.
Proof.
  intro NN. unfold mk. rewrite join_cons by auto. unfold new_key_of.
  rewrite orb_true_r. destruct (nonempty prefix || nested); [|reflexivity].
  now rewrite <- app_assoc.
Qed.
Lemma mk_inj sep prefix nested p1 p2 :
  p1 <> [] -> p2 <> [] -> nosep sep p1 -> nosep sep p2 ->
  mk sep prefix nested p1 = mk sep prefix nested p2 -> p1 = p2.
Proof.
  intros N1 N2 S1 S2 E. unfold mk, new_key_of in E.
  assert (J : join sep p1 = join sep p2).
  { destruct (nonempty prefix || nested); [|exact E]. apply app_inv_head in E. now injection E. }
  rewrite <- (split_join sep p1), <- (split_join sep p2) by auto. now rewrite J.
Qed.

Lemma mk_items_keys sep prefix nested LP :
  map fst (mk_items sep prefix nested LP) = map (mk sep prefix nested) (map fst LP).
Proof. unfold mk_items. now rewrite !map_map. Qed.

(** the flattened keys are pairwise distinct (so the duplicate checks pass) *)
Lemma keys_nodup sep prefix nested ES :
  good_entries sep ES ->
  NoDup (map fst (mk_items sep prefix nested (leaf_part ES)) ++ map (mk sep prefix nested) (empty_part ES)).
Proof.
  intros ((_ & _ & ND & NS) & NE). rewrite mk_items_keys, <- map_app.
  assert (X : forall p, In p (map fst (leaf_part ES) ++ empty_part ES) -> p <> [] /\ nosep sep p).
  { intros p H. apply (Permutation_in _ (parts_perm ES)), in_map_iff in H as (e & <- & H). auto. }
  apply nodup_map_inj_in; [exact (Permutation_NoDup (Permutation_sym (parts_perm ES)) ND)|].
  intros p1 p2 H1 H2. apply mk_inj; now apply X.
Qed.

Lemma flatten_t_unfold sep prefix nested l :
  flatten_t sep prefix nested (Node l) =
  flatten_post (flatten_loop (fun nk v => flatten_t sep nk true v) sep prefix nested l).
Proof. reflexivity. Qed.

Lemma flatten_spec sep t :
  wf_tree sep t = true -> forall prefix nested,
  flatten_t sep prefix nested t =
  match t with
  | Leaf _ => None
  | Node l => Some (mk_items sep prefix nested (leaf_part (entries l)),
                    map (mk sep prefix nested) (empty_part (entries l)))
  end.
Proof.
  induction t as [v|l0 IH] using tree_ind2; intros W prefix nested; [reflexivity|].
  rewrite flatten_t_unfold.
  destruct (proj1 (wf_tree_node _ _) W) as [ND Wc].
  assert (L : flatten_loop (fun nk v => flatten_t sep nk true v) sep prefix nested l0 =
              Some (mk_items sep prefix nested (leaf_part (entries l0)),
                    map (mk sep prefix nested) (empty_part (entries l0)))).
  { clear W ND. induction l0 as [|[k c] l IHl]; [reflexivity|].
    inversion IH as [|? ? I1 I2]; subst. cbn in I1.
    destruct (Wc k c (or_introl eq_refl)) as [Sk Wk].
    cbn [flatten_loop]. rewrite Sk.
    fold (flatten_loop (fun nk v => flatten_t sep nk true v) sep prefix nested l).
    rewrite (IHl I2) by (intros k2 c2 H; apply Wc; now right).
    rewrite entries_cons, leaf_part_app, empty_part_app, leaf_part_pcons, empty_part_pcons.
    unfold mk_items. rewrite !map_app. fold (mk_items sep prefix nested (leaf_part (entries l))).
    destruct c as [x|[|y sub]]; [reflexivity..|].
    - rewrite (I1 Wk), entries_t_node by easy.
      f_equal. f_equal.
      + f_equal. rewrite map_map. unfold mk_items. apply map_ext_in.
        intros [p v] Hp. cbn. rewrite mk_cons; [reflexivity|].
        apply in_leaf_part in Hp. now apply entries_nonempty_paths in Hp.
      + f_equal. rewrite map_map. apply map_ext_in.
        intros p Hp. rewrite mk_cons; [reflexivity|].
        apply in_empty_part in Hp as [l' Hp]. now apply entries_nonempty_paths in Hp. }
  rewrite L. unfold flatten_post.
  destruct (proj1 (nodup_app _ _) (keys_nodup sep prefix nested _ (entries_good _ _ W))) as (K1 & K2 & _).
  rewrite (proj2 (has_dup_false _) K1), (proj2 (has_dup_false _) K2).
  now rewrite dict_of_nodup.
Qed.

Lemma ins_all_join sep (ES : list entry) : forall acc,
  (forall e, In e ES -> fst e <> [] /\ nosep sep (fst e)) ->
  ins_all sep (map (fun e => (join sep (fst e), snd e)) ES) acc = ins_paths ES acc.
Proof.
  unfold ins_all, ins_paths. induction ES as [|e ES IH]; intros acc H; [reflexivity|].
  cbn [map fold_left fst snd]. rewrite split_join by (apply H; now left).
  apply IH. intros e' He'. apply H. now right.
Qed.

(** rebuilt entry list = leaf entries followed by empty-dictionary entries *)
Definition rebuild (ES : list entry) : list entry :=
  map (fun pv => (fst pv, Leaf (snd pv))) (leaf_part ES) ++ map (fun p => (p, Node [])) (empty_part ES).
Lemma in_rebuild ES e : all_terminal ES -> (In e (rebuild ES) <-> In e ES).
Proof.
  intro AT. unfold rebuild. rewrite in_app_iff, !in_map_iff. split.
  - intros [([p v] & <- & H)|(p & <- & H)].
    + now apply in_leaf_part in H.
    + apply in_empty_part in H as [l H]. pose proof (AT _ H) as T. cbn in T. now subst l.
  - destruct e as [p [v|l]]; intro H.
    + left. exists (p, v). split; auto. now apply in_leaf_part.
    + right. exists p. pose proof (AT _ H) as T. cbn in T. subst l. split; auto.
      apply in_empty_part. eauto.
Qed.

(** on pairwise distinct keys the two [dict] merges of [unflatten_dict] append *)
Lemma unflatten_dict_nodup sep flat empties :
  NoDup (map fst flat ++ empties) ->
  unflatten_dict sep flat empties =
  ins_all sep (leaf_entries flat ++ map (fun k => (k, Node [])) empties) (Some []).
Proof.
  intro ND. unfold unflatten_dict, empty_entries.
  assert (E : map fst (map (fun k => (k, Node [])) empties) = empties) by (rewrite map_map; apply map_id).
  rewrite dict_of_nodup, dmerge_fresh; [reflexivity| |].
  - unfold leaf_entries. now rewrite map_app, map_map, E.
  - rewrite E. now apply nodup_app in ND.
Qed.

(** [unflatten_dict] of the keys made from a good entry list builds a
    dictionary with exactly these entries *)
Lemma unflatten_entries sep ES :
  good_entries sep ES ->
  exists r, unflatten_dict sep (mk_items sep [] false (leaf_part ES)) (map (mk sep [] false) (empty_part ES)) = Some r /\
            Spec ES r.
Proof.
  intro G. pose proof (keys_nodup sep [] false ES G) as K. destruct G as ((P & AT & _ & NS) & NE).
  assert (RB : forall e, In e (rebuild ES) <-> In e ES) by (intro; now apply in_rebuild).
  destruct (ins_paths_spec (rebuild ES)) as (r & Hr & Sr).
  { eapply PF_ext; [|exact P]. intro e. symmetry. apply RB. }
  { intros e He. apply RB in He. now apply NE. }
  { intros e He. apply RB in He. now apply AT. }
  exists r. split; [|intros k q; rewrite (Sr k q); now apply look_ext].
  rewrite unflatten_dict_nodup, <- Hr, <- (ins_all_join sep) by (auto; intros e He; apply RB in He; auto).
  unfold rebuild, leaf_entries, mk_items. now rewrite map_app, !map_map.
Qed.

(** [unflatten_dict] rebuilds, from the output of [flatten_dict], a dictionary
    that has the same content at every path *)
Theorem unflatten_flatten_views sep d :
  wf_dict sep d = true ->
  exists flat empties r,
    flatten_dict sep [] d = Some (flat, empties) /\
    unflatten_dict sep flat empties = Some r /\
    forall q, view q (Node r) = view q (Node d).
Proof.
  unfold wf_dict. intro W. pose proof (entries_good _ _ W) as G.
  destruct (unflatten_entries sep _ G) as (r & Hr & Sr).
  do 3 eexists. split; [exact (flatten_spec sep (Node d) W [] false)|]. split; [exact Hr|].
  intros [|k q]; [reflexivity|]. now rewrite (Sr k q), (entries_spec sep d W k q).
Qed.

(** keys unique at every level: on such trees Python's [==] is "same content
    at every path" *)
Inductive ndt : tree -> Prop :=
| ndt_leaf v : ndt (Leaf v)
| ndt_node l : NoDup (map fst l) -> Forall (fun kc => ndt (snd kc)) l -> ndt (Node l).

Lemma wf_tree_ndt sep t : wf_tree sep t = true -> ndt t.
Proof.
  induction t as [v|l IH] using tree_ind2; intro W; constructor; apply wf_tree_node in W as [ND Wc]; [exact ND|].
  rewrite Forall_forall in *. intros [k c] H. apply (IH _ H). now apply (Wc k c).
Qed.

Lemma view_key k l : view [k] (Node l) <> None <-> In k (map fst l).
Proof. rewrite view_cons, <- dget_keys. destruct (dget k l) as [c|]; [rewrite view_nil; now destruct c|tauto]. Qed.
Lemma views_keys la lb : (forall q, view q (Node la) = view q (Node lb)) -> incl (map fst la) (map fst lb).
Proof. intros H k. rewrite <- !view_key, H. tauto. Qed.

Lemma views_eq_tree_eqb t1 : forall t2,
  ndt t1 -> ndt t2 -> (forall q, view q t1 = view q t2) -> tree_eqb t1 t2 = true.
Proof.
  induction t1 as [v|l1 IH] using tree_ind2; intros t2 N1 N2 Hv; pose proof (Hv []) as H0; rewrite !view_nil in H0.
  - destruct t2; [|discriminate]. injection H0 as ->. apply Z.eqb_refl.
  - destruct t2 as [v|l2]; [discriminate|].
    inversion N1 as [|? ND1 F1]; subst. inversion N2 as [|? ND2 F2]; subst.
    cbn [tree_eqb]. apply andb_true_iff. split.
    + apply Nat.eqb_eq. rewrite <- (map_length fst l1), <- (map_length fst l2).
      apply Nat.le_antisymm; apply NoDup_incl_length; auto using views_keys.
    + apply forallb_forall. intros [k c] Hc. rewrite Forall_forall in IH, F1, F2.
      pose proof (In_dget _ _ _ ND1 Hc) as G1.
      destruct (dget k l2) as [c2|] eqn:G2.
      * apply (IH _ Hc); [exact (F1 _ Hc)|exact (F2 _ (dget_In _ _ _ G2))|].
        intro q. specialize (Hv (k :: q)). now rewrite !view_cons, G1, G2 in Hv.
      * exfalso. apply (dget_keys k l2); [|exact G2]. apply (views_keys _ _ Hv), dget_keys. congruence.
Qed.

Lemma tree_eqb_views t1 : forall t2,
  ndt t1 -> tree_eqb t1 t2 = true -> forall q, view q t1 = view q t2.
Proof.
  induction t1 as [v|l1 IH] using tree_ind2; intros t2 N1 E q.
  - destruct t2; [|discriminate]. cbn in E. apply Z.eqb_eq in E. now subst.
  - destruct t2 as [v|l2]; [discriminate|]. cbn [tree_eqb] in E.
    apply andb_true_iff in E as [E1 E2]. apply Nat.eqb_eq in E1.
    inversion N1 as [|? ND1 F1]; subst.
    rewrite forallb_forall in E2. rewrite Forall_forall in IH, F1.
    destruct q as [|k q]; [reflexivity|]. rewrite !view_cons.
    destruct (dget k l1) as [c|] eqn:G1.
    + pose proof (dget_In _ _ _ G1) as Hc. specialize (E2 _ Hc). cbn in E2.
      destruct (dget k l2) as [c2|]; [|discriminate]. exact (IH _ Hc c2 (F1 _ Hc) E2 q).
    + destruct (dget k l2) as [c2|] eqn:G2; [exfalso|reflexivity].
      (* every key of l1 is a key of l2 (first occurrences), |l1| = |l2|, keys of l1 distinct:
         the keys of l2 are covered *)
      assert (I12 : incl (map fst l1) (map fst l2)).
      { intros k' Hk'. apply in_map_iff in Hk' as ([k'' c'] & <- & Hk'). specialize (E2 _ Hk'). cbn in E2.
        apply (dget_keys k''). now destruct (dget k'' l2). }
      assert (I21 : incl (map fst l2) (map fst l1)).
      { apply NoDup_length_incl; auto. rewrite !map_length. lia. }
      apply (dget_keys k l1); [|exact G1]. apply I21, dget_keys. congruence.
Qed.

Lemma dset_wf sep k v d :
  contains sep k = false -> wf_tree sep (Node d) = true -> wf_tree sep v = true ->
  wf_tree sep (Node (dset k v d)) = true.
Proof.
  intros Hk W Wv. apply wf_tree_node in W as [ND Wc]. apply wf_tree_node. split; [now apply dset_nodup|].
  intros a b H. apply in_dset_key in H as [H|[-> ->]]; auto.
Qed.
Lemma ins_wf sep p : forall val d d',
  nosep sep p -> wf_tree sep (Node d) = true -> wf_tree sep val = true ->
  ins p val d = Some d' -> wf_tree sep (Node d') = true.
Proof.
  induction p as [|k rest IH]; intros val d d' NS W Wv H; [discriminate|].
  inversion NS as [|? ? Hk Hr]; subst. destruct rest as [|k2 rest].
  - injection H as <-. now apply dset_wf.
  - apply ins_cons2_some in H as (s & Hs & ->). apply dset_wf; auto. apply (IH val (sub_at k d)); auto.
    unfold sub_at. destruct (dget k d) as [[v|sub]|] eqn:G; try reflexivity.
    apply wf_tree_node in W as [_ Wc]. exact (proj2 (Wc _ _ (dget_In _ _ _ G))).
Qed.
Lemma ins_all_wf sep (ES : dict) : forall acc,
  (forall e, In e ES -> wf_tree sep (snd e) = true) ->
  (forall a, acc = Some a -> wf_tree sep (Node a) = true) ->
  forall r, ins_all sep ES acc = Some r -> wf_tree sep (Node r) = true.
Proof.
  unfold ins_all. induction ES as [|e ES IH]; intros acc HE Ha; cbn [fold_left]; [exact Ha|].
  apply IH; [intros e' He'; apply HE; now right|].
  destruct acc as [a|]; [|discriminate]. intros a' Hi.
  exact (ins_wf _ _ _ _ _ (split_parts_nosep sep (fst e)) (Ha a eq_refl) (HE e (or_introl eq_refl)) Hi).
Qed.
Lemma unflatten_wf sep flat empties r :
  unflatten_dict sep flat empties = Some r -> wf_tree sep (Node r) = true.
Proof.
  unfold unflatten_dict. apply ins_all_wf; [|now intros a [= <-]].
  apply (dmerge_Forall_snd (fun t => wf_tree sep t = true)).
  - intros e He. apply in_map_iff in He as (x & <- & _). reflexivity.
  - apply (dmerge_Forall_snd (fun t => wf_tree sep t = true)); [easy|].
    intros e He. apply in_map_iff in He as (x & <- & _). reflexivity.
Qed.

(** the property as stated: flatten succeeds and unflatten gives back a
    dictionary that is [==] to the input *)
Theorem unflatten_flatten sep d :
  wf_dict sep d = true ->
  exists flat empties r,
    flatten_dict sep [] d = Some (flat, empties) /\
    unflatten_dict sep flat empties = Some r /\
    tree_eqb (Node r) (Node d) = true /\ tree_eqb (Node d) (Node r) = true.
Proof.
  intro W. destruct (unflatten_flatten_views sep d W) as (flat & empties & r & H1 & H2 & H3).
  exists flat, empties, r. repeat split; auto.
  - apply views_eq_tree_eqb; auto; [eapply wf_tree_ndt, unflatten_wf; eauto|eapply wf_tree_ndt; exact W].
  - apply views_eq_tree_eqb; auto; [eapply wf_tree_ndt; exact W|eapply wf_tree_ndt, unflatten_wf; eauto].
Qed.

Section ArrayLemmas.
  Context {A : Type}.
  Implicit Types a : list A.

  Lemma slice_app_mid (pre l rest : list A) :
    slice (length pre) (length pre + length l) (pre ++ l ++ rest) = l.
  Proof.
    unfold slice. rewrite firstn_app, firstn_all2 by lia.
    replace (length pre + length l - length pre) with (length l) by lia.
    rewrite firstn_app, firstn_all, Nat.sub_diag. cbn. rewrite app_nil_r.
    rewrite skipn_app, skipn_all, Nat.sub_diag. reflexivity.
  Qed.

  Lemma pieces_concat (ls : list (list A)) : forall (pre : list A),
    ls <> [] ->
    pieces (length pre) (removelast (cumsum_from (length pre) (map (@length A) ls))) (pre ++ concat ls) = ls.
  Proof.
    induction ls as [|l ls IH]; intros pre NN; [easy|].
    destruct ls as [|l2 ls].
    - cbn. unfold slice. now rewrite app_nil_r, firstn_all, skipn_app, skipn_all, Nat.sub_diag.
    - specialize (IH (pre ++ l) ltac:(easy)). rewrite app_length, <- app_assoc in IH.
      cbn [map cumsum_from removelast pieces concat] in *.
      now rewrite slice_app_mid, IH.
  Qed.

  Theorem unpack_pack (leaves : list (list A)) packed :
    pack_pytree leaves = Some packed ->
    unpack_to_pytree packed (map (@length A) leaves) = Some leaves.
  Proof.
    unfold pack_pytree, unpack_to_pytree. destruct leaves as [|l ls]; [discriminate|].
    intros [= <-]. unfold split_at, cumsum.
    pose proof (pieces_concat (l :: ls) [] ltac:(easy)) as PC. cbn [length app concat] in PC. rewrite PC.
    unfold tree_unflatten. now rewrite map_length, Nat.eqb_refl.
  Qed.
  Lemma pack_empty : @pack_pytree A [] = None /\ @stack_pytree A [] = None.
  Proof. split; reflexivity. Qed.

  Lemma chunks_one a : chunks 1 (length a) a = map (fun x => [x]) a.
  Proof. induction a as [|x a IH]; cbn; [reflexivity|]. now rewrite IH. Qed.
  Lemma all_some_squeeze a : all_some (map squeeze1 (map (fun x : A => [x]) a)) = Some a.
  Proof. induction a as [|x a IH]; cbn; [reflexivity|]. cbn in IH. now rewrite IH. Qed.
  Lemma split_sections_self a : a <> [] -> split_sections (length a) a = Some (map (fun x => [x]) a).
  Proof.
    intro NN. unfold split_sections. destruct (length a) as [|n] eqn:E; [now destruct a|].
    rewrite Nat.mod_same, Nat.div_same by lia. cbn [Nat.eqb]. now rewrite <- E, chunks_one.
  Qed.

  Theorem unstack_stack (leaves : list A) stacked :
    stack_pytree leaves = Some stacked -> unstack_to_pytree stacked (length leaves) = Some leaves.
  Proof.
    unfold stack_pytree, unstack_to_pytree. destruct leaves as [|x l]; [discriminate|]. intros [= <-].
    rewrite split_sections_self by easy. rewrite all_some_squeeze.
    unfold tree_unflatten. now rewrite Nat.eqb_refl.
  Qed.

  Lemma concat_zip2 {B} (f g : B -> list A) (l : list B) :
    map (@concat A) (zip_star [map f l; map g l]) = map (fun b => f b ++ g b) l.
  Proof. cbn [zip_star]. induction l as [|b l IH]; cbn; [reflexivity|]. now rewrite app_nil_r, IH. Qed.
  Theorem concat_split (i : Z) (inputs : list (list A)) :
    concat_along_axis [fst (split_along_axis i inputs); snd (split_along_axis i inputs)] = Some inputs.
  Proof.
    unfold concat_along_axis, split_along_axis. cbn [fst snd forallb].
    rewrite !map_length, Nat.eqb_refl. cbn [andb]. f_equal.
    rewrite concat_zip2. etransitivity; [|apply map_id]. apply map_ext. intro a.
    unfold slice. cbn [skipn]. rewrite firstn_all. apply firstn_skipn.
  Qed.
End ArrayLemmas.

Section SpectralLemmas.
  Context {F : Type} (zero : F).

  Theorem down_up_identity (M L M' L' : nat) (x : list (list F)) :
    length x = M -> Forall (fun row => length row = L) x ->
    slice2 M L (pad2 zero (M' - M) (L' - L) L x) = x.
  Proof.
    intros HM HL. unfold slice2, pad2. rewrite map_app, firstn_app, map_length, map_length.
    rewrite HM, Nat.sub_diag. cbn [firstn]. rewrite app_nil_r.
    rewrite firstn_all2 by (rewrite !map_length; lia).
    rewrite map_map. clear HM. induction x as [|row x IH]; cbn; [reflexivity|].
    inversion HL as [|? ? H1 H2]; subst. rewrite IH by auto. f_equal.
    rewrite firstn_app, firstn_all, Nat.sub_diag. cbn. apply app_nil_r.
  Qed.

  (** the option-level statement: whenever upsampling is accepted, downsampling
      back (same wavenumber counts as modal sizes or any consistent pair) is the identity *)
  Theorem downsample_upsample (Mw Lw Mw' Lw' M L M' L' : nat) (x y : list (list F)) :
    length x = M -> Forall (fun row => length row = L) x ->
    (Mw <= Mw')%nat -> (Lw <= Lw')%nat ->
    upsample zero M L M' L' x = Some y ->
    downsample Mw' Lw' Mw Lw M L y = Some x.
  Proof.
    intros HM HL H1 H2. unfold upsample, downsample.
    destruct (Nat.ltb M' M || Nat.ltb L' L); [discriminate|]. intros [= <-].
    assert (E : Nat.ltb Lw' Lw || Nat.ltb Mw' Mw = false).
    { apply orb_false_iff. split; apply Nat.ltb_ge; lia. }
    rewrite E. f_equal. now apply down_up_identity.
  Qed.

  Lemma nth_app_zeros (row : list F) d l : nth l (row ++ repeat zero d) zero = nth l row zero.
  Proof.
    destruct (Nat.lt_ge_cases l (length row)) as [H|H]; [now apply app_nth1|].
    now rewrite app_nth2, nth_repeat, nth_overflow.
  Qed.

  (** upsampling keeps every coefficient at its (m, l) index and fills zeros elsewhere *)
  Theorem upsample_coef (M L dM dL : nat) (x : list (list F)) m l :
    length x = M -> Forall (fun row => length row = L) x ->
    coef zero (pad2 zero dM dL L x) m l =
    if Nat.ltb m M && Nat.ltb l L then coef zero x m l else zero.
  Proof.
    intros HM HL. unfold coef, pad2.
    destruct (Nat.ltb_spec m M) as [Hm|Hm]; cbn [andb].
    - rewrite app_nth1 by (rewrite map_length; lia).
      rewrite (nth_indep _ [] ([] ++ repeat zero dL)) by (rewrite map_length; lia).
      rewrite (map_nth (fun row => row ++ repeat zero dL)), nth_app_zeros.
      destruct (Nat.ltb_spec l L) as [Hl|Hl]; [reflexivity|]. apply nth_overflow.
      rewrite Forall_forall in HL. rewrite (HL (nth m x [])); [exact Hl|]. apply nth_In. lia.
    - rewrite app_nth2, map_length by (rewrite map_length; lia).
      destruct (Nat.lt_ge_cases (m - length x) dM) as [Hd|Hd].
      + rewrite (nth_indep _ [] (repeat zero (L + dL))) by now rewrite repeat_length. now rewrite !nth_repeat.
      + rewrite (nth_overflow (repeat _ dM)) by now rewrite repeat_length. now destruct l.
  Qed.

  Lemma pad2_shape (M L dM dL : nat) (x : list (list F)) :
    length x = M -> Forall (fun row => length row = L) x ->
    length (pad2 zero dM dL L x) = M + dM /\
    Forall (fun row => length row = L + dL) (pad2 zero dM dL L x).
  Proof.
    intros HM HL. unfold pad2. split.
    - now rewrite app_length, map_length, repeat_length, HM.
    - apply Forall_app. split.
      + rewrite Forall_forall in *. intros r Hr. apply in_map_iff in Hr as (r0 & <- & Hr).
        rewrite app_length, repeat_length. now rewrite (HL _ Hr).
      + apply Forall_forall. intros r Hr. apply repeat_spec in Hr. subst. apply repeat_length.
  Qed.
  (** what [upsample] returns when it accepts: the coefficients in place, zeros
      elsewhere, and the requested shape *)
  Lemma upsample_spec (M L M' L' : nat) (x y : list (list F)) m l :
    length x = M -> Forall (fun row => length row = L) x ->
    upsample zero M L M' L' x = Some y ->
    coef zero y m l = (if Nat.ltb m M && Nat.ltb l L then coef zero x m l else zero) /\
    length y = M' /\ Forall (fun row => length row = L') y.
  Proof.
    intros HM HL. unfold upsample.
    destruct (Nat.ltb M' M || Nat.ltb L' L) eqn:E; [discriminate|]. intros [= <-].
    apply orb_false_iff in E as [E1 E2]. apply Nat.ltb_ge in E1, E2.
    destruct (pad2_shape M L (M' - M) (L' - L) x HM HL) as [S1 S2].
    split; [now apply upsample_coef|]. split; [lia|].
    eapply Forall_impl; [|exact S2]. cbn. intros row Hr. lia.
  Qed.
End SpectralLemmas.

Definition relabel (g : list str -> Z) (e : entry) : entry :=
  (fst e, match snd e with Leaf _ => Leaf (g (fst e)) | Node l => Node l end).

Lemma relabel_good sep g ES : good_entries sep ES -> good_entries sep (map (relabel g) ES).
Proof.
  intros ((P & AT & ND & NS) & NE). split; [split; [|split; [|split]]|].
  - intros e1 e2 H1 H2. apply in_map_iff in H1 as (a1 & <- & H1), H2 as (a2 & <- & H2).
    destruct (P _ _ H1 H2) as [->|A]; [now left|now right].
  - intros e He. apply in_map_iff in He as (a & <- & Ha). specialize (AT _ Ha).
    destruct a as [p [v|l]]; cbn in *; auto.
  - now rewrite map_map.
  - intros e He. apply in_map_iff in He as (a & <- & Ha). apply (NS _ Ha).
  - intros e He. apply in_map_iff in He as (a & <- & Ha). apply (NE _ Ha).
Qed.
Lemma relabel_parts g ES :
  leaf_part (map (relabel g) ES) = map (fun pv => (fst pv, g (fst pv))) (leaf_part ES) /\
  empty_part (map (relabel g) ES) = empty_part ES.
Proof.
  unfold leaf_part, empty_part.
  induction ES as [|[p [v|l]] ES [IH1 IH2]]; cbn; [split; reflexivity| |]; rewrite IH1, IH2; split; reflexivity.
Qed.

Lemma look_relabel g ES q :
  look (map (relabel g) ES) q = match look ES q with Some (Some _) => Some (Some (g q)) | o => o end.
Proof.
  induction ES as [|e ES IH]; cbn [map look]; [reflexivity|]. rewrite IH.
  replace (at_entry (relabel g e) q) with (match at_entry e q with Some (Some _) => Some (Some (g q)) | o => o end).
  - now destruct (at_entry e q) as [[v|]|].
  - unfold at_entry, relabel. cbn [fst snd]. destruct (pcmp q (fst e)) eqn:E; try reflexivity.
    apply pcmp_eq in E as ->. now destruct (snd e).
Qed.

Theorem replace_structure x repl default chk r :
  wf_dict amp x = true ->
  replace_with_matching_or_default x repl default chk = Some r ->
  forall q, match view q (Node x) with
            | Some (Some _) => exists v, view q (Node r) = Some (Some v)
            | o => view q (Node r) = o
            end.
Proof.
  unfold wf_dict, replace_with_matching_or_default. intros W.
  unfold flatten_dict at 1.
  rewrite (flatten_spec amp (Node x) W [] false).
  destruct (flatten_dict amp [] repl) as [[flat_r er]|]; [|discriminate].
  destruct (chk && _); [discriminate|].
  set (g := fun p => match dget (mk amp [] false p) flat_r with Some v => v | None => default end).
  pose proof (entries_good _ _ W) as G.
  destruct (proj1 (nodup_app _ _) (keys_nodup amp [] false _ G)) as (K1 & _).
  pose proof (relabel_good amp g _ G) as G'.
  destruct (relabel_parts g (entries x)) as [L1 L2].
  destruct (unflatten_entries amp _ G') as (r' & Hr' & S').
  rewrite L1, L2 in Hr'.
  rewrite dict_of_nodup by now rewrite map_map.
  replace (map _ (mk_items amp [] false (leaf_part (entries x))))
    with (mk_items amp [] false (map (fun pv => (fst pv, g (fst pv))) (leaf_part (entries x))))
    by (unfold mk_items; now rewrite !map_map).
  rewrite Hr'. intros [= <-] [|k q]; [reflexivity|].
  rewrite (S' k q), look_relabel, <- (entries_spec _ _ W k q).
  destruct (view (k :: q) (Node x)) as [[v|]|]; eauto.
Qed.

Lemma look_own ES e : PF ES -> In e ES -> look ES (fst e) = tv (snd e).
Proof.
  intros P He. assert (A : at_entry e (fst e) = tv (snd e)) by (unfold at_entry; now rewrite pcmp_refl).
  rewrite <- A. apply look_hit; auto. rewrite A. now destruct (snd e).
Qed.
Lemma tv_inj a b : terminal a -> terminal b -> tv a = tv b -> a = b.
Proof. destruct a, b; cbn; intros; subst; congruence. Qed.

Lemma Spec_same_entries sep ES1 ES2 d :
  good_entries sep ES1 -> Spec ES1 d -> good_entries sep ES2 -> Spec ES2 d ->
  forall e, In e ES1 -> In e ES2.
Proof.
  intros ((P1 & T1 & _) & N1) S1 ((P2 & T2 & _) & N2) S2 e He.
  assert (L : forall p, p <> [] -> look ES1 p = look ES2 p).
  { intros [|k q] NN; [easy|]. now rewrite <- (S1 k q), (S2 k q). }
  pose proof (look_own _ _ P1 He) as H. rewrite L in H by apply (N1 _ He).
  destruct (tv (snd e)) as [x|] eqn:Ex; [|now destruct (snd e)].
  apply look_some in H as (e' & He' & H). rewrite <- Ex in H. unfold at_entry in H.
  destruct (pcmp (fst e) (fst e')) eqn:C; [| |now destruct (snd e)..].
  - apply pcmp_eq in C. apply tv_inj in H; auto. destruct e, e'; cbn in *; now subst.
  - (* [fst e] is a strict prefix of [fst e']: [ES2] finds something below the empty dictionary [e] *)
    exfalso. assert (B : look ES1 (fst e') = None).
    { apply look_none. intros e'' H''. unfold at_entry. apply pcmp_pp_pq in C.
      destruct (P1 _ _ He H'') as [<-|I]; [now rewrite C|]. now rewrite (pcmp_trans_inc _ _ _ C I). }
    rewrite L, (look_own _ _ P2 He') in B by apply (N2 _ He'). now destruct (snd e').
Qed.

Definition flat_entries (sep : Z) (flat : list (str * Z)) (empties : list str) : list entry :=
  map (fun kv => (split sep (fst kv), Leaf (snd kv))) flat ++ map (fun k => (split sep k, Node [])) empties.

Lemma mk_split sep k : mk sep [] false (split sep k) = k.
Proof. apply join_split. Qed.
Lemma flat_entries_keys sep flat empties :
  mk_items sep [] false (leaf_part (flat_entries sep flat empties)) = flat /\
  map (mk sep [] false) (empty_part (flat_entries sep flat empties)) = empties.
Proof.
  unfold flat_entries, mk_items, leaf_part, empty_part.
  induction flat as [|[k v] flat [I1 I2]]; cbn [map app flat_map fst snd].
  - induction empties as [|k empties [I1 I2]]; cbn [map app flat_map fst snd]; [easy|].
    now rewrite mk_split, I1, I2.
  - now rewrite mk_split, I1, I2.
Qed.

Lemma flat_entries_good sep flat empties :
  NoDup (map fst flat ++ empties) -> PF (flat_entries sep flat empties) ->
  good_entries sep (flat_entries sep flat empties).
Proof.
  intros ND P. split; [split; [exact P|split; [|split]]|]; unfold flat_entries.
  - intros e He. apply in_app_iff in He as [He|He]; apply in_map_iff in He as (x & <- & _); exact I || reflexivity.
  - rewrite map_app, !map_map. cbn [fst].
    rewrite <- (map_map fst (split sep)), <- map_app. apply nodup_map_inj_in; auto.
    intros a b _ _ E. rewrite <- (join_split sep a), <- (join_split sep b). now rewrite E.
  - intros e He. apply in_app_iff in He as [He|He]; apply in_map_iff in He as (x & <- & _); apply split_parts_nosep.
  - intros e He. apply in_app_iff in He as [He|He]; apply in_map_iff in He as (x & <- & _); apply split_nonnil.
Qed.

(** keys pairwise distinct (a dict and a duplicate-free tuple, disjoint) and
    prefix-consistent (no key path is a prefix of another): unflatten then
    flatten gives the same flat dictionary and empty keys, up to order *)
Theorem flatten_unflatten sep flat empties :
  NoDup (map fst flat ++ empties) ->
  PF (flat_entries sep flat empties) ->
  exists r flat' empties',
    unflatten_dict sep flat empties = Some r /\
    flatten_dict sep [] r = Some (flat', empties') /\
    Permutation flat' flat /\ Permutation empties' empties.
Proof.
  intros ND P. destruct (flat_entries_keys sep flat empties) as [F1 F2].
  pose proof (flat_entries_good sep flat empties ND P) as G.
  set (ES := flat_entries sep flat empties) in *.
  destruct (unflatten_entries sep ES G) as (r & Hr & Sr). rewrite F1, F2 in Hr.
  pose proof (unflatten_wf _ _ _ _ Hr) as Wr. pose proof (entries_good _ _ Wr) as Gr.
  exists r, (mk_items sep [] false (leaf_part (entries r))), (map (mk sep [] false) (empty_part (entries r))).
  split; [exact Hr|]. split; [exact (flatten_spec sep (Node r) Wr [] false)|].
  (* [r] has the entries [ES] and its own: the two lists have the same elements, none twice *)
  assert (PE : Permutation (entries r) ES).
  { apply NoDup_Permutation.
    - eapply NoDup_map_inv. apply Gr.
    - eapply NoDup_map_inv. apply G.
    - pose proof (entries_spec _ _ Wr). intro e. split; eapply Spec_same_entries; eauto. }
  rewrite <- F1, <- F2. unfold mk_items, leaf_part, empty_part.
  split; apply Permutation_map; now apply Permutation_flat_map.
Qed.

Section SplitAxis.
  Context {B : Type}.
  Implicit Types X Y : list (list B).

  Lemma same_length_cons n (a0 : list B) rest :
    Forall (fun a => length a = n) (a0 :: rest) -> forallb (fun a => Nat.eqb (length a) (length a0)) rest = true.
  Proof.
    intro H. inversion H as [|? ? H1 H2]; subst. apply forallb_forall. rewrite Forall_forall in H2.
    intros a Ha. apply Nat.eqb_eq. auto.
  Qed.

  Lemma zip_star_cons2 (l l2 : list B) r : zip_star (l :: l2 :: r) = zip_cons l (zip_star (l2 :: r)).
  Proof. reflexivity. Qed.

  Lemma zip_star_singletons (l : list B) : l <> [] -> zip_star (map (fun x => [x]) l) = [l].
  Proof.
    induction l as [|x l IH]; [easy|]. intros _. destruct l as [|x2 l]; [reflexivity|].
    cbn [map]. rewrite zip_star_cons2. cbn [map] in IH. rewrite IH by easy. reflexivity.
  Qed.

  Lemma zip_star_zip_cons (l : list B) : forall Y,
    l <> [] -> length l = length Y -> zip_star (zip_cons l Y) = l :: zip_star Y.
  Proof.
    induction l as [|x l IH]; intros [|y Y] NN HL; try easy.
    destruct l as [|x2 l], Y as [|y2 Y]; try (cbn in HL; lia).
    - reflexivity.
    - change (zip_cons (x :: x2 :: l) (y :: y2 :: Y)) with ((x :: y) :: zip_cons (x2 :: l) (y2 :: Y)).
      assert (E : zip_cons (x2 :: l) (y2 :: Y) = (x2 :: y2) :: zip_cons l Y) by reflexivity.
      rewrite E, zip_star_cons2, <- E. rewrite IH by (cbn in *; try easy; lia).
      rewrite zip_star_cons2. reflexivity.
  Qed.

  Lemma zip_cons_length (l : list B) : forall Y, length l = length Y -> length (zip_cons l Y) = length l.
  Proof. induction l as [|x l IH]; intros [|y Y] H; cbn in *; try easy. now rewrite IH by lia. Qed.
  Lemma zip_cons_rows (l : list B) : forall Y m,
    Forall (fun r => length r = m) Y -> Forall (fun r => length r = S m) (zip_cons l Y).
  Proof.
    induction l as [|x l IH]; intros [|y Y] m H; cbn; try constructor.
    - inversion H; subst. cbn. lia.
    - inversion H; subst. now apply IH.
  Qed.

  Lemma zip_star_shape X n :
    X <> [] -> Forall (fun r => length r = n) X ->
    length (zip_star X) = n /\ Forall (fun r => length r = length X) (zip_star X).
  Proof.
    induction X as [|l X IH]; [easy|]. intros _ H. inversion H as [|? ? H1 H2]; subst.
    destruct X as [|l2 X].
    - cbn. rewrite map_length. split; [reflexivity|]. apply Forall_forall. intros r Hr.
      apply in_map_iff in Hr as (x & <- & _). reflexivity.
    - rewrite zip_star_cons2. destruct (IH ltac:(easy) H2) as [I1 I2]. split.
      + rewrite zip_cons_length; auto. 
      + cbn [length]. now apply zip_cons_rows.
  Qed.

  Lemma zip_star_involutive X n :
    X <> [] -> (1 <= n)%nat -> Forall (fun r => length r = n) X -> zip_star (zip_star X) = X.
  Proof.
    induction X as [|l X IH]; [easy|]. intros _ Hn H. inversion H as [|? ? H1 H2]; subst.
    destruct X as [|l2 X].
    - cbn [zip_star]. apply zip_star_singletons. destruct l; [cbn in Hn; lia|easy].
    - rewrite zip_star_cons2. destruct (zip_star_shape (l2 :: X) (length l) ltac:(easy) H2) as [I1 I2].
      rewrite zip_star_zip_cons.
      + f_equal. now apply IH.
      + destruct l; [cbn in Hn; lia|easy].
      + now rewrite I1.
  Qed.
End SplitAxis.

Theorem split_axis_concat {A} (inputs : list (list A)) n :
  inputs <> [] -> (1 <= n)%nat -> Forall (fun a => length a = n) inputs ->
  exists trees, split_axis_keep inputs = Some trees /\ length trees = n /\
                concat_along_axis trees = Some inputs.
Proof.
  intros NN Hn HL.
  set (X := map (map (fun x : A => [x])) inputs).
  assert (HX : Forall (fun r => length r = n) X).
  { unfold X. rewrite Forall_forall in *. intros r Hr. apply in_map_iff in Hr as (a & <- & Ha).
    rewrite map_length. auto. }
  assert (XN : X <> []) by (unfold X; destruct inputs; easy).
  assert (AS : all_some (map (split_sections n) inputs) = Some X).
  { unfold X. clear NN XN HX. induction inputs as [|a inputs IH]; [reflexivity|].
    inversion HL as [|? ? H1 H2]; subst. cbn [map all_some].
    rewrite split_sections_self by (destruct a; [cbn in Hn; lia|easy]). now rewrite (IH H2). }
  exists (zip_star X).
  destruct (zip_star_shape X n XN HX) as [S1 S2].
  split; [|split; [exact S1|]].
  - unfold split_axis_keep. destruct inputs as [|a0 rest]; [easy|].
    now rewrite (same_length_cons _ _ _ HL), (Forall_inv HL), AS.
  - unfold concat_along_axis. destruct (zip_star X) as [|t0 trest] eqn:EZ; [cbn in S1; lia|].
    rewrite (same_length_cons _ _ _ S2), <- EZ, (zip_star_involutive X n XN Hn HX). f_equal.
    unfold X. rewrite map_map. etransitivity; [|apply map_id]. apply map_ext.
    intro a. induction a as [|x a IHa]; cbn; [reflexivity|]. now rewrite IHa.
Qed.
