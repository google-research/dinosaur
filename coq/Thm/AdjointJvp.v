(** C08, forward mode of the nonlinear nodal column algebra of the primitive
    equations (Model/PrimEq.v): every term, evaluated at the dual-number carrier
    with the grid / level tables as constants (zero tangent), returns
    (value, explicit product-rule linearisation).  All sizes K, every carrier.

    Side conditions = the "finite for every admissible state" clause, made
    explicit: the model divides by
      * the layer thickness  [thickness b n]   (t_omega_over_sigma_sp),
      * [1 + (Cp_vapor/Cp - 1) q k]            (moist adiabatic term),
      * the constants 2, R, R/kappa, and the centre-to-centre distances
        (inside [centered_vertical_advection]; these are constants of the level
        set and enter both sides in the same way).
    The linearisations below are written with exactly these denominators; the
    equalities that need a denominator to be non-zero say so as a hypothesis. *)
From Dino Require Import Base.Ops Base.Field Base.Sums Model.Dual Model.Sigma Model.Implicit Model.PrimEq Thm.Dual Thm.Adjoint.
Local Open Scope F_scope.

Section Lift.
  Context {F : Type} {o : Ops F}.

  (** constants of the configuration / physics as dual numbers with zero tangent *)
  Definition dcfg (c : @PEcfg F) : @PEcfg (dual F) :=
    mkPE (cK c) (dconst (cR c)) (dconst (ckappa c))
         (fun k => dconst (cls c k)) (fun k => dconst (cb c k)) (fun k => dconst (cTref c k)).
  Definition dmoist (m : @Moist F) : @Moist (dual F) := mkMoist (dconst (mRv m)) (dconst (mCpv m)).
  (** nodal column with tangent [dx]; the grid tables sec2_lat and the Coriolis
      parameter are constants ([n_sec2 dx], [n_f dx] are ignored) *)
  Definition dcol (x dx : @NCol F) : @NCol (dual F) :=
    mkNCol (fun k => mkdual (n_u x k) (n_u dx k)) (fun k => mkdual (n_v x k) (n_v dx k))
           (fun k => mkdual (n_vort x k) (n_vort dx k)) (fun k => mkdual (n_div x k) (n_div dx k))
           (fun k => mkdual (n_temp x k) (n_temp dx k))
           (mkdual (n_gx x) (n_gx dx)) (mkdual (n_gy x) (n_gy dx))
           (dconst (n_sec2 x)) (dconst (n_f x)).
  (** a dual-valued array with primal part [x] and tangent part [dx] *)
  Definition tracks (X : nat -> dual F) (x dx : nat -> F) : Prop :=
    forall k, X k = mkdual (x k) (dx k).

  (** the explicit linearisations (tangent [d.] at the point [.]) *)
  Definition d_u_dot_grad (x dx : @NCol F) (k : nat) : F :=
    (n_u dx k * n_gx x + n_u x k * n_gx dx) * n_sec2 x
    + (n_v dx k * n_gy x + n_v x k * n_gy dx) * n_sec2 x.
  Definition d_sigma_dot_explicit c (x dx : @NCol F) : nat -> F :=
    sigma_dot c (d_u_dot_grad x dx).
  Definition d_sigma_dot_full c (x dx : @NCol F) : nat -> F :=
    sigma_dot c (fun k => n_div dx k + d_u_dot_grad x dx k).
  Definition d_vertical_tendency c (w xx dw dxx : nat -> F) (n : nat) : F :=
    vertical_tendency c dw xx n + vertical_tendency c w dxx n.
  Definition d_t_omega c (Tf g vg dTf dg dvg : nat -> F) (n : nat) : F :=
    dTf n * (vg n - g_part c g n) + Tf n * (dvg n - g_part c dg n).
  Definition d_temp_adiabatic c (x dx : @NCol F) (n : nat) : F :=
    ckappa c *
    (d_t_omega c (cTref c) (g_explicit x) (u_dot_grad x)
               (fun _ => 0) (d_u_dot_grad x dx) (d_u_dot_grad x dx) n
     + d_t_omega c (n_temp x) (g_full_adiabatic x) (u_dot_grad x)
                 (n_temp dx) (fun k => d_u_dot_grad x dx k + n_div dx k) (d_u_dot_grad x dx) n).
  Definition d_temp_vertical_tendency c (inc_va : bool) (x dx : @NCol F) (n : nat) : F :=
    let tendency :=
      if inc_va then d_vertical_tendency c (sigma_dot_full c x) (n_temp x)
                                         (d_sigma_dot_full c x dx) (n_temp dx) n else 0 in
    if tref_nonuniform c
    then tendency + d_vertical_tendency c (sigma_dot_explicit c x) (cTref c)
                                        (d_sigma_dot_explicit c x dx) (fun _ => 0) n
    else tendency.
  Definition d_kinetic (x dx : @NCol F) (k : nat) : F :=
    (n_u x k * n_u dx k + n_v x k * n_v dx k) * n_sec2 x.
  Definition d_hsa_nodal (x dx : @NCol F) (s ds : nat -> F) (k : nat) : F :=
    ds k * n_div x k + s k * n_div dx k.
  Definition d_hsa_mu (x dx : @NCol F) (s ds : nat -> F) (k : nat) : F :=
    (n_u dx k * s k + n_u x k * ds k) * n_sec2 x.
  Definition d_hsa_mv (x dx : @NCol F) (s ds : nat -> F) (k : nat) : F :=
    (n_v dx k * s k + n_v x k * ds k) * n_sec2 x.
  Definition d_rt_dry c (dx : @NCol F) (k : nat) : F := cR c * n_temp dx k.
  Definition d_rt_moist c (m : @Moist F) (x dx : @NCol F) (q dq : nat -> F) (k : nat) : F :=
    cR c * n_temp dx k * (1 + moisture_contribution c m q k)
    + cR c * n_temp x k * ((mRv m / cR c - 1) * dq k).
  Definition d_rt_cloud c (m : @Moist F) (x dx : @NCol F) (q qc qi dq dqc dqi : nat -> F) (k : nat) : F :=
    cR c * n_temp dx k * (1 + moisture_contribution c m q k - qc k - qi k)
    + cR c * n_temp x k * ((mRv m / cR c - 1) * dq k - dqc k - dqi k).
  Definition d_combined_u c (va : bool) (x dx : @NCol F) (rt drt : nat -> F) (k : nat) : F :=
    - (n_v dx k * (n_vort x k + n_f x) + n_v x k * n_vort dx k) * n_sec2 x
    + ((if va then - d_vertical_tendency c (sigma_dot_full c x) (n_u x) (d_sigma_dot_full c x dx) (n_u dx) k else 0)
       + (drt k * n_gx x + rt k * n_gx dx)) * n_sec2 x.
  Definition d_combined_v c (va : bool) (x dx : @NCol F) (rt drt : nat -> F) (k : nat) : F :=
    (n_u dx k * (n_vort x k + n_f x) + n_u x k * n_vort dx k) * n_sec2 x
    + ((if va then - d_vertical_tendency c (sigma_dot_full c x) (n_v x) (d_sigma_dot_full c x dx) (n_v dx) k else 0)
       + (drt k * n_gy x + rt k * n_gy dx)) * n_sec2 x.
  (** moist adiabatic term: T' (1+(g-1)q)/(1+(h-1)q) + T_ref (g-h) q/(1+(h-1)q),
      g = R_vapor/R, h = Cp_vapor/Cp; d/dq of both fractions is (g-h)/(1+(h-1)q)^2 *)
  Definition gcr c (m : @Moist F) : F := mRv m / cR c.
  Definition hcr c (m : @Moist F) : F := mCpv m / (cR c / ckappa c).
  Definition moist_den c (m : @Moist F) (q : nat -> F) (k : nat) : F := 1 + (hcr c m - 1) * q k.
  Definition vht c (m : @Moist F) (x : @NCol F) (q : nat -> F) (k : nat) : F :=
    n_temp x k * ((1 + (gcr c m - 1) * q k) / moist_den c m q k)
    + cTref c k * (((gcr c m - hcr c m) * q k) / moist_den c m q k).
  Definition d_vht c (m : @Moist F) (x dx : @NCol F) (q dq : nat -> F) (k : nat) : F :=
    n_temp dx k * ((1 + (gcr c m - 1) * q k) / moist_den c m q k)
    + (n_temp x k + cTref c k) * (gcr c m - hcr c m) * dq k / (moist_den c m q k * moist_den c m q k).
  Definition d_temp_adiabatic_moist c (m : @Moist F) (x dx : @NCol F) (q dq : nat -> F) (n : nat) : F :=
    ckappa c *
    (d_t_omega c (cTref c) (g_explicit x) (u_dot_grad x)
               (fun _ => 0) (d_u_dot_grad x dx) (d_u_dot_grad x dx) n
     + d_t_omega c (vht c m x q) (g_full_adiabatic x) (u_dot_grad x)
                 (d_vht c m x dx q dq) (fun k => d_u_dot_grad x dx k + n_div dx k) (d_u_dot_grad x dx) n).
  Definition d_humidity_div_nodal c (m : @Moist F) (x dx : @NCol F) (q gqx gqy dq dgqx dgqy : nat -> F)
             (lap dlap : F) (k : nat) : F :=
    cTref c k * (mRv m - cR c) * n_sec2 x
      * (dgqx k * n_gx x + gqx k * n_gx dx + dgqy k * n_gy x + gqy k * n_gy dx)
    + (dq k * lap + q k * dlap) * cTref c k * (mRv m - cR c).
  Definition d_humidity_curl_nodal c (m : @Moist F) (x dx : @NCol F) (gqx gqy dgqx dgqy : nat -> F) (k : nat) : F :=
    cTref c k * (mRv m - cR c) * n_sec2 x
      * (n_gx dx * gqy k + n_gx x * dgqy k - n_gy dx * gqx k - n_gy x * dgqx k).
  Definition d_humidity_temperature_diff c (m : @Moist F) (x dx : @NCol F) (q dq : nat -> F) (k : nat) : F :=
    (dq k * (n_temp x k + cTref c k) + q k * n_temp dx k) * (mRv m / cR c - 1).
End Lift.

(** [dred] computes the dual-number operations down to the carrier's operations
    on the two parts.  [dual_ring] proves an equation between dual numbers part
    by part, as a polynomial identity of the carrier; a quotient becomes a
    product with an inverse that [ring] takes as an atom, so no side condition
    arises (where a denominator has to cancel, the proofs call [field]). *)
Ltac dred :=
  cbn [re ep fadd fmul fsub fopp fdiv f0 f1 DualOps dadd dmul dsub dopp ddiv dconst dvar].
Ltac dual_ring := apply dual_eq; dred; rewrite ?fdiv_mul; ring.

Section Jvp.
  Context {F : Type} {o : Ops F} {Fc : FieldC o}.
  Add Field FFj : (field_c : FieldTh o).

  Lemma tracks_const (c : nat -> F) : tracks (fun k => dconst (c k)) c (fun _ => 0).
  Proof. intros k. reflexivity. Qed.
  Lemma tracks_add X Y (x dx y dy : nat -> F) :
    tracks X x dx -> tracks Y y dy -> tracks (fun k => X k + Y k) (fun k => x k + y k) (fun k => dx k + dy k).
  Proof. intros HX HY k. rewrite HX, HY. reflexivity. Qed.

  Section Cfg.
    Variable c : @PEcfg F.

    Lemma xdsigma_dual G g dg : tracks G g dg ->
      tracks (xdsigma (cb (dcfg c)) G) (xdsigma (cb c) g) (xdsigma (cb c) dg).
    Proof. intros HG i. unfold xdsigma, thickness. rewrite (HG i). unfold dcfg; cbn [cb]. dual_ring. Qed.

    Lemma cumint_dual G g dg : tracks G g dg ->
      tracks (cumint (dcfg c) G) (cumint c g) (cumint c dg).
    Proof.
      intros HG j. apply sumn_dual. intros i _. rewrite (xdsigma_dual G g dg HG i).
      unfold ind. destruct (Nat.leb i j); dual_ring.
    Qed.

    Lemma sum_sigma_dual r : sum_sigma (dcfg c) r = mkdual (sum_sigma c r) 0.
    Proof.
      unfold sum_sigma, cumsum_seq. rewrite (sumn_dual _ _ (thickness (cb c)) (fun _ => 0)), sumn_const0; [reflexivity|].
      intros i _. unfold thickness, dcfg; cbn [cb]. dual_ring.
    Qed.

    Theorem sigma_dot_dual G g dg : tracks G g dg ->
      tracks (sigma_dot (dcfg c) G) (sigma_dot c g) (sigma_dot c dg).
    Proof.
      intros HG r. unfold sigma_dot.
      rewrite !(cumint_dual G g dg HG), sum_sigma_dual.
      change (cK (dcfg c)) with (cK c). dual_ring.
    Qed.

    Theorem vertical_tendency_dual W XX w dw xx dxx : tracks W w dw -> tracks XX xx dxx ->
      tracks (vertical_tendency (dcfg c) W XX) (vertical_tendency c w xx) (d_vertical_tendency c w xx dw dxx).
    Proof. intros HW HX n. exact (advection_dual (cK c) (cb c) W XX w dw xx dxx n HW HX). Qed.

    Lemma alpha_dual k : alpha (cK (dcfg c)) (cls (dcfg c)) k = mkdual (alpha (cK c) (cls c) k) 0.
    Proof.
      unfold alpha, two. change (cK (dcfg c)) with (cK c). unfold dcfg; cbn [cls].
      destruct (Nat.ltb (S k) (cK c)); dual_ring.
    Qed.

    (** division by the layer thickness: the first "admissible state" side condition *)
    Lemma g_part_dual G g dg n : thickness (cb c) n <> 0 -> tracks G g dg ->
      g_part (dcfg c) G n = mkdual (g_part c g n) (g_part c dg n).
    Proof.
      intros Hth HG. unfold thickness in Hth. unfold g_part.
      rewrite !(cumint_dual G g dg HG), !alpha_dual.
      unfold thickness, dcfg; cbn [cb].
      apply dual_eq; destruct (Nat.eqb n 0); dred; field; exact Hth.
    Qed.

    Theorem t_omega_dual Tf G VG t dt g dg vg dvg n :
      thickness (cb c) n <> 0 -> tracks Tf t dt -> tracks G g dg -> tracks VG vg dvg ->
      t_omega_over_sigma_sp (dcfg c) Tf G VG n
      = mkdual (t_omega_over_sigma_sp c t g vg n) (d_t_omega c t g vg dt dg dvg n).
    Proof.
      intros Hth HT HG HV. unfold t_omega_over_sigma_sp, d_t_omega.
      rewrite (g_part_dual G g dg n Hth HG), (HT n), (HV n). dual_ring.
    Qed.

    Theorem u_dot_grad_dual x dx :
      tracks (u_dot_grad (dcol x dx)) (u_dot_grad x) (d_u_dot_grad x dx).
    Proof.
      intros k. unfold u_dot_grad, d_u_dot_grad, dcol; cbn [n_u n_v n_gx n_gy n_sec2]. dual_ring.
    Qed.

    Lemma g_full_diag_dual x dx :
      tracks (g_full_diag (dcol x dx)) (g_full_diag x) (fun k => n_div dx k + d_u_dot_grad x dx k).
    Proof. exact (tracks_add _ _ _ _ _ _ (fun k => eq_refl) (u_dot_grad_dual x dx)). Qed.
    Lemma g_full_adiabatic_dual x dx :
      tracks (g_full_adiabatic (dcol x dx)) (g_full_adiabatic x) (fun k => d_u_dot_grad x dx k + n_div dx k).
    Proof. exact (tracks_add _ _ _ _ _ _ (u_dot_grad_dual x dx) (fun k => eq_refl)). Qed.

    Theorem sigma_dot_explicit_dual x dx :
      tracks (sigma_dot_explicit (dcfg c) (dcol x dx)) (sigma_dot_explicit c x) (d_sigma_dot_explicit c x dx).
    Proof. apply sigma_dot_dual, u_dot_grad_dual. Qed.
    Theorem sigma_dot_full_dual x dx :
      tracks (sigma_dot_full (dcfg c) (dcol x dx)) (sigma_dot_full c x) (d_sigma_dot_full c x dx).
    Proof. apply sigma_dot_dual, g_full_diag_dual. Qed.

    Lemma ntemp_tracks x dx : tracks (n_temp (dcol x dx)) (n_temp x) (n_temp dx).
    Proof. intros k. reflexivity. Qed.
    Lemma nu_tracks x dx : tracks (n_u (dcol x dx)) (n_u x) (n_u dx).
    Proof. intros k. reflexivity. Qed.
    Lemma nv_tracks x dx : tracks (n_v (dcol x dx)) (n_v x) (n_v dx).
    Proof. intros k. reflexivity. Qed.
    Lemma tref_tracks : tracks (cTref (dcfg c)) (cTref c) (fun _ => 0).
    Proof. exact (tracks_const (cTref c)). Qed.

    Theorem temp_adiabatic_jvp x dx n : thickness (cb c) n <> 0 ->
      temp_adiabatic (dcfg c) (dcol x dx) n
      = mkdual (temp_adiabatic c x n) (d_temp_adiabatic c x dx n).
    Proof.
      intros Hth. unfold temp_adiabatic, d_temp_adiabatic, g_explicit.
      rewrite (t_omega_dual (cTref (dcfg c)) _ _ _ _ _ _ _ _ n Hth tref_tracks
                 (u_dot_grad_dual x dx) (u_dot_grad_dual x dx)).
      rewrite (t_omega_dual (n_temp (dcol x dx)) _ _ _ _ _ _ _ _ n Hth (ntemp_tracks x dx)
                 (g_full_adiabatic_dual x dx) (u_dot_grad_dual x dx)).
      unfold dcfg; cbn [ckappa]. dual_ring.
    Qed.

    Theorem temp_vertical_tendency_jvp va x dx n :
      temp_vertical_tendency (dcfg c) va (dcol x dx) n
      = mkdual (temp_vertical_tendency c va x n) (d_temp_vertical_tendency c va x dx n).
    Proof.
      unfold temp_vertical_tendency, d_temp_vertical_tendency.
      change (tref_nonuniform (dcfg c)) with (tref_nonuniform c).
      rewrite (vertical_tendency_dual _ _ _ _ _ _ (sigma_dot_explicit_dual x dx) tref_tracks n).
      destruct va.
      - rewrite (vertical_tendency_dual _ _ _ _ _ _ (sigma_dot_full_dual x dx) (ntemp_tracks x dx) n).
        destruct (tref_nonuniform c); unfold d_vertical_tendency; dual_ring.
      - destruct (tref_nonuniform c); unfold d_vertical_tendency; dual_ring.
    Qed.

    Theorem log_pressure_tendency_jvp x dx :
      log_pressure_tendency (dcfg c) (dcol x dx)
      = mkdual (log_pressure_tendency c x) (- sigma_integral (cK c) (cb c) (d_u_dot_grad x dx)).
    Proof.
      unfold log_pressure_tendency, sigma_integral. change (cK (dcfg c)) with (cK c).
      now rewrite (sumn_dual _ _ _ _ (fun i _ => xdsigma_dual _ _ _ (u_dot_grad_dual x dx) i)).
    Qed.

    Theorem kinetic_jvp x dx k : 1 + 1 <> 0 ->
      kinetic (dcol x dx) k = mkdual (kinetic x k) (d_kinetic x dx k).
    Proof.
      intros H2. unfold kinetic, d_kinetic, two, dcol; cbn [n_u n_v n_sec2].
      apply dual_eq; dred; [reflexivity|]. field. apply fmul_nz; exact H2.
    Qed.

    Theorem hsa_nodal_jvp x dx S s ds k : tracks S s ds ->
      hsa_nodal (dcol x dx) S k = mkdual (hsa_nodal x s k) (d_hsa_nodal x dx s ds k).
    Proof.
      intros HS. unfold hsa_nodal, d_hsa_nodal, dcol; cbn [n_div]. rewrite (HS k). dual_ring.
    Qed.
    Theorem hsa_mu_jvp x dx S s ds k : tracks S s ds ->
      hsa_mu (dcol x dx) S k = mkdual (hsa_mu x s k) (d_hsa_mu x dx s ds k).
    Proof.
      intros HS. unfold hsa_mu, d_hsa_mu, dcol; cbn [n_u n_sec2]. rewrite (HS k). dual_ring.
    Qed.
    Theorem hsa_mv_jvp x dx S s ds k : tracks S s ds ->
      hsa_mv (dcol x dx) S k = mkdual (hsa_mv x s k) (d_hsa_mv x dx s ds k).
    Proof.
      intros HS. unfold hsa_mv, d_hsa_mv, dcol; cbn [n_v n_sec2]. rewrite (HS k). dual_ring.
    Qed.

    Theorem rt_dry_jvp x dx : tracks (rt_dry (dcfg c) (dcol x dx)) (rt_dry c x) (d_rt_dry c dx).
    Proof.
      intros k. unfold rt_dry, d_rt_dry, dcol, dcfg; cbn [n_temp cR]. dual_ring.
    Qed.
    Theorem rt_moist_jvp m x dx Q q dq : tracks Q q dq ->
      tracks (rt_moist (dcfg c) (dmoist m) (dcol x dx) Q) (rt_moist c m x q) (d_rt_moist c m x dx q dq).
    Proof.
      intros HQ k. unfold rt_moist, d_rt_moist, moisture_contribution, dcol, dcfg, dmoist; cbn [n_temp cR mRv].
      rewrite (HQ k). dual_ring.
    Qed.
    Theorem rt_cloud_jvp m x dx Q QC QI q dq qc dqc qi dqi :
      tracks Q q dq -> tracks QC qc dqc -> tracks QI qi dqi ->
      tracks (rt_cloud (dcfg c) (dmoist m) (dcol x dx) Q QC QI) (rt_cloud c m x q qc qi)
             (d_rt_cloud c m x dx q qc qi dq dqc dqi).
    Proof.
      intros HQ HC HI k. unfold rt_cloud, d_rt_cloud, moisture_contribution, dcol, dcfg, dmoist; cbn [n_temp cR mRv].
      rewrite (HQ k), (HC k), (HI k). dual_ring.
    Qed.

    Theorem combined_u_jvp va x dx RT rt drt k : tracks RT rt drt ->
      combined_u (dcfg c) va (dcol x dx) RT k
      = mkdual (combined_u c va x rt k) (d_combined_u c va x dx rt drt k).
    Proof.
      intros HR. unfold combined_u, d_combined_u. rewrite (HR k).
      destruct va.
      - rewrite (vertical_tendency_dual _ _ _ _ _ _ (sigma_dot_full_dual x dx) (nu_tracks x dx) k).
        unfold dcol; cbn [n_v n_vort n_f n_sec2 n_gx]. dual_ring.
      - unfold dcol; cbn [n_v n_vort n_f n_sec2 n_gx]. dual_ring.
    Qed.
    Theorem combined_v_jvp va x dx RT rt drt k : tracks RT rt drt ->
      combined_v (dcfg c) va (dcol x dx) RT k
      = mkdual (combined_v c va x rt k) (d_combined_v c va x dx rt drt k).
    Proof.
      intros HR. unfold combined_v, d_combined_v. rewrite (HR k).
      destruct va.
      - rewrite (vertical_tendency_dual _ _ _ _ _ _ (sigma_dot_full_dual x dx) (nv_tracks x dx) k).
        unfold dcol; cbn [n_u n_vort n_f n_sec2 n_gy]. dual_ring.
      - unfold dcol; cbn [n_u n_vort n_f n_sec2 n_gy]. dual_ring.
    Qed.

    (** the moist adiabatic term has the only state-dependent denominator *)
    Lemma gcr_dual m : mRv (dmoist m) / cR (dcfg c) = mkdual (gcr c m) 0.
    Proof. unfold gcr, dmoist, dcfg; cbn [mRv cR]. dual_ring. Qed.
    Lemma hcr_dual m : mCpv (dmoist m) / (cR (dcfg c) / ckappa (dcfg c)) = mkdual (hcr c m) 0.
    Proof. unfold hcr, dmoist, dcfg; cbn [mCpv cR ckappa]. dual_ring. Qed.

    Lemma vht_dual m x dx Q q dq :
      (forall k, moist_den c m q k <> 0) -> tracks Q q dq ->
      tracks (fun k =>
                n_temp (dcol x dx) k *
                ((1 + (mRv (dmoist m) / cR (dcfg c) - 1) * Q k)
                 / (1 + (mCpv (dmoist m) / (cR (dcfg c) / ckappa (dcfg c)) - 1) * Q k))
                + cTref (dcfg c) k *
                  (((mRv (dmoist m) / cR (dcfg c) - mCpv (dmoist m) / (cR (dcfg c) / ckappa (dcfg c))) * Q k)
                   / (1 + (mCpv (dmoist m) / (cR (dcfg c) / ckappa (dcfg c)) - 1) * Q k)))
             (vht c m x q) (d_vht c m x dx q dq).
    Proof.
      intros Hden HQ k. specialize (Hden k). unfold moist_den in Hden.
      cbv beta. rewrite gcr_dual, hcr_dual, (HQ k).
      unfold vht, d_vht, moist_den, dcol, dcfg; cbn [n_temp cTref].
      apply dual_eq; dred; [reflexivity|]. field.
      exact Hden.
    Qed.

    Theorem temp_adiabatic_moist_jvp m x dx Q q dq n :
      thickness (cb c) n <> 0 -> (forall k, moist_den c m q k <> 0) -> tracks Q q dq ->
      temp_adiabatic_moist (dcfg c) (dmoist m) (dcol x dx) Q n
      = mkdual (temp_adiabatic_moist c m x q n) (d_temp_adiabatic_moist c m x dx q dq n).
    Proof.
      intros Hth Hden HQ.
      (* the primal part written with [vht]: convertible, and the form [t_omega_dual] returns *)
      transitivity (mkdual
        (ckappa c * (t_omega_over_sigma_sp c (cTref c) (g_explicit x) (u_dot_grad x) n
                     + t_omega_over_sigma_sp c (vht c m x q) (g_full_adiabatic x) (u_dot_grad x) n))
        (d_temp_adiabatic_moist c m x dx q dq n)); [|reflexivity].
      unfold temp_adiabatic_moist, d_temp_adiabatic_moist, g_explicit.
      rewrite (t_omega_dual (cTref (dcfg c)) _ _ _ _ _ _ _ _ n Hth tref_tracks
                 (u_dot_grad_dual x dx) (u_dot_grad_dual x dx)).
      rewrite (t_omega_dual _ _ _ _ _ _ _ _ _ n Hth (vht_dual m x dx Q q dq Hden HQ)
                 (g_full_adiabatic_dual x dx) (u_dot_grad_dual x dx)).
      unfold dcfg; cbn [ckappa]. dual_ring.
    Qed.

    Theorem humidity_div_nodal_jvp m x dx Q GX GY q dq gqx dgqx gqy dgqy lap dlap k :
      tracks Q q dq -> tracks GX gqx dgqx -> tracks GY gqy dgqy ->
      humidity_div_nodal (dcfg c) (dmoist m) (dcol x dx) Q GX GY (mkdual lap dlap) k
      = mkdual (humidity_div_nodal c m x q gqx gqy lap k)
               (d_humidity_div_nodal c m x dx q gqx gqy dq dgqx dgqy lap dlap k).
    Proof.
      intros HQ HX HY. unfold humidity_div_nodal, d_humidity_div_nodal, dcol, dcfg, dmoist;
        cbn [cTref cR mRv n_sec2 n_gx n_gy]. rewrite (HQ k), (HX k), (HY k). dual_ring.
    Qed.
    Theorem humidity_curl_nodal_jvp m x dx GX GY gqx dgqx gqy dgqy k :
      tracks GX gqx dgqx -> tracks GY gqy dgqy ->
      humidity_curl_nodal (dcfg c) (dmoist m) (dcol x dx) GX GY k
      = mkdual (humidity_curl_nodal c m x gqx gqy k)
               (d_humidity_curl_nodal c m x dx gqx gqy dgqx dgqy k).
    Proof.
      intros HX HY. unfold humidity_curl_nodal, d_humidity_curl_nodal, dcol, dcfg, dmoist;
        cbn [cTref cR mRv n_sec2 n_gx n_gy]. rewrite (HX k), (HY k). dual_ring.
    Qed.
    Theorem humidity_temperature_diff_jvp m x dx Q q dq : tracks Q q dq ->
      tracks (humidity_temperature_diff (dcfg c) (dmoist m) (dcol x dx) Q)
             (humidity_temperature_diff c m x q) (d_humidity_temperature_diff c m x dx q dq).
    Proof.
      intros HQ k. unfold humidity_temperature_diff, d_humidity_temperature_diff, dcol, dcfg, dmoist;
        cbn [cTref cR mRv n_temp]. rewrite (HQ k). dual_ring.
    Qed.

    Theorem temp_nodal_total_jvp va x dx n : thickness (cb c) n <> 0 ->
      temp_nodal_total (dcfg c) va (dcol x dx) n
      = mkdual (temp_nodal_total c va x n)
               (d_hsa_nodal x dx (n_temp x) (n_temp dx) n + d_temp_vertical_tendency c va x dx n
                + d_temp_adiabatic c x dx n).
    Proof.
      intros Hth. unfold temp_nodal_total.
      rewrite (hsa_nodal_jvp x dx _ _ _ n (ntemp_tracks x dx)), temp_vertical_tendency_jvp,
        (temp_adiabatic_jvp x dx n Hth).
      reflexivity.
    Qed.
    Theorem tracer_nodal_total_jvp va x dx S s ds n : tracks S s ds ->
      tracer_nodal_total (dcfg c) va (dcol x dx) S n
      = mkdual (tracer_nodal_total c va x s n)
               ((if va then d_vertical_tendency c (sigma_dot_full c x) s (d_sigma_dot_full c x dx) ds n else 0)
                + d_hsa_nodal x dx s ds n).
    Proof.
      intros HS. unfold tracer_nodal_total. rewrite (hsa_nodal_jvp x dx S s ds n HS).
      destruct va.
      - rewrite (vertical_tendency_dual _ _ _ _ _ _ (sigma_dot_full_dual x dx) HS n). reflexivity.
      - reflexivity.
    Qed.
  End Cfg.
End Jvp.
