(** Proofs about Model/Units.v: the scale/unit algebra (every field, every
    number of dimensions and units, all non-zero scales) and phase reduction
    over the reals. *)
From Dino Require Import Base.Ops Base.Sums Base.Field Model.Units Thm.Pow.
Local Open Scope F_scope.

Section ProductsAndSums.
  Context {F : Type} {o : Ops F} {Fc : FieldC o}.
  Add Field FFu : (field_c : FieldTh o).

  Lemma npow_mul_exp x a b : npow x (a * b) = npow (npow x a) b.
  Proof.
    induction b as [|b IH]; cbn.
    - now rewrite Nat.mul_0_r.
    - rewrite Nat.mul_succ_r, Nat.add_comm, npow_add, IH. reflexivity.
  Qed.

  Lemma zpow_1 x : zpow x 1 = x.
  Proof. exact (Pow.zpow_1 x). Qed.

  Lemma prodn_ext n (f g : nat -> F) :
    (forall i, (i < n)%nat -> f i = g i) -> prodn n f = prodn n g.
  Proof.
    induction n as [|n IH]; intros H; cbn; [reflexivity|].
    rewrite IH, (H n) by auto with arith. reflexivity.
  Qed.

  Lemma prodn_nz n (f : nat -> F) : (forall i, (i < n)%nat -> f i <> 0) -> prodn n f <> 0.
  Proof.
    induction n as [|n IH]; intros H; cbn; [exact f1_nz|].
    apply fmul_nz; auto with arith.
  Qed.

  Lemma prodn_mul n (f g : nat -> F) : prodn n (fun i => f i * g i) = prodn n f * prodn n g.
  Proof. induction n as [|n IH]; cbn; [ring | rewrite IH; ring]. Qed.

  Lemma prodn_one n : prodn n (fun _ => (1 : F)) = 1.
  Proof. induction n as [|n IH]; cbn; [reflexivity | rewrite IH; ring]. Qed.

  Lemma prodn_div1 n (f : nat -> F) :
    (forall i, (i < n)%nat -> f i <> 0) -> prodn n (fun i => 1 / f i) = 1 / prodn n f.
  Proof.
    intros H. symmetry. apply fmul_eq1_inv.
    rewrite <- prodn_mul, (prodn_ext n _ (fun _ => 1)); [apply prodn_one|].
    intros i Hi. field. now apply H.
  Qed.

  Lemma prodn_zpow n (f : nat -> F) k :
    (forall i, (i < n)%nat -> f i <> 0) -> prodn n (fun i => zpow (f i) k) = zpow (prodn n f) k.
  Proof.
    induction n as [|n IH]; intros H; cbn [prodn].
    - now rewrite zpow_one.
    - rewrite IH by auto with arith. rewrite zpow_mul_base; [reflexivity | apply prodn_nz; auto with arith | apply H; auto with arith].
  Qed.

  Lemma sumZ_ext n (f g : nat -> Z) : (forall i, (i < n)%nat -> f i = g i) -> sumZ n f = sumZ n g.
  Proof. induction n as [|n IH]; intros H; cbn; [reflexivity|]. rewrite IH, (H n) by auto with arith. reflexivity. Qed.
  Lemma sumZ_add n (f g : nat -> Z) : sumZ n (fun i => (f i + g i)%Z) = (sumZ n f + sumZ n g)%Z.
  Proof. induction n as [|n IH]; cbn; [reflexivity | rewrite IH; lia]. Qed.
  Lemma sumZ_sub n (f g : nat -> Z) : sumZ n (fun i => (f i - g i)%Z) = (sumZ n f - sumZ n g)%Z.
  Proof. induction n as [|n IH]; cbn; [reflexivity | rewrite IH; lia]. Qed.
  Lemma sumZ_scal n (f : nat -> Z) k : sumZ n (fun i => (f i * k)%Z) = (sumZ n f * k)%Z.
  Proof. induction n as [|n IH]; cbn; [reflexivity | rewrite IH; lia]. Qed.
  Lemma sumZ_zero n : sumZ n (fun _ => 0%Z) = 0%Z.
  Proof. induction n as [|n IH]; cbn; [reflexivity | rewrite IH; lia]. Qed.
End ProductsAndSums.

(** [conv U cv e] is the product of the [cv j ^ e j]: a homomorphism from
    exponent vectors to the non-zero elements (pint side), multiplicative in the
    table [cv] as well. *)
Section Conv.
  Context {F : Type} {o : Ops F} {Fc : FieldC o}.
  Add Field FFc : (field_c : FieldTh o).
  Variable U : nat.

  Lemma conv_ext (cv cv' : nat -> F) e e' :
    (forall j, (j < U)%nat -> cv j = cv' j) -> (forall j, (j < U)%nat -> e j = e' j) ->
    conv U cv e = conv U cv' e'.
  Proof. intros Hc He. apply prodn_ext. intros j Hj. now rewrite Hc, He. Qed.

  Lemma conv_mul_base (cv cv' : nat -> F) e :
    (forall j, (j < U)%nat -> cv j <> 0) -> (forall j, (j < U)%nat -> cv' j <> 0) ->
    conv U (fun j => cv j * cv' j) e = conv U cv e * conv U cv' e.
  Proof.
    intros H H'. unfold conv. rewrite <- prodn_mul. apply prodn_ext. intros j Hj.
    apply zpow_mul_base; auto.
  Qed.

  Variable cv : nat -> F.
  Hypothesis cv_nz : forall j, (j < U)%nat -> cv j <> 0.

  Lemma conv_nz e : conv U cv e <> 0.
  Proof. apply prodn_nz. intros j Hj. apply zpow_nz. now apply cv_nz. Qed.

  Lemma conv_umul e1 e2 : conv U cv (umul e1 e2) = conv U cv e1 * conv U cv e2.
  Proof.
    unfold conv, umul. rewrite <- prodn_mul. apply prodn_ext. intros j Hj.
    apply zpow_add. now apply cv_nz.
  Qed.

  (** [e1] is [udiv e1 e2] times [e2] *)
  Lemma conv_udiv e1 e2 : conv U cv (udiv e1 e2) = conv U cv e1 / conv U cv e2.
  Proof.
    rewrite (conv_ext cv cv e1 (umul (udiv e1 e2) e2)) by (intros; unfold umul, udiv; auto; lia).
    rewrite conv_umul. field. apply conv_nz.
  Qed.

  Lemma conv_upow e k : conv U cv (upow e k) = zpow (conv U cv e) k.
  Proof.
    unfold conv, upow. rewrite <- prodn_zpow.
    - apply prodn_ext. intros j Hj. apply zpow_mul_exp. now apply cv_nz.
    - intros j Hj. apply zpow_nz. now apply cv_nz.
  Qed.

  Lemma conv_uone : conv U cv uone = 1.
  Proof. unfold conv, uone. cbn [zpow]. apply prodn_one. Qed.
End Conv.

Section Algebra.
  Context {F : Type} {o : Ops F} {Fc : FieldC o}.
  Add Field FFa : (field_c : FieldTh o).

  Variable U : nat.
  Variable cv : nat -> F.
  Variable ud : nat -> nat -> Z.
  Hypothesis cv_nz : forall j, (j < U)%nat -> cv j <> 0.

  Lemma dimof_umul e1 e2 i : dimof U ud (umul e1 e2) i = (dimof U ud e1 i + dimof U ud e2 i)%Z.
  Proof. unfold dimof, umul. rewrite <- sumZ_add. apply sumZ_ext. intros; lia. Qed.
  Lemma dimof_udiv e1 e2 i : dimof U ud (udiv e1 e2) i = (dimof U ud e1 i - dimof U ud e2 i)%Z.
  Proof. unfold dimof, udiv. rewrite <- sumZ_sub. apply sumZ_ext. intros; lia. Qed.
  Lemma dimof_upow e k i : dimof U ud (upow e k) i = (dimof U ud e i * k)%Z.
  Proof. unfold dimof, upow. rewrite <- sumZ_scal. apply sumZ_ext. intros; lia. Qed.
  Lemma dimof_uone i : dimof U ud uone i = 0%Z.
  Proof. unfold dimof, uone. cbn. apply sumZ_zero. Qed.

  (** scale side: [Scale._scaling_factor] is the same product of powers, over
      the table of scales *)
  Variable n : nat.
  Variable sc : nat -> F.
  Hypothesis sc_nz : forall i, (i < n)%nat -> sc i <> 0.

  Lemma factor_conv d : factor n sc d = conv n sc d.
  Proof. unfold factor, conv. ring. Qed.

  Lemma factor_nz d : factor n sc d <> 0.
  Proof. rewrite factor_conv. now apply conv_nz. Qed.

  Lemma factor_ext d d' : (forall i, (i < n)%nat -> d i = d' i) -> factor n sc d = factor n sc d'.
  Proof. intros H. rewrite !factor_conv. now apply conv_ext. Qed.

  Lemma factor_add d1 d2 : factor n sc (fun i => (d1 i + d2 i)%Z) = factor n sc d1 * factor n sc d2.
  Proof. rewrite !factor_conv. exact (conv_umul n sc sc_nz d1 d2). Qed.

  Lemma factor_sub d1 d2 : factor n sc (fun i => (d1 i - d2 i)%Z) = factor n sc d1 / factor n sc d2.
  Proof. rewrite !factor_conv. exact (conv_udiv n sc sc_nz d1 d2). Qed.

  Lemma factor_scal d k : factor n sc (fun i => (d i * k)%Z) = zpow (factor n sc d) k.
  Proof. rewrite !factor_conv. exact (conv_upow n sc sc_nz d k). Qed.

  Lemma factor_zero : factor n sc (fun _ => 0%Z) = 1.
  Proof. rewrite factor_conv. exact (conv_uone n sc). Qed.

  (** the factor of a compound unit is the product of powers of the factors of
      the named units *)
  Lemma factor_dimof N e : factor n sc (dimof N ud e) = conv N (fun j => factor n sc (ud j)) e.
  Proof.
    induction N as [|N IH]; [exact factor_zero|].
    rewrite (factor_ext _ (fun i => (dimof N ud e i + ud N i * e N)%Z)) by (intros; unfold dimof; cbn [sumZ]; lia).
    rewrite factor_add, factor_scal, IH. reflexivity.
  Qed.

  Notation nondim := (nondim U cv ud n sc).
  Notation dimen := (dimen U cv ud n sc).
  Notation conv := (conv U cv).
  Notation dimof := (dimof U ud).

  (** the non-dimensional value of one named unit *)
  Definition nd1 (j : nat) : F := cv j / factor n sc (ud j).

  Lemma nd1_nz j : (j < U)%nat -> nd1 j <> 0.
  Proof. intros Hj. apply fdiv_nz; [now apply cv_nz | apply factor_nz]. Qed.

  (** so that nondimensionalizing is a unit conversion itself, to the table of
      named units each divided by its factor; it inherits the homomorphism
      properties of [conv] *)
  Lemma nondim_conv m e : nondim m e = m * Units.conv U nd1 e.
  Proof.
    unfold Units.nondim. rewrite factor_dimof.
    rewrite (conv_ext U cv (fun j => nd1 j * factor n sc (ud j)) e e),
      (conv_mul_base U nd1 (fun j => factor n sc (ud j))); auto using nd1_nz, factor_nz.
    - field. apply conv_nz. auto using factor_nz.
    - intros j Hj. unfold nd1. field. apply factor_nz.
  Qed.

  (** the side conditions of [field]: conversion and scale factors are non-zero *)
  Ltac nzs := repeat split; first [exact (conv_nz U cv cv_nz _) | apply factor_nz].

  (** dimensionalize (nondimensionalize q) in the same unit returns the magnitude *)
  Theorem dim_nondim_same m e : dimen (nondim m e) e = m.
  Proof. unfold Units.dimen, Units.nondim. field; nzs. Qed.

  (** ... and in any unit of the same dimension it returns the same quantity
      (equal base-unit values) *)
  Theorem dim_nondim_inverse m e e' :
    (forall i, (i < n)%nat -> dimof e i = dimof e' i) ->
    base_value U cv (dimen (nondim m e) e') e' = base_value U cv m e.
  Proof.
    intros Hd. unfold Units.dimen, Units.nondim, base_value.
    rewrite (factor_ext (dimof e') (dimof e)) by (intros; symmetry; auto).
    field; nzs.
  Qed.

  Theorem nondim_dim_inverse v e : nondim (dimen v e) e = v.
  Proof. unfold Units.dimen, Units.nondim. field; nzs. Qed.

  (** the same quantity expressed in two units has one non-dimensional value *)
  Theorem nondim_unit_independent m e m' e' :
    (forall i, (i < n)%nat -> dimof e i = dimof e' i) ->
    base_value U cv m e = base_value U cv m' e' ->
    nondim m e = nondim m' e'.
  Proof.
    intros Hd Hb. unfold Units.nondim, base_value in *.
    rewrite (factor_ext (dimof e') (dimof e)) by (intros; symmetry; auto).
    replace (m / factor n sc (dimof e) * conv e) with (m * conv e / factor n sc (dimof e)) by (field; nzs).
    rewrite Hb. field; nzs.
  Qed.

  Theorem nondim_mul m1 e1 m2 e2 :
    nondim (m1 * m2) (umul e1 e2) = nondim m1 e1 * nondim m2 e2.
  Proof. rewrite !nondim_conv, conv_umul by exact nd1_nz. ring. Qed.

  Theorem nondim_div m1 e1 m2 e2 :
    m2 <> 0 ->
    nondim (m1 / m2) (udiv e1 e2) = nondim m1 e1 / nondim m2 e2.
  Proof.
    intros Hm. rewrite !nondim_conv, conv_udiv by exact nd1_nz.
    field. split; [apply conv_nz, nd1_nz | exact Hm].
  Qed.

  Theorem nondim_pow m e k :
    m <> 0 ->
    nondim (zpow m k) (upow e k) = zpow (nondim m e) k.
  Proof.
    intros Hm. rewrite !nondim_conv, conv_upow by exact nd1_nz.
    symmetry. apply zpow_mul_base; [exact Hm | apply conv_nz, nd1_nz].
  Qed.

  (** a dimensionless quantity is its own non-dimensional value *)
  Theorem nondim_dimensionless m : nondim m uone = m.
  Proof. rewrite nondim_conv, conv_uone. ring. Qed.

  (** a rate expressed per unit [e] times the non-dimensional length of one such
      unit is the bare number: nondim(p / e) * nondim(1 e) = p  (orbital rates:
      2 pi / day times one day is a full turn) *)
  Theorem rate_times_period p e : nondim p (upow e (-1)) * nondim 1 e = p.
  Proof.
    rewrite !nondim_conv, conv_upow by exact nd1_nz.
    rewrite (zpow_opp _ 1), zpow_1 by apply conv_nz, nd1_nz. field. apply conv_nz, nd1_nz.
  Qed.

  (** the ValueError branch: a result is produced exactly when every dimension
      of the unit with non-zero exponent has a scale *)
  Lemma covers_spec has k d :
    covers has k d = true <-> forall i, (i < k)%nat -> has i = true \/ d i = 0%Z.
  Proof.
    induction k as [|k IH]; cbn.
    - split; [intros _ i Hi; lia | reflexivity].
    - rewrite Bool.andb_true_iff, IH, Bool.orb_true_iff, Z.eqb_eq. split.
      + intros [H1 H2] i Hi. destruct (Nat.eq_dec i k) as [->|Hne]; [exact H2 | apply H1; lia].
      + intros H. split; [intros i Hi; apply H; lia | apply H; lia].
  Qed.

  Theorem nondim_opt_defined has m e :
    (exists v, nondim_opt U cv ud n has sc m e = Some v) <->
    forall i, (i < n)%nat -> has i = true \/ dimof e i = 0%Z.
  Proof.
    unfold nondim_opt. rewrite <- covers_spec. destruct (covers has n (dimof e)).
    - split; [reflexivity | now eexists].
    - split; [intros [v H] | intros H]; discriminate.
  Qed.
End Algebra.

(** Phase reduction [x - floor(x/p) * p] over the reals ([Zfloor] of Flocq). *)
From Coq Require Import Reals Lra.
From Flocq Require Import Raux.
From Dino Require Import Base.Inst.

Section PhaseR.
  Local Open Scope R_scope.
  Notation reduceR := (@reduce R ROps Zfloor).
  Notation phaseR := (@phase_at R ROps Zfloor).

  Lemma reduceR_eq p x : reduceR p x = x - IZR (Zfloor (x / p)) * p.
  Proof. reflexivity. Qed.

  Theorem phase_reduced p x : 0 < p ->
    0 <= reduceR p x < p /\ exists k : Z, reduceR p x = x - IZR k * p.
  Proof.
    intros Hp. rewrite reduceR_eq. split; [|now exists (Zfloor (x / p))].
    pose proof (Zfloor_lb (x / p)) as H1. pose proof (Zfloor_ub (x / p)) as H2.
    set (k := IZR (Zfloor (x / p))) in *.
    assert (E : x = x / p * p) by (field; lra).
    split.
    - assert (k * p <= x / p * p) by (apply Rmult_le_compat_r; lra). lra.
    - assert (x / p * p < (k + 1) * p) by (apply Rmult_lt_compat_r; lra). lra.
  Qed.

  (** the reduced phase is the only representative of x modulo p in [0, p) *)
  Theorem phase_unique p x y (k : Z) : 0 < p -> 0 <= y < p -> x - y = IZR k * p -> y = reduceR p x.
  Proof.
    intros Hp Hy E. rewrite reduceR_eq.
    assert (F : Zfloor (x / p) = k).
    { apply Zfloor_imp. rewrite plus_IZR. simpl.
      replace (x / p) with (IZR k + y / p) by (replace x with (y + IZR k * p) by lra; field; lra).
      assert (0 <= y / p < 1).
      { split; [apply Rmult_le_pos; [lra | left; now apply Rinv_0_lt_compat]|].
        apply Rmult_lt_reg_r with p; [exact Hp|]. replace (y / p * p) with y by (field; lra). lra. }
      lra. }
    rewrite F. lra.
  Qed.

  Theorem phase_period p x (k : Z) : 0 < p -> reduceR p (x + IZR k * p) = reduceR p x.
  Proof.
    intros Hp. symmetry.
    destruct (phase_reduced p x Hp) as (Hr & k0 & Ek).
    apply (phase_unique p (x + IZR k * p) (reduceR p x) (k0 + k) Hp Hr).
    rewrite plus_IZR, Ek. ring.
  Qed.

  (** [time_to_orbital_time]: advancing the time by dt advances the phase by
      rate * dt, modulo the period *)
  Theorem phase_advance p ref rate t dt : 0 < p ->
    phaseR p ref rate (t + dt) = reduceR p (phaseR p ref rate t + rate * dt).
  Proof.
    intros Hp. unfold phase_at.
    destruct (phase_reduced p (@fadd R ROps ref (@fmul R ROps rate t)) Hp) as (_ & k & Ek).
    rewrite Ek. cbn [fadd fmul ROps].
    replace (ref + rate * t - IZR k * p + rate * dt) with (ref + rate * (t + dt) + IZR (- k) * p)
      by (rewrite opp_IZR; ring).
    now rewrite phase_period.
  Qed.

  (** elapsed time of one full period (rate * dt = k * p) returns the same phase *)
  Theorem phase_full_turns p ref rate t dt (k : Z) : 0 < p -> rate * dt = IZR k * p ->
    phaseR p ref rate (t + dt) = phaseR p ref rate t.
  Proof.
    intros Hp E. unfold phase_at. cbn [fadd fmul ROps].
    replace (ref + rate * (t + dt)) with (ref + rate * t + IZR k * p) by (rewrite <- E; ring).
    now apply phase_period.
  Qed.
End PhaseR.
