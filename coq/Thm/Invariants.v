(** Theorems for property C11: structural invariants along trajectories, for
    every field, every vector space, every step term (hence every integrator of
    time_integration.py with arbitrary coefficient lists), every filter stack
    and every step count (induction). *)
From Dino Require Import Base.Ops Base.Sums Base.Ord Base.Inst Model.Filters Thm.Filters Model.Sigma
     Gen.DerivExprs Gen.Tableaux Model.Deriv Thm.Deriv Model.Invariants.
From Dino Require Model.Integrators.
From Coq Require Import Qcanon.
Local Open Scope F_scope.

Section Generic.
  Context {T : Type}.

  Lemma with_filters_ind (step : T -> T) (filters : list (T -> T -> T)) u (Q : T -> Prop) :
    Q (step u) -> (forall f, In f filters -> forall un, Q un -> Q (f u un)) ->
    Q (with_filters step filters u).
  Proof.
    unfold with_filters. generalize (step u) as un.
    induction filters as [|f fs IH]; intros un Hun Hf; cbn; [exact Hun|].
    apply IH.
    - apply Hf; [now left|exact Hun].
    - intros g Hg. apply Hf. now right.
  Qed.

  (** an invariant that depends on the number of steps taken *)
  Lemma iter_ind (I : nat -> T -> Prop) (step : T -> T) :
    (forall j u, I j u -> I (S j) (step u)) -> forall k u, I 0%nat u -> I k (iter k step u).
  Proof.
    intros Hs k. revert I Hs. induction k as [|k IH]; intros I Hs u Hu; cbn; [exact Hu|].
    apply (IH (fun j => I (S j))); auto.
  Qed.

  Lemma filtered_iter_preserves (Inv : T -> Prop) (step : T -> T) (filters : list (T -> T -> T)) :
    (forall u, Inv u -> Inv (step u)) ->
    (forall f, In f filters -> forall u un, Inv u -> Inv un -> Inv (f u un)) ->
    forall k u, Inv u -> Inv (iter k (with_filters step filters) u).
  Proof.
    intros Hs Hf k. apply (iter_ind (fun _ => Inv)). intros _ u Hu.
    apply with_filters_ind; [now apply Hs|]. intros f Hin un. now apply Hf.
  Qed.
End Generic.

(** The fundamental lemma of the term language: a relation between two carriers that the vector
    operations and the three operators respect is respected by the value of every term.
    Subspaces (a relation that ignores one side), congruence, linear observables and the
    commutation with a linear map are instances. *)
Section EvalRel.
  Context {F V W : Type} {vo : VSp F V} {wo : VSp F W}.
  Variables (Fx G : V -> V) (Ginv : F -> V -> V) (Fx' G' : W -> W) (Ginv' : F -> W -> W).
  Variable R : V -> W -> Prop.
  Hypothesis R_zero : R vz vz.
  Hypothesis R_add : forall x x' y y', R x x' -> R y y' -> R (va x y) (va x' y').
  Hypothesis R_scale : forall c x x', R x x' -> R (vs c x) (vs c x').
  Hypothesis R_F : forall x x', R x x' -> R (Fx x) (Fx' x').
  Hypothesis R_G : forall x x', R x x' -> R (G x) (G' x').
  Hypothesis R_Ginv : forall eta x x', R x x' -> R (Ginv eta x) (Ginv' eta x').

  Lemma eval_rel (t : stepterm F) (env : nat -> V) (env' : nat -> W) :
    (forall i, R (env i) (env' i)) -> R (eval Fx G Ginv t env) (eval Fx' G' Ginv' t env').
  Proof. intros He. induction t; cbn; auto. Qed.
End EvalRel.

Lemma eval_ext {F V : Type} {vo : VSp F V} (Fx G : V -> V) (Ginv : F -> V -> V) (t : stepterm F) (env env' : nat -> V) :
  (forall i, env i = env' i) -> eval Fx G Ginv t env = eval Fx G Ginv t env'.
Proof. apply (eval_rel Fx G Ginv Fx G Ginv eq); congruence. Qed.

Section StepAlgebra.
  Context {F : Type} {o : Ops F} {Fc : FieldC o}.
  Add Field FFa : (field_c : FieldTh o).
  Context {V : Type} {vo : VSp F V}.
  Context (Fx G : V -> V) (Ginv : F -> V -> V).

  (** a linear subspace S that the three operators map into itself *)
  Record InvSub (S : V -> Prop) : Prop := {
    is_zero : S vz;
    is_add : forall x y, S x -> S y -> S (va x y);
    is_scale : forall c x, S x -> S (vs c x);
    is_F : forall x, S x -> S (Fx x);
    is_G : forall x, S x -> S (G x);
    is_Ginv : forall eta x, S x -> S (Ginv eta x) }.

  (** one linear component P that sees F = phi, G = 0, G_inv = id (on S) *)
  Record Observable (S : V -> Prop) (P : V -> F) (phi : F) : Prop := {
    ob_zero : P vz = 0;
    ob_add : forall x y, P (va x y) = P x + P y;
    ob_scale : forall c x, P (vs c x) = c * P x;
    ob_F : forall x, S x -> P (Fx x) = phi;
    ob_G : forall x, S x -> P (G x) = 0;
    ob_Ginv : forall eta x, S x -> P (Ginv eta x) = P x }.

  Lemma InvSub_True : InvSub (fun _ => True).
  Proof. now split. Qed.

  Lemma InvSub_ker (D : V -> F) : Observable (fun _ => True) D 0 -> InvSub (fun x => D x = 0).
  Proof.
    intros [D0 Da Ds DF DG DI]. split; auto.
    - intros x y Hx Hy. rewrite Da, Hx, Hy. ring.
    - intros c x Hx. rewrite Ds, Hx. ring.
    - intros eta x Hx. now rewrite DI.
  Qed.

  (** a term is *consistent with weight c* if its scalar image is u + c * phi *)
  Definition consistent (t : stepterm F) (c : F) : Prop :=
    forall ph pe, aeval ph t pe = pe 0%nat + c * ph.

  Lemma consistent_unit (t : stepterm F) (dt s : F) : s = 1 -> consistent t (dt * s) -> consistent t dt.
  Proof. intros -> H ph pe. rewrite H. ring. Qed.

  Variable S : V -> Prop.
  Hypothesis HS : InvSub S.

  Theorem InvSub_eval (t : stepterm F) (env : nat -> V) :
    (forall i, S (env i)) -> S (eval Fx G Ginv t env).
  Proof. destruct HS. refine (eval_rel Fx G Ginv Fx G Ginv (fun x _ => S x) _ _ _ _ _ _ t env env); auto. Qed.

  Definition S2 (pc : V * V) : Prop := S (fst pc) /\ S (snd pc).
  Corollary lf_step_preserves_subspace (t : stepterm F) pc : S2 pc -> S2 (lf_step_of Fx G Ginv t pc).
  Proof. intros [Hp Hc]. split; [exact Hc|]. apply InvSub_eval. intros [|i]; assumption. Qed.

  Theorem InvSub_trajectory (t : stepterm F) (filters : list (V -> V -> V)) :
    (forall f, In f filters -> forall u un, S u -> S un -> S (f u un)) ->
    forall k u, S u -> S (iter k (with_filters (step_of Fx G Ginv t) filters) u).
  Proof. apply filtered_iter_preserves. intros u Hu. apply InvSub_eval. intros i. exact Hu. Qed.

  Theorem lf_trajectory_in_subspace (t : stepterm F) (filters : list (V * V -> V * V -> V * V)) :
    (forall f, In f filters -> forall u un, S2 u -> S2 un -> S2 (f u un)) ->
    forall k u, S2 u -> S2 (iter k (with_filters (lf_step_of Fx G Ginv t) filters) u).
  Proof. apply filtered_iter_preserves, lf_step_preserves_subspace. Qed.

  Section Component.
    Variables (P : V -> F) (phi : F).
    Hypothesis HP : Observable S P phi.

    Theorem term_affine_component (t : stepterm F) (env : nat -> V) :
      (forall i, S (env i)) ->
      S (eval Fx G Ginv t env) /\ P (eval Fx G Ginv t env) = aeval phi t (fun i => P (env i)).
    Proof.
      intros He. destruct HS, HP.
      apply (eval_rel Fx G Ginv (wo := FSp) (fun _ => phi) (fun _ => 0) (fun _ x => x) (fun x p => S x /\ P x = p)); cbn; auto.
      - intros x p y q [Hx <-] [Hy <-]. auto.
      - intros c x p [Hx <-]. auto.
      - intros x p [Hx _]. auto.
      - intros x p [Hx _]. auto.
      - intros eta x p [Hx <-]. auto.
    Qed.

    Theorem component_after_k_steps (t : stepterm F) (c : F) (filters : list (V -> V -> V)) :
      consistent t c ->
      (forall f, In f filters -> forall u un, S u -> S un -> S (f u un) /\ P (f u un) = P un) ->
      forall k u, S u ->
        S (iter k (with_filters (step_of Fx G Ginv t) filters) u) /\
        P (iter k (with_filters (step_of Fx G Ginv t) filters) u) = P u + lit k * (c * phi).
    Proof.
      intros Hc Hf k u Hu. apply (iter_ind (fun j v => S v /\ P v = P u + lit j * (c * phi))).
      - intros j v [Hv Ev].
        apply (with_filters_ind _ _ v (fun un => S un /\ P un = P u + lit (Datatypes.S j) * (c * phi))).
        + destruct (term_affine_component t (env1 v) (fun _ => Hv)) as [A B]. split; [exact A|].
          unfold step_of. rewrite B, Hc. unfold env1. rewrite Ev. cbn [lit]. ring.
        + intros f Hin un [Hun <-]. exact (Hf f Hin v un Hv Hun).
      - split; [exact Hu|]. cbn [lit]. ring.
    Qed.

    Theorem lf_step_component (t : stepterm F) pc :
      S2 pc ->
      P (snd (lf_step_of Fx G Ginv t pc)) = aeval phi t (env2 (P (fst pc)) (P (snd pc))).
    Proof.
      intros [Hp Hc]. cbn. destruct (term_affine_component t (env2 (fst pc) (snd pc))) as [_ ->]; [intros [|i]; assumption|].
      unfold aeval. apply (eval_ext (vo := FSp)). intros [|i]; reflexivity.
    Qed.
  End Component.

  Corollary conserved_component (P : V -> F) (t : stepterm F) (c : F) (filters : list (V -> V -> V)) :
    Observable S P 0 -> consistent t c ->
    (forall f, In f filters -> forall u un, S u -> S un -> S (f u un) /\ P (f u un) = P un) ->
    forall k u, S u ->
      S (iter k (with_filters (step_of Fx G Ginv t) filters) u) /\
      P (iter k (with_filters (step_of Fx G Ginv t) filters) u) = P u.
  Proof.
    intros HP Hc Hf k u Hu. destruct (component_after_k_steps P 0 HP t c filters Hc Hf k u Hu) as [A ->].
    split; [exact A|ring].
  Qed.
End StepAlgebra.

(** the same with the closure properties of S as six separate premises *)
Section Abstract.
  Context {F : Type} {o : Ops F} {Fc : FieldC o}.
  Context {V : Type} {vo : VSp F V}.
  Context (Fx G : V -> V) (Ginv : F -> V -> V).

  Variable S : V -> Prop.
  Hypothesis S_zero : S vz.
  Hypothesis S_add : forall x y, S x -> S y -> S (va x y).
  Hypothesis S_scale : forall c x, S x -> S (vs c x).
  Hypothesis F_into : forall x, S x -> S (Fx x).
  Hypothesis G_pres : forall x, S x -> S (G x).
  Hypothesis Ginv_pres : forall eta x, S x -> S (Ginv eta x).

  Theorem term_preserves_subspace (t : stepterm F) (env : nat -> V) :
    (forall i, S (env i)) -> S (eval Fx G Ginv t env).
  Proof. apply InvSub_eval. now split. Qed.

  Theorem trajectory_in_subspace (t : stepterm F) (filters : list (V -> V -> V)) :
    (forall f, In f filters -> forall u un, S u -> S un -> S (f u un)) ->
    forall k u, S u -> S (iter k (with_filters (step_of Fx G Ginv t) filters) u).
  Proof. apply InvSub_trajectory. now split. Qed.
End Abstract.

(** a left/right inverse of (1 - eta G) passes every component that G annihilates *)
Section Resolvent.
  Context {F : Type} {o : Ops F} {Fc : FieldC o}.
  Add Field FFr : (field_c : FieldTh o).
  Context {V : Type} {vo : VSp F V}.
  Context (G : V -> V) (Ginv : F -> V -> V) (P : V -> F).
  Hypothesis P_add : forall x y, P (va x y) = P x + P y.
  Hypothesis P_scale : forall c x, P (vs c x) = c * P x.
  Hypothesis P_G : forall x, P (G x) = 0.

  Theorem inverse_passes_component eta y :
    va (Ginv eta y) (vs (- eta) (G (Ginv eta y))) = y -> P (Ginv eta y) = P y.
  Proof.
    intros H. rewrite <- H at 2. rewrite P_add, P_scale, P_G. ring.
  Qed.
End Resolvent.

Section Consistency.
  Context {F : Type} {o : Ops F} {Fc : FieldC o}.
  Add Field FFc : (field_c : FieldTh o).

  Lemma aeval_var ph i pe : aeval ph (TVar i) pe = pe i. Proof. reflexivity. Qed.
  Lemma aeval_zero ph (pe : nat -> F) : aeval ph TZero pe = 0. Proof. reflexivity. Qed.
  Lemma aeval_add ph a b (pe : nat -> F) : aeval ph (TAdd a b) pe = aeval ph a pe + aeval ph b pe.
  Proof. reflexivity. Qed.
  Lemma aeval_scale ph c a (pe : nat -> F) : aeval ph (TScale c a) pe = c * aeval ph a pe.
  Proof. reflexivity. Qed.
  Lemma aeval_F ph a (pe : nat -> F) : aeval ph (TF a) pe = ph. Proof. reflexivity. Qed.
  Lemma aeval_G ph a (pe : nat -> F) : aeval ph (TG a) pe = 0. Proof. reflexivity. Qed.
  Lemma aeval_Ginv ph eta a (pe : nat -> F) : aeval ph (TGinv eta a) pe = aeval ph a pe.
  Proof. reflexivity. Qed.

  Theorem euler_consistent (dt : F) : consistent (euler_term dt) dt.
  Proof.
    intros ph pe. unfold euler_term, U.
    rewrite aeval_Ginv, aeval_add, aeval_scale, aeval_F, aeval_var. reflexivity.
  Qed.

  Theorem cn_rk2_consistent (dt : F) : (1 + 1 : F) <> 0 -> consistent (cn_rk2_term dt) dt.
  Proof.
    intros H2 ph pe. unfold cn_rk2_term, U, aeval. cbn.
    unfold ihalf. field. exact H2.
  Qed.

  Lemma aeval_ls ph dt al be ga h u (pe : nat -> F) :
    aeval ph (ls_term dt al be ga h u) pe
    = aeval ph u pe + dt * ls_w ph al be ga (aeval ph h pe).
  Proof.
    revert al ga h u. induction be as [|b be IH]; intros al ga h u.
    - cbn [ls_term ls_w]. ring.
    - destruct ga as [|g ga]; [cbn [ls_term ls_w]; ring|].
      destruct al as [|a0 [|a1 al]]; [cbn [ls_term ls_w]; ring|cbn [ls_term ls_w]; ring|].
      cbn [ls_term ls_w]. rewrite IH.
      rewrite aeval_Ginv, !aeval_add, !aeval_scale, aeval_G, aeval_add, aeval_F, aeval_scale.
      ring.
  Qed.

  Lemma ls_w_homog ph al be ga h : ls_w ph al be ga (ph * h) = ph * ls_w 1 al be ga h.
  Proof.
    revert al ga h. induction be as [|b be IH]; intros al ga h.
    - cbn [ls_term ls_w]. ring.
    - destruct ga as [|g ga]; [cbn [ls_term ls_w]; ring|].
      destruct al as [|a0 [|a1 al]]; [cbn [ls_term ls_w]; ring|cbn [ls_term ls_w]; ring|].
      cbn [ls_w].
      replace (ph + b * (ph * h)) with (ph * (1 + b * h)) by ring.
      rewrite IH. ring.
  Qed.

  (** every low-storage scheme, whatever its coefficient lists: weight dt * sum(b_ex) *)
  Theorem ls_consistent (dt : F) (al be ga : list F) :
    consistent (ls_step_term dt al be ga) (dt * ls_consistency al be ga).
  Proof.
    intros ph pe. unfold ls_step_term, ls_consistency. rewrite aeval_ls.
    rewrite aeval_zero. unfold U. rewrite aeval_var.
    replace (0 : F) with (ph * 0) at 1 by ring. rewrite ls_w_homog. ring.
  Qed.

  Definition all_val (v : F) ph (pe : nat -> F) (xs : list (option (stepterm F))) : Prop :=
    Forall (fun x => forall t, x = Some t -> aeval ph t pe = v) xs.

  Lemma tsum_skip_val v ph (pe : nat -> F) cs xs acc r :
    all_val v ph pe xs -> tsum_skip cs xs acc = Some r ->
    aeval ph r pe = aeval ph acc pe + skipsum cs (length xs) * v.
  Proof.
    revert xs acc r. induction cs as [|c cs IH]; intros xs acc r Hx H.
    - cbn in H. injection H as <-. destruct xs; cbn; ring.
    - destruct xs as [|x xs]; [cbn in H; injection H as <-; cbn; ring|].
      inversion Hx as [|? ? Hx1 Hx2]; subst. cbn [tsum_skip] in H. cbn [length skipsum].
      destruct (tnz c).
      + destruct x as [t|]; [|discriminate].
        rewrite (IH _ _ _ Hx2 H). rewrite aeval_add, aeval_scale, (Hx1 t eq_refl). ring.
      + rewrite (IH _ _ _ Hx2 H). ring.
  Qed.

  Lemma all_val_app v ph (pe : nat -> F) xs x :
    all_val v ph pe xs -> (forall t, x = Some t -> aeval ph t pe = v) -> all_val v ph pe (xs ++ [x]).
  Proof. intros H1 H2. apply Forall_app. split; [exact H1|]. constructor; [exact H2|constructor]. Qed.

  Lemma imex_stage_terms_val ph (pe : nat -> F) dt b_ex b_im i rex rim fs gs fs' gs' :
    all_val ph ph pe fs -> all_val 0 ph pe gs ->
    imex_stage_terms dt b_ex b_im i rex rim fs gs = Some (fs', gs') ->
    all_val ph ph pe fs' /\ all_val 0 ph pe gs' /\
    length fs' = (length fs + Nat.min (length rex) (length rim))%nat.
  Proof.
    revert i rim fs gs. induction rex as [|re rex IH]; intros i rim fs gs Hf Hg H.
    - cbn in H. injection H as <- <-. cbn. repeat split; auto.
    - destruct rim as [|ri rim]; [cbn in H; injection H as <- <-; cbn; repeat split; auto|].
      cbn [imex_stage_terms] in H.
      destruct (tsum_skip re fs TZero) as [ex|]; [|discriminate].
      destruct (tsum_skip ri gs TZero) as [im|]; [|discriminate].
      apply IH in H.
      + destruct H as (A & B & C). repeat split; auto.
        rewrite C, app_length. cbn [length Nat.min]. lia.
      + apply all_val_app; [exact Hf|]. intros t Ht.
        destruct (tneeded i rex b_ex); [|discriminate]. injection Ht as <-. reflexivity.
      + apply all_val_app; [exact Hg|]. intros t Ht.
        destruct (tneeded i rim b_im); [|discriminate]. injection Ht as <-. reflexivity.
  Qed.

  (** every tableau on which the code does not fail: weight dt * (sum of the truthy b_ex) *)
  Theorem imex_consistent (dt : F) a_ex a_im b_ex b_im t :
    imex_term dt a_ex a_im b_ex b_im = Some t ->
    consistent t (dt * imex_consistency a_ex a_im b_ex).
  Proof.
    intros H ph pe. unfold imex_term in H.
    destruct (imex_stage_terms dt b_ex b_im 1 a_ex a_im [Some (TF U)] [Some (TG U)])
      as [[fs gs]|] eqn:E; [|discriminate].
    apply (imex_stage_terms_val ph pe) in E.
    - destruct E as (Af & Ag & Len).
      destruct (tsum_skip b_ex fs TZero) as [ex|] eqn:Eex; [|discriminate].
      destruct (tsum_skip b_im gs TZero) as [im|] eqn:Eim; [|discriminate].
      injection H as <-.
      rewrite !aeval_add, !aeval_scale.
      rewrite (tsum_skip_val _ _ _ _ _ _ _ Af Eex), (tsum_skip_val _ _ _ _ _ _ _ Ag Eim).
      rewrite aeval_zero. unfold U. rewrite aeval_var. unfold imex_consistency.
      rewrite Len. cbn [length Nat.add]. ring.
    - constructor; [|constructor]. intros t0 Ht. injection Ht as <-. reflexivity.
    - constructor; [|constructor]. intros t0 Ht. injection Ht as <-. reflexivity.
  Qed.

  Theorem leapfrog_scalar (dt alpha ph : F) pe :
    aeval ph (leapfrog_term dt alpha) pe = pe 0%nat + itwo * dt * ph.
  Proof.
    unfold leapfrog_term.
    rewrite aeval_Ginv, aeval_add, aeval_scale, aeval_add, aeval_F, aeval_scale, aeval_G, !aeval_var.
    ring.
  Qed.

  (** Robert-Asselin: a linear combination with weights summing to one *)
  Theorem ra_scalar (r ph : F) p c f pe :
    aeval ph p pe + aeval ph f pe = itwo * aeval ph c pe ->
    aeval ph (ra_term r p c f) pe = aeval ph c pe.
  Proof.
    intros H. unfold ra_term. rewrite !aeval_add, !aeval_scale, aeval_add, H. unfold itwo. ring.
  Qed.
End Consistency.

Section Timed.
  Context {F : Type} {o : Ops F} {Fc : FieldC o}.
  Add Field FFt : (field_c : FieldTh o).
  Context {V : Type} {vo : VSp F V}.
  Context (Fx G : V -> V) (Ginv : F -> V -> V) (tdot : F).

  Let TF' := timed_F tdot Fx.
  Let TG' := timed_G G.
  Let TGi' := timed_Ginv Ginv.

  Lemma timed_clock : Observable (vo := TimedSp vo) TF' TG' TGi' (fun _ => True) snd tdot.
  Proof. now split. Qed.

  (** sim_time after k filtered steps = t0 + k * (c * tdot): every term of weight c,
      every stack of filters that act on the array leaves only, every k *)
  Theorem sim_time_advances (t : stepterm F) (c : F) (fs : list (V -> V)) k (u : V * F) :
    consistent t c ->
    snd (iter k (with_filters (step_of (vo := TimedSp vo) TF' TG' TGi' t)
                              (map (fun f => rk_filter (timed_filter f)) fs)) u)
    = snd u + lit k * (c * tdot).
  Proof.
    intros Hc. refine (proj2 (component_after_k_steps _ _ _ _ (InvSub_True _ _ _) _ _ timed_clock t c _ Hc _ k u I)).
    intros f Hf v vn _ _. split; [exact I|].
    apply in_map_iff in Hf. destruct Hf as (g & <- & _). reflexivity.
  Qed.

  (** the clock of the code: tdot = 1 *)
  Corollary sim_time_unit (t : stepterm F) (c : F) (fs : list (V -> V)) k (u : V * F) :
    tdot = 1 -> consistent t c ->
    snd (iter k (with_filters (step_of (vo := TimedSp vo) TF' TG' TGi' t)
                              (map (fun f => rk_filter (timed_filter f)) fs)) u)
    = snd u + lit k * c.
  Proof. intros E1 Hc. rewrite (sim_time_advances t c fs k u Hc), E1. f_equal. ring. Qed.

  Lemma timed_Ginv_time eta (x : V * F) : snd (timed_Ginv Ginv eta x) = snd x.
  Proof. reflexivity. Qed.
  Lemma timed_filter_time (f : V -> V) (x : V * F) : snd (timed_filter f x) = snd x.
  Proof. reflexivity. Qed.

  Lemma timed_eval_fst (t : stepterm F) (env : nat -> V * F) :
    fst (eval (vo := TimedSp vo) TF' TG' TGi' t env) = eval Fx G Ginv t (fun i => fst (env i)).
  Proof. apply (eval_rel (vo := TimedSp vo) TF' TG' TGi' Fx G Ginv (fun x y => fst x = y)); cbn; congruence. Qed.
End Timed.

Section Modal.
  Context {F : Type} {o : Ops F} {Fc : FieldC o}.
  Add Field FFm : (field_c : FieldTh o).
  Variables (fast : bool) (M L R C : nat).
  Hypothesis HLC : (L <= C)%nat.

  Definition Supp (x : stack) : Prop :=
    forall k i l, (i < R)%nat -> (l < C)%nat -> must_vanish fast M L i l = true -> x k i l = 0.

  Lemma Supp_zero : Supp (vz (VSp := StackSp)).
  Proof. intros k i l _ _ _. reflexivity. Qed.
  Lemma Supp_add x y : Supp x -> Supp y -> Supp (va (VSp := StackSp) x y).
  Proof. intros Hx Hy k i l Hi Hl Hm. cbn. rewrite Hx, Hy by assumption. ring. Qed.
  Lemma Supp_scale c x : Supp x -> Supp (vs (VSp := StackSp) c x).
  Proof. intros Hx k i l Hi Hl Hm. cbn. rewrite Hx by assumption. ring. Qed.

  (** clip_wavenumbers zeroes the top total wavenumber and the padded columns *)
  Lemma clip_top (x : arr2) i l : (L - 1 <= l)%nat -> clip L C 1 x i l = 0.
  Proof.
    intros Hl. unfold clip. destruct (Nat.ltb_spec l (C - (1 + (C - L)))); [lia|ring].
  Qed.
  Lemma clip_zero (x : arr2) i l : x i l = 0 -> clip L C 1 x i l = 0.
  Proof. intros H. unfold clip. rewrite H. ring. Qed.
  Lemma clip_low (x : arr2) i l : (l < L - 1)%nat -> clip L C 1 x i l = x i l.
  Proof.
    intros Hl. unfold clip. destruct (Nat.ltb_spec l (C - (1 + (C - L)))); [ring|lia].
  Qed.

  (** an entry that has to vanish is either clipped or outside the mask *)
  Lemma clip_must_vanish (x : arr2) i l :
    must_vanish fast M L i l = true -> (mask fast M L i l = false -> x i l = 0) -> clip L C 1 x i l = 0.
  Proof.
    intros Hm Hx. unfold must_vanish in Hm. apply Bool.orb_true_iff in Hm. destruct Hm as [Hm|Hm].
    - apply clip_zero, Hx. now apply Bool.negb_true_iff.
    - apply clip_top. now apply Nat.leb_le.
  Qed.

  (** explicit terms: ANY input is mapped into the pattern, provided the value
      before the final clip vanishes outside the triangular mask
      ([H_pre_mask]: outputs of to_modal and of the derivative operators) *)
  Theorem explicit_into_Supp (pre : stack -> stack) :
    (forall x k i l, (i < R)%nat -> (l < C)%nat -> mask fast M L i l = false -> pre x k i l = 0) ->
    forall x, Supp (explicit_model L C pre x).
  Proof. intros Hpre x k i l Hi Hl Hm. apply clip_must_vanish; auto. Qed.

  (** the same when the pre-clip value is only known to respect the mask for
      inputs that are themselves in the pattern (shallow water: the pressure term
      is linear in the modal input) *)
  Theorem explicit_into_Supp_rel (pre : stack -> stack) :
    (forall x, Supp x -> forall k i l, (i < R)%nat -> (l < C)%nat -> mask fast M L i l = false -> pre x k i l = 0) ->
    forall x, Supp x -> Supp (explicit_model L C pre x).
  Proof. intros Hpre x Hx k i l Hi Hl Hm. apply clip_must_vanish; auto. Qed.

  (** the top wavenumber alone needs no hypothesis at all *)
  Theorem explicit_top_zero (pre : stack -> stack) x k i l :
    (L - 1 <= l)%nat -> explicit_model L C pre x k i l = 0.
  Proof. intros Hl. unfold explicit_model, clip_stack. now apply clip_top. Qed.

  (** operators acting per (i,l) keep zero columns zero: implicit terms,
      implicit inverse (any matrices), filters (any scaling) *)
  Theorem diagop_preserves_Supp N A x : Supp x -> Supp (diagop N A x).
  Proof.
    intros Hx k i l Hi Hl Hm. unfold diagop. apply sumn_zero. intros k' _.
    rewrite Hx by assumption. ring.
  Qed.
  Theorem lfilter_preserves_Supp s x : Supp x -> Supp (lfilter s x).
  Proof. intros Hx k i l Hi Hl Hm. unfold lfilter. rewrite Hx by assumption. ring. Qed.

  Theorem modal_trajectory_in_Supp (pre : stack -> stack) N AG (AI : F -> nat -> nat -> nat -> nat -> F)
          (t : stepterm F) (scalings : list (nat -> nat -> F)) :
    (forall x, Supp x -> forall k i l, (i < R)%nat -> (l < C)%nat -> mask fast M L i l = false -> pre x k i l = 0) ->
    forall k u, Supp u ->
      Supp (iter k (with_filters
                      (step_of (vo := StackSp) (explicit_model L C pre) (diagop N AG) (fun eta => diagop N (AI eta)) t)
                      (map (fun s => rk_filter (lfilter s)) scalings)) u).
  Proof.
    intros Hpre. apply InvSub_trajectory.
    - split; [exact Supp_zero|exact Supp_add|exact Supp_scale|now apply explicit_into_Supp_rel| |];
        intros; now apply diagop_preserves_Supp.
    - intros f Hf u un _ Hun. apply in_map_iff in Hf. destruct Hf as (s & <- & _).
      unfold rk_filter. now apply lfilter_preserves_Supp.
  Qed.

  Lemma pattern_ok_spec (x : arr2) :
    pattern_ok fast M L R C x = true ->
    forall i l, (i < R)%nat -> (l < C)%nat -> must_vanish fast M L i l = true -> feqb (x i l) 0 = true.
  Proof.
    unfold pattern_ok. intros H i l Hi Hl Hm.
    rewrite forallb_forall in H. specialize (H i). rewrite in_seq in H.
    specialize (H ltac:(lia)). rewrite forallb_forall in H. specialize (H l). rewrite in_seq in H.
    specialize (H ltac:(lia)). rewrite Hm in H. exact H.
  Qed.
End Modal.

Section Mean.
  Context {F : Type} {o : Ops F} {Fc : FieldC o}.
  Add Field FFg : (field_c : FieldTh o).
  Variables (fast : bool) (L R C : nat) (r : F) (a b : @arr2 F).
  Hypothesis Hr : r <> 0.
  Hypothesis HL : (2 <= L)%nat.
  Hypothesis HLC : (L <= C)%nat.
  Hypothesis HR : (0 < R)%nat.

  Lemma d_dlon_row0 (x : arr2) l : d_dlon fast R x 0%nat l = 0.
  Proof.
    unfold d_dlon. destruct fast.
    - rewrite dlon_fast_unfold by exact HR. cbn. ring.
    - rewrite dlon_ref_unfold by exact HR. cbn. ring.
  Qed.

  (** sec_lat_d_dlat_cos2 at l = 0: the only contribution comes from l = 1 with
      weight (l - 1) * a = 0 * a, whatever the table a *)
  Lemma D2_col0 (x : arr2) i : D2 L C a b x i 0%nat = 0.
  Proof.
    rewrite D2_entries by lia. unfold tri. cbn [Nat.eqb].
    destruct (Nat.ltb 1 C); [|ring].
    rewrite laxis_lt by lia. cbn [lit]. ring.
  Qed.

  Lemma dlon_D2_00 (x y : arr2) :
    (d_dlon fast R x 0%nat 0%nat + D2 L C a b y 0%nat 0%nat) / r = 0 /\
    (d_dlon fast R x 0%nat 0%nat - D2 L C a b y 0%nat 0%nat) / r = 0.
  Proof. rewrite d_dlon_row0, D2_col0. split; field; exact Hr. Qed.

  Theorem div_cos_lat_00 c (v : vec2) : div_cos_lat fast L R C r a b c v 0%nat 0%nat = 0.
  Proof.
    unfold div_cos_lat, clip_if. destruct c; [apply clip_zero|]; exact (proj1 (dlon_D2_00 (fst v) (snd v))).
  Qed.

  Theorem curl_cos_lat_00 c (v : vec2) : curl_cos_lat fast L R C r a b c v 0%nat 0%nat = 0.
  Proof.
    unfold curl_cos_lat, clip_if. destruct c; [apply clip_zero|]; exact (proj2 (dlon_D2_00 (snd v) (fst v))).
  Qed.

  Lemma laplacian_00 (x : arr2) i : laplacian L r x i 0%nat = 0.
  Proof. apply laplacian_padded; [now left|exact Hr]. Qed.

  (** the (0,0) coefficients of the vorticity and divergence tendencies are zero
      for ANY arguments (Stokes / Gauss in spectral form) *)
  Theorem pe_vort_tend_00 uv : pe_vort_tend fast L R C r a b uv 0%nat 0%nat = 0.
  Proof. unfold pe_vort_tend. apply clip_zero. rewrite curl_cos_lat_00. ring. Qed.
  Theorem pe_div_tend_00 g uv ke oro : pe_div_tend fast L R C r a b g uv ke oro 0%nat 0%nat = 0.
  Proof. unfold pe_div_tend. apply clip_zero. rewrite div_cos_lat_00, !laplacian_00. ring. Qed.
  Theorem sw_vort_tend_00 bv : sw_vort_tend fast L R C r a b bv 0%nat 0%nat = 0.
  Proof. unfold sw_vort_tend. apply clip_zero. rewrite div_cos_lat_00. ring. Qed.
  Theorem sw_div_tend_00 bv pe : sw_div_tend fast L R C r a b bv pe 0%nat 0%nat = 0.
  Proof. unfold sw_div_tend. apply clip_zero. rewrite curl_cos_lat_00, laplacian_00. ring. Qed.
  Theorem sw_pot_tend_00 gv : sw_pot_tend fast L R C r a b gv 0%nat 0%nat = 0.
  Proof. unfold sw_pot_tend. apply clip_zero. rewrite div_cos_lat_00. ring. Qed.

  (** shallow-water implicit part at l = 0 (eigenvalue 0) *)
  Lemma lap_eig_0 : lap_eig L r 0 = 0.
  Proof. rewrite lap_eig_val, laxis_lt by lia. cbn [lit]. field. exact Hr. Qed.
  Theorem sw_implicit_00 eta phi d p :
    sw_impl_div (lap_eig L r 0) p = 0 /\
    sw_inv_div eta phi (lap_eig L r 0) d p = d /\
    sw_inv_pot eta phi (lap_eig L r 0) d p = p - eta * phi * d /\
    sw_impl_pot phi d = - phi * d.
  Proof.
    rewrite lap_eig_0. unfold sw_impl_div, sw_inv_div, sw_inv_pot, sw_schur, sw_impl_pot.
    assert (H1 : (1 : F) <> 0) by (destruct (field_c (o := o)); auto).
    assert (E : 1 - eta * eta * phi * 0 = (1 : F)) by ring. rewrite E.
    repeat split; try ring; field; exact H1.
  Qed.
End Mean.

Section Thickness.
  Context {F : Type} {o : Ops F} {Fc : FieldC o}.
  Add Field FFh : (field_c : FieldTh o).
  Context {V : Type} {vo : VSp F V}.
  Context (Fx G : V -> V) (Ginv : F -> V -> V).
  (** D = (0,0) divergence, P = (0,0) potential of one layer, phiref its reference potential *)
  Variables (D P : V -> F) (phiref : F).
  Hypothesis D_zero : D vz = 0.
  Hypothesis D_add : forall x y, D (va x y) = D x + D y.
  Hypothesis D_scale : forall c x, D (vs c x) = c * D x.
  Hypothesis P_zero : P vz = 0.
  Hypothesis P_add : forall x y, P (va x y) = P x + P y.
  Hypothesis P_scale : forall c x, P (vs c x) = c * P x.
  Hypothesis D_F : forall x, D (Fx x) = 0.
  Hypothesis D_G : forall x, D (G x) = 0.
  Hypothesis D_Ginv : forall eta x, D (Ginv eta x) = D x.
  Hypothesis P_F : forall x, P (Fx x) = 0.
  Hypothesis P_G : forall x, P (G x) = - phiref * D x.
  Hypothesis P_Ginv : forall eta x, P (Ginv eta x) = P x - eta * phiref * D x.

  Theorem sw_mean_thickness_conserved (t : stepterm F) (c : F) (filters : list (V -> V -> V)) :
    consistent t c ->
    (forall f, In f filters -> forall u un, D (f u un) = D un /\ P (f u un) = P un) ->
    forall k u, D u = 0 ->
      P (iter k (with_filters (step_of Fx G Ginv t) filters) u) = P u /\
      D (iter k (with_filters (step_of Fx G Ginv t) filters) u) = 0.
  Proof.
    intros Hc Hf k u Hu.
    assert (HD : Observable Fx G Ginv (fun _ => True) D 0) by (split; auto).
    assert (HP : Observable Fx G Ginv (fun x => D x = 0) P 0).
    { split; auto.
      - intros x Hx. rewrite P_G, Hx. ring.
      - intros eta x Hx. rewrite P_Ginv, Hx. ring. }
    apply and_comm, (conserved_component Fx G Ginv _ (InvSub_ker Fx G Ginv D HD) P t c filters HP Hc); [|exact Hu].
    intros f Hin v vn _ Hvn. destruct (Hf f Hin v vn) as [E1 E2]. split; [now rewrite E1|exact E2].
  Qed.
End Thickness.

Section Tracer.
  Context {F : Type} {o : Ops F} {Fc : FieldC o}.
  Add Field FFu : (field_c : FieldTh o).

  (** vertical advection of a level-constant field is exactly zero: every K,
      every level set, every vertical velocity (default zero boundary values of
      the derivative) *)
  Theorem cva_constant K (b w : nat -> F) (c wt wb : F) n :
    centered_vertical_advection K b w (fun _ => c) wt wb 0 0 n = 0.
  Proof.
    unfold centered_vertical_advection.
    assert (Z : forall j, pad_tb K 0 0 (centered_difference b (fun _ => c)) j = 0).
    { intros j. unfold pad_tb, centered_difference.
      destruct (Nat.eqb j 0); [reflexivity|]. destruct (Nat.ltb j K); [ring|reflexivity]. }
    rewrite !Z. ring.
  Qed.

  (** horizontal part, one coefficient: tendency = to_modal(q*div + vertical) - H(u q, v q)
      with q = c constant, to_modal and H linear, under [H_uv_roundtrip]:
      H(u, v) = to_modal(div) (the velocity reconstructed from vorticity and
      divergence has the divergence it was built from) *)
  Theorem uniform_tracer_horizontal {N : Type} (scaleN : F -> N -> N) (addN : N -> N -> N)
          (to_modal : N -> F) (Hop : N -> N -> F) (c : F) (divn un vn vert : N) :
    (forall k x, to_modal (scaleN k x) = k * to_modal x) ->
    (forall x y, to_modal (addN x y) = to_modal x + to_modal y) ->
    (forall k x y, Hop (scaleN k x) (scaleN k y) = k * Hop x y) ->
    to_modal vert = 0 ->
    Hop un vn = to_modal divn ->
    to_modal (addN (scaleN c divn) vert) + - Hop (scaleN c un) (scaleN c vn) = 0.
  Proof. intros H1 H2 H3 Hv Hrt. rewrite H2, H1, H3, Hv, Hrt. ring. Qed.
End Tracer.

(** the shape rule of filtering._preserves_shape on scalar leaves *)
Section ScalarLeaf.
  Context {F : Type} {o : Ops F} {Fc : FieldC o}.

  Theorem filter_leaves_scalar (sc : Filters.arr) (t : F) :
    fst sc <> [] -> rescale sc (scalar_arr t) = scalar_arr t.
  Proof.
    intros Hs. apply rescale_false. cbn.
    destruct (preserves_shape [] (fst sc)) eqn:E; [|reflexivity].
    apply preserves_shape_spec in E. destruct E as (pre & suf & E1 & E2).
    symmetry in E1. apply app_eq_nil in E1. destruct E1 as [-> ->].
    inversion E2. congruence.
  Qed.
End ScalarLeaf.

(** consistency sums of the coefficient tables of Gen/Tableaux.v *)
Definition qcl (l : list Q) : list Qc := map Q2Qc l.
Definition qcll (l : list (list Q)) : list (list Qc) := map qcl l.

Lemma rk3_consistency : ls_consistency (qcl rk3_alphas) (qcl rk3_betas) (qcl rk3_gammas) = 1.
Proof. apply Qc_is_canon. vm_compute. reflexivity. Qed.

Lemma rk4_consistency :
  fle (fabs (ls_consistency (qcl rk4_alphas) (qcl rk4_betas) (qcl rk4_gammas) - 1))
      (Q2Qc (1 # 1000000000000)).
Proof. vm_compute. reflexivity. Qed.

Lemma sil3_consistency : imex_consistency (qcll sil3_a_ex) (qcll sil3_a_im) (qcl sil3_b_ex) = 1.
Proof. apply Qc_is_canon. vm_compute. reflexivity. Qed.

Lemma rk3_consistent (dt : Qc) : consistent (ls_step_term dt (qcl rk3_alphas) (qcl rk3_betas) (qcl rk3_gammas)) dt.
Proof. apply (consistent_unit _ _ _ rk3_consistency), ls_consistent. Qed.

Lemma sil3_term_defined (dt : Qc) :
  exists t, imex_term dt (qcll sil3_a_ex) (qcll sil3_a_im) (qcl sil3_b_ex) (qcl sil3_b_im) = Some t.
Proof.
  (* whether the term exists is decided by the zero tests on the tableau alone: [dt] stays a
     variable and lazy evaluation never builds the stage terms *)
  assert (H : (if imex_term dt (qcll sil3_a_ex) (qcll sil3_a_im) (qcl sil3_b_ex) (qcl sil3_b_im)
               then true else false) = true) by (lazy; reflexivity).
  destruct (imex_term _ _ _ _ _) as [t|]; [now exists t|discriminate H].
Qed.

(** the terms are the step functions of Model/Integrators.v *)
Section Bridge.
  Context {F : Type} {o : Ops F} {V : Type} {vo : VSp F V}.
  Context (Fx G : V -> V) (Ginv : F -> V -> V).
  Definition toVOps : Integrators.VOps F V :=
    {| Integrators.vzero := vz; Integrators.vadd := va; Integrators.vscal := vs |}.
  Let Gi := fun x eta => Ginv eta x.

  Lemma bridge_euler dt u :
    step_of Fx G Ginv (euler_term dt) u = Integrators.euler_step (vo := toVOps) Fx Gi dt u.
  Proof. reflexivity. Qed.

  Lemma bridge_cn_rk2 dt u :
    step_of Fx G Ginv (cn_rk2_term dt) u = Integrators.cn_rk2_step (vo := toVOps) Fx G Gi dt u.
  Proof. reflexivity. Qed.

  Lemma bridge_ls_loop dt al be ga h u env :
    eval Fx G Ginv (ls_term dt al be ga h u) env
    = Integrators.ls_loop (vo := toVOps) Fx G Gi dt al be ga (eval Fx G Ginv h env) (eval Fx G Ginv u env).
  Proof.
    revert al ga h u. induction be as [|b be IH]; intros al ga h u; [destruct al; reflexivity|].
    destruct ga as [|g ga]; [destruct al; reflexivity|].
    destruct al as [|a0 [|a1 al]]; [reflexivity|reflexivity|].
    cbn [ls_term Integrators.ls_loop]. rewrite IH. reflexivity.
  Qed.

  Lemma bridge_ls dt al be ga u :
    step_of Fx G Ginv (ls_step_term dt al be ga) u = Integrators.ls_step (vo := toVOps) Fx G Gi dt al be ga u.
  Proof. unfold step_of, ls_step_term, Integrators.ls_step. rewrite bridge_ls_loop. reflexivity. Qed.

  Lemma bridge_leapfrog dt alpha pc :
    lf_step_of Fx G Ginv (leapfrog_term dt alpha) pc
    = Integrators.leapfrog_step (vo := toVOps) Fx G Gi dt alpha pc.
  Proof. destruct pc as [p c]. reflexivity. Qed.

  (** imex_runge_kutta: the code fails (None) exactly when no term exists, and
      otherwise computes the value of the term *)
  Definition evo (u : V) (x : option (stepterm F)) : option V :=
    option_map (fun t => eval Fx G Ginv t (env1 u)) x.

  Lemma bridge_wsum u cs xs acc :
    option_map (fun t => eval Fx G Ginv t (env1 u)) (tsum_skip cs xs acc)
    = Integrators.wsum_skip (vo := toVOps) cs (map (evo u) xs) (eval Fx G Ginv acc (env1 u)).
  Proof.
    revert xs acc. induction cs as [|c cs IH]; intros xs acc; [reflexivity|].
    destruct xs as [|x xs]; [reflexivity|].
    cbn [tsum_skip Integrators.wsum_skip map].
    change (Integrators.nz c) with (tnz c).
    destruct (tnz c); [|apply IH].
    destruct x as [t|]; [|reflexivity]. cbn [evo option_map]. rewrite IH. reflexivity.
  Qed.

  Lemma bridge_wsum0 u cs xs :
    option_map (fun t => eval Fx G Ginv t (env1 u)) (tsum_skip cs xs TZero)
    = Integrators.wsum_skip (vo := toVOps) cs (map (evo u) xs) (Integrators.vzero (VOps := toVOps)).
  Proof. exact (bridge_wsum u cs xs TZero). Qed.

  Lemma bridge_stages u dt b_ex b_im i rex rim fs gs :
    option_map (fun p => (map (evo u) (fst p), map (evo u) (snd p)))
               (imex_stage_terms dt b_ex b_im i rex rim fs gs)
    = Integrators.imex_stages (vo := toVOps) Fx G Gi dt u b_ex b_im i rex rim (map (evo u) fs) (map (evo u) gs).
  Proof.
    revert i rim fs gs. induction rex as [|re rex IH]; intros i rim fs gs; [reflexivity|].
    destruct rim as [|ri rim]; [reflexivity|].
    cbn [imex_stage_terms Integrators.imex_stages].
    rewrite <- !(bridge_wsum0 u).
    destruct (tsum_skip re fs TZero) as [ex|]; [|reflexivity].
    destruct (tsum_skip ri gs TZero) as [im|]; [|reflexivity].
    cbn [option_map]. rewrite IH. rewrite !map_app. cbn [map].
    change (Integrators.needed i rex b_ex) with (tneeded i rex b_ex).
    change (Integrators.needed i rim b_im) with (tneeded i rim b_im).
    destruct (tneeded i rex b_ex), (tneeded i rim b_im); reflexivity.
  Qed.

  Theorem bridge_imex dt a_ex a_im b_ex b_im u :
    option_map (fun t => step_of Fx G Ginv t u) (imex_term dt a_ex a_im b_ex b_im)
    = Integrators.imex_step (vo := toVOps) Fx G Gi dt a_ex a_im b_ex b_im u.
  Proof.
    unfold imex_term, Integrators.imex_step.
    pose proof (bridge_stages u dt b_ex b_im 1 a_ex a_im [Some (TF U)] [Some (TG U)]) as H.
    cbn [map evo option_map] in H. change (eval Fx G Ginv (TF U) (env1 u)) with (Fx u) in H.
    change (eval Fx G Ginv (TG U) (env1 u)) with (G u) in H. rewrite <- H.
    destruct (imex_stage_terms dt b_ex b_im 1 a_ex a_im [Some (TF U)] [Some (TG U)]) as [[fs gs]|]; [|reflexivity].
    cbn [option_map fst snd]. rewrite <- !(bridge_wsum0 u).
    destruct (tsum_skip b_ex fs TZero) as [ex|]; [|reflexivity].
    destruct (tsum_skip b_im gs TZero) as [im|]; reflexivity.
  Qed.
End Bridge.

(** maybe_fix_sim_time_roundoff as the last filter: the clock stays on the dt lattice *)
Section FixTimeThm.
  Context {F : Type} {o : Ops F} {Oc : OrdFieldC o}.
  Add Field FFx : (field_c : FieldTh o).
  Hypothesis ZM : ZMorph o.

  (** rounding to the nearest integer (any tie rule) *)
  Definition nearest (rnd : F -> Z) : Prop :=
    forall x n, flt (fofZ n - ihalf) x -> flt x (fofZ n + ihalf) -> rnd x = n.

  Variables (rnd : F -> Z) (dt cs : F).
  Hypothesis Hrnd : nearest rnd.
  Hypothesis Hdt : dt <> 0.
  (** the scheme advances the clock by dt * cs with |cs - 1| < 1/2 (cs = 1 up to 1e-12) *)
  Hypothesis Hlo : flt (1 - ihalf) cs.
  Hypothesis Hhi : flt cs (1 + ihalf).

  Lemma fix_time_snaps (n : Z) : fix_time rnd dt (dt * fofZ n + dt * cs) = dt * fofZ (n + 1)%Z.
  Proof.
    unfold fix_time. f_equal. f_equal.
    replace ((dt * fofZ n + dt * cs) / dt) with (cs + fofZ n) by (field; exact Hdt).
    apply Hrnd; rewrite (zm_add _ ZM), (zm1 _ ZM).
    - replace (fofZ n + 1 - ihalf) with (1 - ihalf + fofZ n) by ring. now apply flt_add.
    - replace (fofZ n + 1 + ihalf) with (1 + ihalf + fofZ n) by ring. now apply flt_add.
  Qed.

  (** whole trajectories: any term of weight dt*cs, any array filters, then the
      clean-up; from n0*dt (n0 an integer of either sign) the time after k steps is
      (n0 + k)*dt exactly, for every k *)
  Theorem fix_time_trajectory {V : Type} {vo : VSp F V} (Fx G : V -> V) (Ginv : F -> V -> V)
          (t : stepterm F) (fs : list (V -> V)) (n0 : Z) k (u : V * F) :
    consistent t (dt * cs) -> snd u = dt * fofZ n0 ->
    snd (iter k (with_filters (step_of (vo := TimedSp vo) (timed_F 1 Fx) (timed_G G) (timed_Ginv Ginv) t)
                              (map (fun f => rk_filter (timed_filter f)) fs
                                   ++ [rk_filter (fix_time_filter rnd dt)])) u)
    = dt * fofZ (n0 + Z.of_nat k)%Z.
  Proof.
    intros Hc Hu. apply (iter_ind (fun j v => snd v = dt * fofZ (n0 + Z.of_nat j)%Z)).
    - intros j v Hv. unfold with_filters. rewrite fold_left_app. cbn [fold_left rk_filter fix_time_filter snd].
      pose proof (sim_time_unit Fx G Ginv 1 t (dt * cs) fs 1 v eq_refl Hc) as H1.
      cbn [iter] in H1. unfold with_filters in H1. rewrite H1, Hv.
      replace (lit 1 * (dt * cs)) with (dt * cs) by (cbn [lit]; ring).
      rewrite fix_time_snaps. f_equal. f_equal. lia.
    - rewrite Hu. f_equal. f_equal. lia.
  Qed.
End FixTimeThm.

(** the exact model of jnp.round (round half to even) rounds to the nearest integer *)
From Coq Require Import Lqa.
Lemma zq_le a b : (inject_Z a < inject_Z b + 1)%Q -> (a <= b)%Z.
Proof.
  intros H. change 1%Q with (inject_Z 1) in H. rewrite <- inject_Z_plus, <- Zlt_Qlt in H. lia.
Qed.

Lemma rhe_nearest (x : Q) (n : Z) :
  (inject_Z n - (1 # 2) < x)%Q -> (x < inject_Z n + (1 # 2))%Q -> rhe x = n.
Proof.
  intros H1 H2. unfold rhe.
  pose proof (Qround.Qfloor_le x) as A. pose proof (Qround.Qlt_floor x) as B.
  set (f := Qround.Qfloor x) in *. rewrite inject_Z_plus in B. change (inject_Z 1) with 1%Q in B.
  destruct (Qcompare_spec (x - inject_Z f) (1 # 2)) as [E|E|E].
  - exfalso.
    assert (C1 : (inject_Z n < inject_Z f + 1)%Q) by lra.
    assert (C2 : (inject_Z f < inject_Z n)%Q) by lra.
    apply zq_le in C1. rewrite <- Zlt_Qlt in C2. lia.
  - assert (C1 : (inject_Z n < inject_Z f + 1)%Q) by lra.
    assert (C2 : (inject_Z f < inject_Z n + 1)%Q) by lra.
    apply zq_le in C1. apply zq_le in C2. lia.
  - assert (C1 : (inject_Z f < inject_Z n)%Q) by lra.
    assert (C2 : (inject_Z n < inject_Z (f + 1) + 1)%Q) by (rewrite inject_Z_plus; change (inject_Z 1) with 1%Q; lra).
    rewrite <- Zlt_Qlt in C1. apply zq_le in C2. lia.
Qed.

Lemma Qc_neq0 (x : Qc) : Qeq_bool x 0 = false -> x <> 0.
Proof. intros E H. rewrite H in E. discriminate E. Qed.

Lemma this_Q2Qc (q : Q) : this (Q2Qc q) == q.
Proof. apply Qred_correct. Qed.

Lemma QcZMorph : ZMorph QcOps.
Proof.
  split; intros; try reflexivity; apply Qc_is_canon; cbn [fofZ fadd fmul fopp QcOps];
    unfold Qcplus, Qcmult, Qcopp; rewrite !this_Q2Qc.
  - now rewrite inject_Z_plus.
  - now rewrite inject_Z_mult.
  - now rewrite inject_Z_opp.
Qed.

Lemma rnd_qc_nearest : nearest (fun x : Qc => rhe (this x)).
Proof.
  assert (Eh : this (@ihalf Qc QcOps) == 1 # 2) by reflexivity.
  intros x n H1 H2. unfold flt in H1, H2. cbn [fleb fsub fadd fofZ QcOps] in H1, H2.
  unfold Qcminus, Qcplus, Qcopp in H1, H2.
  apply rhe_nearest; apply Qnot_le_lt; intro L; apply Qle_bool_iff in L.
  - unfold Qminus in L. rewrite !this_Q2Qc, Eh in H1. congruence.
  - rewrite !this_Q2Qc, Eh in H2. congruence.
Qed.
