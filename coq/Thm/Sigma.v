(** Theorems about the sigma-coordinate model (property C13), for every
    field, every layer count K and every boundary list. *)
From Dino Require Import Base.Ops Base.Sums Base.Ord Model.Sigma.
Local Open Scope F_scope.

(** Both cumulative sums in matrix form read the K levels only; no field law is needed for that. *)
Section CumsumExt.
  Context {F : Type} {o : Ops F}.

  Lemma cumsum_dot_ext K (x y : nat -> F) j :
    (forall k, (k < K)%nat -> x k = y k) -> cumsum_dot K x j = cumsum_dot K y j.
  Proof. intros H. unfold cumsum_dot. apply sumn_ext. intros i Hi. now rewrite H. Qed.
  Lemma revcumsum_dot_ext K (x y : nat -> F) j :
    (forall k, (k < K)%nat -> x k = y k) -> revcumsum_dot K x j = revcumsum_dot K y j.
  Proof. intros H. unfold revcumsum_dot. apply sumn_ext. intros i Hi. now rewrite H. Qed.
End CumsumExt.

(** An operator on level profiles is linear and reads the K levels only: it takes a linear relation between three
    profiles on the levels to the same relation between the results; sums and multiples are instances. *)
Section ColumnLinear.
  Context {F : Type} {o : Ops F} {Fc : FieldC o}.
  Add Field FFcl : (field_c : FieldTh o).

  Definition column_linear (K : nat) (T : (nat -> F) -> nat -> F) : Prop :=
    forall (z x y : nat -> F) a b j,
      (forall k, (k < K)%nat -> z k = a * x k + b * y k) -> T z j = a * T x j + b * T y j.

  Lemma clin_add K T (HT : column_linear K T) (x y : nat -> F) j : T (fun k => x k + y k) j = T x j + T y j.
  Proof. rewrite (HT _ x y 1 1) by (intros; ring). ring. Qed.
  Lemma clin_scal K T (HT : column_linear K T) a (x x' : nat -> F) j :
    (forall k, (k < K)%nat -> x' k = a * x k) -> T x' j = a * T x j.
  Proof. intros H. rewrite (HT x' x x a 0) by (intros k Hk; rewrite (H k Hk); ring). ring. Qed.
  Lemma clin_zero K T (HT : column_linear K T) (x : nat -> F) j : (forall k, (k < K)%nat -> x k = 0) -> T x j = 0.
  Proof. intros H. rewrite (HT x x x 0 0) by (intros k Hk; rewrite (H k Hk); ring). ring. Qed.

  (** a sum over the K levels with weights that depend on the output level: both cumulative sums in their
      matrix form have this shape *)
  Lemma wsum_linear K (w : nat -> nat -> F) : column_linear K (fun x j => sumn K (fun i => w j i * x i)).
  Proof.
    intros z x y a b j H. cbv beta. rewrite <- !sumn_scal_l, <- sumn_add.
    apply sumn_ext. intros i Hi. rewrite (H i Hi). ring.
  Qed.
  Lemma cumsum_dot_linear K : column_linear K (cumsum_dot K).
  Proof. exact (wsum_linear K (fun j i => ind (Nat.leb i j))). Qed.
  Lemma revcumsum_dot_linear K : column_linear K (revcumsum_dot K).
  Proof. exact (wsum_linear K (fun j i => ind (Nat.leb j i))). Qed.
End ColumnLinear.

Section SigmaThm.
  Context {F : Type} {o : Ops F} {Fc : FieldC o}.
  Add Field FFs : (field_c : FieldTh o).
  Hypothesis two_nz : two <> 0.

  Lemma ind_true : ind true = 1. Proof. reflexivity. Qed.
  Lemma ind_false : ind false = 0. Proof. reflexivity. Qed.

  Lemma cumsum_dot_seq K (x : nat -> F) j : (j < K)%nat -> cumsum_dot K x j = cumsum_seq x j.
  Proof.
    intros Hj. unfold cumsum_dot, cumsum_seq.
    rewrite <- (sumn_prefix_mask K (S j) x) by lia.
    apply sumn_ext. intros i Hi.
    destruct (Nat.leb_spec i j), (Nat.ltb_spec i (S j)); try lia; cbn; ring.
  Qed.

  Lemma revcumsum_dot_step K (y : nat -> F) j :
    (j < K)%nat -> revcumsum_dot K y j = y j + revcumsum_dot K y (S j).
  Proof.
    intros Hj. unfold revcumsum_dot.
    rewrite <- (sumn_delta_l K j y Hj) at 1. rewrite <- sumn_add.
    apply sumn_ext. intros i Hi. unfold delta.
    destruct (Nat.leb_spec j i), (Nat.eqb_spec j i), (Nat.leb_spec (S j) i); try lia; cbn; ring.
  Qed.

  Lemma revcumsum_dot_out K (y : nat -> F) j : (K <= j)%nat -> revcumsum_dot K y j = 0.
  Proof.
    intros Hj. unfold revcumsum_dot. apply sumn_zero. intros i Hi.
    destruct (Nat.leb_spec j i); try lia. cbn. ring.
  Qed.

  Lemma revcumsum_seq_step K (y : nat -> F) j :
    (S j < K)%nat -> revcumsum_seq K y j = y j + revcumsum_seq K y (S j).
  Proof.
    intros Hj. unfold revcumsum_seq.
    replace (K - 1 - j)%nat with (S (K - 1 - S j)) by lia.
    cbn [sumn]. replace (K - 1 - S (K - 1 - S j))%nat with j by lia. ring.
  Qed.

  Lemma revcumsum_dot_unique K (y f : nat -> F) :
    (forall j, (S j < K)%nat -> f j = y j + f (S j)) -> f (K - 1)%nat = y (K - 1)%nat ->
    forall j, (j < K)%nat -> f j = revcumsum_dot K y j.
  Proof.
    intros Hs Hl j Hj. remember (K - 1 - j)%nat as d eqn:Hd. revert j Hj Hd.
    induction d as [|d IH]; intros j Hj Hd; rewrite revcumsum_dot_step by lia.
    - replace j with (K - 1)%nat by lia. rewrite revcumsum_dot_out, Hl by lia. ring.
    - now rewrite Hs, (IH (S j)) by lia.
  Qed.

  Lemma revcumsum_dot_seq K (y : nat -> F) j : (j < K)%nat -> revcumsum_dot K y j = revcumsum_seq K y j.
  Proof.
    intros Hj. symmetry. apply revcumsum_dot_unique; [intros i Hi; now apply revcumsum_seq_step| |exact Hj].
    unfold revcumsum_seq. replace (K - 1 - (K - 1))%nat with 0%nat by lia. cbn.
    replace (K - 1 - 0)%nat with (K - 1)%nat by lia. ring.
  Qed.

  Lemma cumsum_m_dot d K (x : nat -> F) j : (j < K)%nat -> cumsum_m d K x j = cumsum_dot K x j.
  Proof. intros Hj. destruct d; [reflexivity|]. symmetry. now apply cumsum_dot_seq. Qed.
  Lemma revcumsum_m_dot d K (x : nat -> F) j : (j < K)%nat -> revcumsum_m d K x j = revcumsum_dot K x j.
  Proof. intros Hj. destruct d; [reflexivity|]. symmetry. now apply revcumsum_dot_seq. Qed.

  Lemma cumsum_m_ext d K (x y : nat -> F) j :
    (forall k, (k < K)%nat -> x k = y k) -> (j < K)%nat -> cumsum_m d K x j = cumsum_m d K y j.
  Proof. intros H Hj. rewrite !(cumsum_m_dot d) by exact Hj. now apply cumsum_dot_ext. Qed.
  Lemma revcumsum_m_ext d K (x y : nat -> F) j :
    (forall k, (k < K)%nat -> x k = y k) -> (j < K)%nat -> revcumsum_m d K x j = revcumsum_m d K y j.
  Proof. intros H Hj. rewrite !(revcumsum_m_dot d) by exact Hj. now apply revcumsum_dot_ext. Qed.

  Theorem cumsum_methods_agree K (x : nat -> F) j (d1 d2 : bool) :
    (j < K)%nat ->
    cumsum_m d1 K x j = cumsum_m d2 K x j /\ revcumsum_m d1 K x j = revcumsum_m d2 K x j.
  Proof. intros Hj. now rewrite !cumsum_m_dot, !revcumsum_m_dot. Qed.

  Lemma cumsum_seq_last K (y : nat -> F) : (0 < K)%nat -> cumsum_seq y (K - 1) = sumn K y.
  Proof. intros HK. unfold cumsum_seq. now replace (S (K - 1)) with K by lia. Qed.

  Lemma revcumsum_dot_first K (y : nat -> F) : revcumsum_dot K y 0 = sumn K y.
  Proof. unfold revcumsum_dot. apply sumn_ext. intros i Hi. cbn. ring. Qed.

  Lemma down_plus_up_dot K (y : nat -> F) j :
    (j < K)%nat -> cumsum_dot K y j + revcumsum_dot K y j = sumn K y + y j.
  Proof.
    intros Hj. unfold cumsum_dot, revcumsum_dot.
    rewrite <- sumn_add, <- (sumn_delta_l K j y Hj), <- sumn_add.
    apply sumn_ext. intros i Hi. unfold delta.
    destruct (Nat.leb_spec i j), (Nat.leb_spec j i), (Nat.eqb_spec j i); try lia; cbn; ring.
  Qed.

  Theorem cumint_last_is_total (dot : bool) K (b x : nat -> F) :
    (0 < K)%nat ->
    cum_sigma_integral dot true K b x (K - 1) = sigma_integral K b x /\
    cum_sigma_integral dot false K b x 0 = sigma_integral K b x.
  Proof.
    intros HK. unfold cum_sigma_integral, sigma_integral. split.
    - rewrite cumsum_m_dot, cumsum_dot_seq by lia. now apply cumsum_seq_last.
    - rewrite revcumsum_m_dot by lia. apply revcumsum_dot_first.
  Qed.

  Theorem down_plus_up (d1 d2 : bool) K (b x : nat -> F) j :
    (j < K)%nat ->
    cum_sigma_integral d1 true K b x j + cum_sigma_integral d2 false K b x j
    = sigma_integral K b x + x j * thickness b j.
  Proof.
    intros Hj. unfold cum_sigma_integral, sigma_integral.
    rewrite cumsum_m_dot, revcumsum_m_dot by exact Hj. now apply down_plus_up_dot.
  Qed.

  Theorem centered_difference_affine (b x : nat -> F) (a c : F) k :
    c2c b k <> 0 ->
    x k = a * centers b k + c -> x (S k) = a * centers b (S k) + c ->
    centered_difference b x k = a.
  Proof.
    intros Hc H0 H1. unfold centered_difference. rewrite H0, H1.
    unfold c2c in *. field. exact Hc.
  Qed.

  Lemma c2c_thickness (b : nat -> F) k : thickness b k + thickness b (S k) = two * c2c b k.
  Proof. unfold thickness, c2c, centers. field. exact two_nz. Qed.

  (** shifting a sequence that vanishes at both ends onto the other factor; [s] = 1 for sums of
      neighbours, -1 for differences *)
  Lemma sum_shift s m (a g : nat -> F) :
    g 0%nat = 0 -> g (S m) = 0 ->
    sumn (S m) (fun n => a n * (g (S n) + s * g n)) = sumn m (fun n => (a n + s * a (S n)) * g (S n)).
  Proof.
    intros G0 GK.
    rewrite (sumn_ext (S m) _ (fun n => a n * g (S n) + s * (a n * g n))) by (intros; ring).
    rewrite sumn_add, sumn_scal_l, (sumn_S_first m (fun n => a n * g n)), G0.
    cbn [sumn]. rewrite GK.
    rewrite (sumn_ext m (fun n => (a n + s * a (S n)) * g (S n)) (fun n => a n * g (S n) + s * (a (S n) * g (S n)))) by (intros; ring).
    rewrite sumn_add, sumn_scal_l. ring.
  Qed.

  Lemma pad_tb_0 K t bt (v : nat -> F) : pad_tb K t bt v 0 = t.
  Proof. reflexivity. Qed.
  Lemma pad_tb_K K t bt (v : nat -> F) : (0 < K)%nat -> pad_tb K t bt v K = bt.
  Proof. intros. unfold pad_tb. destruct (Nat.eqb_spec K 0); [lia|]. destruct (Nat.ltb_spec K K); [lia|reflexivity]. Qed.
  Lemma pad_tb_mid K t bt (v : nat -> F) n : (S n < K)%nat -> pad_tb K t bt v (S n) = v n.
  Proof.
    intros. unfold pad_tb. cbn [Nat.eqb]. destruct (Nat.ltb_spec (S n) K); [|lia].
    f_equal. lia.
  Qed.

  Theorem advection_sbp K (b w x : nat -> F) (dt db : F) :
    (0 < K)%nat ->
    (forall k, (S k < K)%nat -> c2c b k <> 0) ->
    sumn K (fun n => thickness b n * centered_vertical_advection K b w x 0 0 dt db n)
    = sumn K (fun n => x n * (pad_tb K 0 0 w (S n) - pad_tb K 0 0 w n)).
  Proof.
    intros HK Hc. destruct K as [|m]; [lia|].
    unfold centered_vertical_advection.
    set (wp := pad_tb (S m) 0 0 w).
    set (dp := pad_tb (S m) dt db (centered_difference b x)).
    assert (W0 : wp 0%nat = 0) by apply pad_tb_0.
    assert (WK : wp (S m) = 0) by (apply pad_tb_K; lia).
    rewrite (sumn_ext (S m) _ (fun n => (- half) * (thickness b n * (wp (S n) * dp (S n) + 1 * (wp n * dp n))))) by (intros; ring).
    rewrite sumn_scal_l, (sum_shift 1 m (thickness b) (fun k => wp k * dp k)) by (rewrite ?W0, ?WK; ring).
    rewrite (sumn_ext (S m) _ (fun n => x n * (wp (S n) + - (1) * wp n))) by (intros; ring).
    rewrite (sum_shift (- (1)) m x wp W0 WK), <- sumn_scal_l.
    apply sumn_ext. intros n Hn. unfold wp, dp. rewrite !pad_tb_mid by lia.
    replace (thickness b n + 1 * thickness b (S n)) with (two * c2c b n) by (rewrite <- c2c_thickness; ring).
    unfold centered_difference, half. field. split; [apply Hc; lia|exact two_nz].
  Qed.

  Lemma geo_dense_step K R (ls T : nat -> F) j :
    (S j < K)%nat ->
    geo_diff_dense K R ls T j
    = R * (alpha K ls j * (T j + T (S j))) + geo_diff_dense K R ls T (S j).
  Proof.
    intros Hj. unfold geo_diff_dense.
    assert (E : forall k, (k < K)%nat ->
              geo_weights K R ls j k * T k
              = R * alpha K ls j * (delta j k * T k) + R * alpha K ls j * (delta (S j) k * T k)
                + geo_weights K R ls (S j) k * T k).
    { intros k Hk. unfold geo_weights, delta.
      destruct (Nat.eqb_spec j k), (Nat.eqb_spec (S j) k), (Nat.ltb_spec j k), (Nat.ltb_spec (S j) k); try lia; subst.
      - ring.
      - replace (S j - 1)%nat with j by lia. ring.
      - ring.
      - ring. }
    rewrite (sumn_ext K _ _ E).
    rewrite !sumn_add, !sumn_scal_l, !sumn_delta_l by lia. ring.
  Qed.

  Lemma geo_dense_last K R (ls T : nat -> F) :
    (0 < K)%nat -> geo_diff_dense K R ls T (K - 1) = R * (alpha K ls (K - 1) * T (K - 1)%nat).
  Proof.
    intros HK. unfold geo_diff_dense.
    rewrite (sumn_ext K _ (fun k => R * alpha K ls (K - 1) * (delta (K - 1) k * T k))).
    - rewrite sumn_scal_l, sumn_delta_l by lia. ring.
    - intros k Hk. unfold geo_weights, delta.
      destruct (Nat.eqb_spec (K - 1) k), (Nat.ltb_spec (K - 1) k); try lia; ring.
  Qed.

  Definition log_xd K (ls T : nat -> F) (k : nat) : F := log_integrand K T k * dlog K ls k.

  Lemma log_xd_mid K ls T k : (S k < K)%nat -> log_xd K ls T k = alpha K ls k * (T k + T (S k)).
  Proof.
    intros H. unfold log_xd, log_integrand, dlog, alpha.
    destruct (Nat.ltb_spec (S k) K); [|lia]. field. exact two_nz.
  Qed.
  Lemma log_xd_last K ls T : (0 < K)%nat -> log_xd K ls T (K - 1) = alpha K ls (K - 1) * T (K - 1)%nat.
  Proof.
    intros H. unfold log_xd, log_integrand, dlog, alpha.
    destruct (Nat.ltb_spec (S (K - 1)) K); [lia|]. ring.
  Qed.

  (** the geopotential operator is R times the trapezoid rule in log sigma *)
  Theorem geopotential_is_trapezoid (dot : bool) K R (ls T : nat -> F) j :
    (j < K)%nat ->
    geo_diff_dense K R ls T j = R * cum_log_sigma_integral dot false K ls T j.
  Proof.
    intros Hj. unfold cum_log_sigma_integral. fold (log_xd K ls T). rewrite revcumsum_m_dot by exact Hj.
    rewrite (revcumsum_dot_unique K (fun k => R * log_xd K ls T k) (geo_diff_dense K R ls T)); [| | |exact Hj].
    - unfold revcumsum_dot. rewrite <- sumn_scal_l. apply sumn_ext. intros; ring.
    - intros i Hi. rewrite geo_dense_step, log_xd_mid by lia. ring.
    - rewrite geo_dense_last, log_xd_last by lia. ring.
  Qed.

  (** the cumulative-sum ("sparse") form of the geopotential operator *)
  Theorem geo_sparse_eq_dense K R (ls T : nat -> F) j :
    (j < K)%nat -> geo_diff_sparse K R ls T j = geo_diff_dense K R ls T j.
  Proof.
    intros Hj. unfold geo_diff_sparse, geo_diff_dense, revcumsum_dot.
    rewrite <- (sumn_delta_l K j (fun j => (R * alpha K ls j - (if Nat.eqb j 0 then 0 else R * alpha K ls j + R * alpha K ls (j - 1)%nat)) * T j) Hj).
    rewrite <- sumn_add.
    apply sumn_ext. intros k Hk. unfold geo_weights, delta.
    destruct (Nat.leb_spec j k), (Nat.eqb_spec j k), (Nat.ltb_spec j k), (Nat.eqb_spec k 0); try lia; subst; cbn; ring.
  Qed.

  (** rejection of bad level sets: the order part is stated over the boolean tests *)
  Lemma all_increasing_spec n (b : nat -> F) :
    all_increasing n b = true <-> forall k, (k < n)%nat -> fltb (b k) (b (S k)) = true.
  Proof.
    induction n as [|n IH]; cbn.
    - split; [intros _ k Hk; lia | auto].
    - rewrite andb_true_iff, IH. split.
      + intros [H1 H2] k Hk. destruct (Nat.eq_dec k n) as [->|]; [exact H2|apply H1; lia].
      + intros H. split; [intros k Hk; apply H; lia | apply H; lia].
  Qed.

  Theorem rejects_bad_levels tol0 tol1 K (b : nat -> F) :
    sigma_accepts tol0 tol1 K b = true <->
    (fleb (fabs (b 0%nat)) tol0 = true /\ fleb (fabs (b K - 1)) tol1 = true /\
     forall k, (k < K)%nat -> fleb (b (S k)) (b k) = false).
  Proof.
    unfold sigma_accepts. rewrite !andb_true_iff, all_increasing_spec.
    unfold fltb. split; [intros [[H1 H2] H3]|intros (H1 & H2 & H3)];
      repeat split; auto; intros k Hk; apply negb_true_iff; auto.
  Qed.
End SigmaThm.
