(** Theorems about the conservative-regridding model (property C16), for every
    ordered field, every number of source/target cells and every sorted
    boundary list: normalised rows; conservation from the row and column sums
    of the overlap matrix (vertical, latitude through monotone sin tables,
    tensor product); NaN bookkeeping.  Over the reals: the real sin, and the
    partition identity of the periodic longitude overlap. *)
From Dino Require Import Base.Ops Base.Field Base.Sums Base.Ord Model.Regrid.
Local Open Scope F_scope.

Section Order.
  Context {F : Type} {o : Ops F} {Oc : OrdFieldC o}.
  Add Field FFr0 : (field_c : FieldTh o).

  Lemma fle_0_two : fle (0:F) two.
  Proof. apply flt_le, flt_0_2. Qed.
  Lemma two_nz : two <> (0:F).
  Proof. apply fpos_neq0, flt_0_2. Qed.
  Lemma fle_mul_r c x y : fle 0 c -> fle x y -> fle (x * c) (y * c).
  Proof. intros Hc H. replace (x * c) with (c * x) by ring. replace (y * c) with (c * y) by ring. now apply fle_mul_l. Qed.

  Lemma sumn_zero_terms n (f : nat -> F) k :
    (forall i, (i < n)%nat -> fle 0 (f i)) -> sumn n f = 0 -> (k < n)%nat -> f k = 0.
  Proof.
    intros H E Hk. apply fle_antisym; [|apply H; exact Hk].
    rewrite <- E. now apply sumn_ge_term.
  Qed.

  (** min of x 0 .. x n *)
  Fixpoint fminn (n : nat) (x : nat -> F) : F :=
    match n with O => x 0%nat | S k => fmin (fminn k x) (x (S k)) end.
  Lemma fminn_le n x j : (j <= n)%nat -> fle (fminn n x) (x j).
  Proof.
    induction n as [|n IH]; intros Hj; cbn [fminn].
    - replace j with 0%nat by lia. apply fle_refl.
    - destruct (Nat.eq_dec j (S n)) as [->|Hne]; [apply fmin_le_r|].
      eapply fle_trans; [apply fmin_le_l|apply IH; lia].
  Qed.

  Definition clip (lo hi x : F) : F := fmin hi (fmax lo x).

  Lemma clip_hi lo hi z : fle lo hi -> fle hi z -> clip lo hi z = hi.
  Proof.
    intros H1 H2. unfold clip. rewrite (fmax_r lo z) by (eapply fle_trans; eauto). now apply fmin_l.
  Qed.
  Lemma clip_lo lo hi z : fle lo hi -> fle z lo -> clip lo hi z = lo.
  Proof. intros H1 H2. unfold clip. rewrite (fmax_l lo z H2). now apply fmin_r. Qed.

  Lemma ov_nonneg a b c d : fle 0 (ov a b c d).
  Proof. unfold ov. apply fmax_ge_r. Qed.

  Lemma ov_sym a b c d : ov a b c d = ov c d a b.
  Proof. unfold ov. now rewrite (fmin_comm b d), (fmax_comm a c). Qed.

  Lemma ov_shift a b c d t : ov (a + t) (b + t) (c + t) (d + t) = ov a b c d.
  Proof. unfold ov. rewrite fmin_add, fmax_add. f_equal. ring. Qed.

  Lemma ov_eq0_iff a b c d : ov a b c d = 0 <-> fle (fmin b d) (fmax a c).
  Proof.
    unfold ov. set (u := fmin b d). set (l := fmax a c). split.
    - intros E. destruct (fle_or_lt u l) as [H|H]; [exact H|exfalso].
      rewrite fmax_l in E by (apply fle_sub_1; now apply flt_le).
      apply (fpos_neq0 (u - l)); [now apply flt_sub_pos|exact E].
    - intros H. apply fmax_r. now apply fle_sub_nonpos.
  Qed.

  Lemma ov_pos_iff a b c d : flt 0 (ov a b c d) <-> flt (fmax a c) (fmin b d).
  Proof.
    split; intros H.
    - apply flt_iff. intro H2. apply ov_eq0_iff in H2. rewrite H2 in H. now apply (flt_irrefl 0).
    - apply fle_nz_pos; [apply ov_nonneg|]. intro E. apply ov_eq0_iff in E.
      apply flt_iff in H. now apply H.
  Qed.

  Lemma ov_point a b z : ov a b z z = 0.
  Proof. apply ov_eq0_iff. eapply fle_trans; [apply fmin_le_r|apply fmax_ge_r]. Qed.

  (** length of [lo,hi] /\ [c,d] as a difference of clipped end points: if
      [c,d] lies to one side both end points are clipped to the same end,
      otherwise clipping gives the end points of the intersection *)
  Lemma ov_clip lo hi c d :
    fle lo hi -> fle c d -> ov lo hi c d = clip lo hi d - clip lo hi c.
  Proof.
    intros Hlh Hcd.
    destruct (fle_total d lo) as [Hd|Hd]; [|destruct (fle_total hi c) as [Hc|Hc]].
    - rewrite (clip_lo lo hi d), (clip_lo lo hi c) by eauto using fle_trans.
      replace (lo - lo) with 0 by ring. apply ov_eq0_iff.
      eapply fle_trans; [apply fmin_le_r|]. eapply fle_trans; [exact Hd|apply fmax_ge_l].
    - rewrite (clip_hi lo hi d), (clip_hi lo hi c) by eauto using fle_trans.
      replace (hi - hi) with 0 by ring. apply ov_eq0_iff.
      eapply fle_trans; [apply fmin_le_l|]. eapply fle_trans; [exact Hc|apply fmax_ge_r].
    - assert (M : fle (fmax lo c) (fmin hi d))
        by (apply fmin_glb; apply fmax_lub; eauto using fle_trans).
      unfold ov, clip. rewrite (fmax_r lo d Hd), (fmin_r hi (fmax lo c)) by (now apply fmax_lub).
      apply fmax_l. now apply fle_sub_1.
  Qed.

  Lemma ov_inside lo hi c d : fle c lo -> fle lo hi -> fle hi d -> ov lo hi c d = hi - lo.
  Proof.
    intros H1 H2 H3. unfold ov. rewrite (fmin_l hi d H3), (fmax_l lo c H1).
    apply fmax_l. now apply fle_sub_1.
  Qed.

  Theorem partition_overlap (s : nat -> F) m lo hi :
    (forall j, (j < m)%nat -> fle (s j) (s (S j))) -> fle lo hi ->
    sumn m (fun j => ov lo hi (s j) (s (S j))) = ov lo hi (s 0%nat) (s m).
  Proof.
    intros Hs Hlh.
    rewrite (sumn_ext m _ (fun j => clip lo hi (s (S j)) - clip lo hi (s j))).
    2:{ intros j Hj. apply ov_clip; [exact Hlh|now apply Hs]. }
    rewrite (sumn_telescope m (fun j => clip lo hi (s j))).
    symmetry. apply ov_clip; [exact Hlh|]. apply (chain_le s m Hs); lia.
  Qed.

  Corollary partition_overlap_sym (s : nat -> F) m lo hi :
    (forall j, (j < m)%nat -> fle (s j) (s (S j))) -> fle lo hi ->
    sumn m (fun j => ov (s j) (s (S j)) lo hi) = ov lo hi (s 0%nat) (s m).
  Proof.
    intros Hs Hlh. rewrite <- (partition_overlap s m lo hi Hs Hlh). apply sumn_ext. intros j _. apply ov_sym.
  Qed.

  Corollary partition_overlap_inside (s : nat -> F) m lo hi :
    (forall j, (j < m)%nat -> fle (s j) (s (S j))) ->
    fle (s 0%nat) lo -> fle lo hi -> fle hi (s m) ->
    sumn m (fun j => ov lo hi (s j) (s (S j))) = hi - lo.
  Proof. intros Hs H1 H2 H3. rewrite partition_overlap by assumption. now apply ov_inside. Qed.
End Order.

Section Weights.
  Context {F : Type} {o : Ops F} {Oc : OrdFieldC o}.
  Add Field FFr1 : (field_c : FieldTh o).

  Variable m : nat.
  Variable w : nat -> nat -> F.
  Variable i : nat.
  Hypothesis w_nonneg : forall j, (j < m)%nat -> fle 0 (w i j).
  Hypothesis tot_nz : row_total m w i <> 0.

  Lemma row_total_pos : flt 0 (row_total m w i).
  Proof.
    apply fle_nz_pos; [apply sumn_nonneg; exact w_nonneg|exact tot_nz].
  Qed.

  Theorem weights_nonneg j : (j < m)%nat -> fle 0 (normalize_rows m w i j).
  Proof. intros Hj. unfold normalize_rows. apply fdiv_pos; [now apply w_nonneg|apply row_total_pos]. Qed.

  Theorem rows_sum_to_one : sumn m (normalize_rows m w i) = 1.
  Proof.
    unfold normalize_rows.
    rewrite (sumn_ext m _ (fun j => (1 / row_total m w i) * w i j)).
    2:{ intros j _. cbv beta. field. exact tot_nz. }
    rewrite sumn_scal_l. fold (row_total m w i).
    field. exact tot_nz.
  Qed.

  Theorem constants_reproduced c : apply_weights m (normalize_rows m w) (fun _ => c) i = c.
  Proof.
    unfold apply_weights. rewrite sumn_scal_r.
    change (sumn m (fun j => normalize_rows m w i j)) with (sumn m (normalize_rows m w i)).
    rewrite rows_sum_to_one. ring.
  Qed.

  (** a convex combination lies between any bounds of the combined values *)
  Theorem range_preserved (x : nat -> F) lo hi :
    (forall j, (j < m)%nat -> fle lo (x j) /\ fle (x j) hi) ->
    fle lo (apply_weights m (normalize_rows m w) x i) /\
    fle (apply_weights m (normalize_rows m w) x i) hi.
  Proof.
    intros Hx. split.
    - rewrite <- (constants_reproduced lo) at 1. apply sumn_le. intros j Hj.
      apply fle_mul_l; [now apply weights_nonneg|now apply Hx].
    - rewrite <- (constants_reproduced hi) at 1. apply sumn_le. intros j Hj.
      apply fle_mul_l; [now apply weights_nonneg|now apply Hx].
  Qed.

  Theorem normalized_row :
    (forall j, (j < m)%nat -> fle 0 (normalize_rows m w i j)) /\
    sumn m (normalize_rows m w i) = 1 /\
    (forall c, apply_weights m (normalize_rows m w) (fun _ => c) i = c) /\
    (forall x lo hi, (forall j, (j < m)%nat -> fle lo (x j) /\ fle (x j) hi) ->
        fle lo (apply_weights m (normalize_rows m w) x i) /\
        fle (apply_weights m (normalize_rows m w) x i) hi).
  Proof. exact (conj weights_nonneg (conj rows_sum_to_one (conj constants_reproduced range_preserved))). Qed.
End Weights.

Section Conservation.
  Context {F : Type} {o : Ops F} {Oc : OrdFieldC o}.
  Add Field FFr2 : (field_c : FieldTh o).

  Definition marginals n m (w : nat -> nat -> F) (A B : nat -> F) : Prop :=
    (forall i, (i < n)%nat -> row_total m w i = A i) /\
    (forall j, (j < m)%nat -> sumn n (fun i => w i j) = B j).

  Lemma marginals_ext n m (w w' : nat -> nat -> F) A B :
    (forall i j, (i < n)%nat -> (j < m)%nat -> w' i j = w i j) ->
    marginals n m w A B -> marginals n m w' A B.
  Proof.
    intros E [R C]. split.
    - intros i Hi. rewrite <- (R i Hi). apply sumn_ext. intros j Hj. now apply E.
    - intros j Hj. rewrite <- (C j Hj). apply sumn_ext. intros i Hi. now apply E.
  Qed.

  Lemma column_sums_conserve n m (A B : nat -> F) (w : nat -> nat -> F) (y : nat -> F) :
    (forall j, (j < m)%nat -> sumn n (fun i => A i * w i j) = B j) ->
    sumn n (fun i => A i * apply_weights m w y i) = sumn m (fun j => B j * y j).
  Proof.
    intros H. unfold apply_weights.
    rewrite (sumn_ext n _ (fun i => sumn m (fun j => A i * w i j * y j))).
    2:{ intros i _. cbv beta. rewrite <- sumn_scal_l. apply sumn_ext. intros j _. cbv beta. ring. }
    rewrite sumn_exchange. apply sumn_ext. intros j Hj. cbv beta. now rewrite sumn_scal_r, (H j Hj).
  Qed.

  Lemma marginals_normalized n m (w : nat -> nat -> F) (A B : nat -> F) :
    marginals n m w A B -> (forall i, (i < n)%nat -> A i <> 0) ->
    forall j, (j < m)%nat -> sumn n (fun i => A i * normalize_rows m w i j) = B j.
  Proof.
    intros [R C] Hnz j Hj. rewrite <- (C j Hj). apply sumn_ext. intros i Hi. cbv beta.
    unfold normalize_rows. rewrite (R i Hi). field. now apply Hnz.
  Qed.

  Lemma marginals_conserve n m (w : nat -> nat -> F) (A B x : nat -> F) :
    marginals n m w A B -> (forall i, (i < n)%nat -> A i <> 0) ->
    sumn n (fun i => A i * apply_weights m (normalize_rows m w) x i) = sumn m (fun j => B j * x j).
  Proof. intros M Hnz. apply column_sums_conserve. now apply marginals_normalized. Qed.

  Lemma ov_cell_inside n (t : nat -> F) i :
    (forall i, (i < n)%nat -> fle (t i) (t (S i))) -> (i < n)%nat ->
    ov (t i) (t (S i)) (t 0%nat) (t n) = t (S i) - t i.
  Proof.
    intros Ht Hi. apply ov_inside; [|now apply Ht|]; apply (chain_le t n Ht); lia.
  Qed.

  Section Vertical.
    Variables (n m : nat) (tb sb : nat -> F).
    Hypothesis tb_sorted : forall i, (i < n)%nat -> fle (tb i) (tb (S i)).
    Hypothesis sb_sorted : forall j, (j < m)%nat -> fle (sb j) (sb (S j)).

    Lemma ov_marginals :
      marginals n m (interval_overlap sb tb)
        (fun i => ov (tb i) (tb (S i)) (sb 0%nat) (sb m)) (fun j => ov (sb j) (sb (S j)) (tb 0%nat) (tb n)).
    Proof.
      split.
      - intros i Hi. exact (partition_overlap sb m _ _ sb_sorted (tb_sorted i Hi)).
      - intros j Hj. exact (partition_overlap_sym tb n _ _ tb_sorted (sb_sorted j Hj)).
    Qed.

    (** same range: every cell lies within the other list's range *)
    Lemma ov_marginals_same_range :
      tb 0%nat = sb 0%nat -> tb n = sb m ->
      marginals n m (interval_overlap sb tb) (fun i => tb (S i) - tb i) (fun j => sb (S j) - sb j).
    Proof.
      intros E0 En. destruct ov_marginals as [R C]. split.
      - intros i Hi. rewrite (R i Hi), <- E0, <- En. now apply ov_cell_inside.
      - intros j Hj. rewrite (C j Hj), E0, En. now apply ov_cell_inside.
    Qed.

    Lemma interval_overlap_nonneg i j : fle 0 (interval_overlap sb tb i j).
    Proof. apply ov_nonneg. Qed.

    (** a row can be normalised exactly when the target layer meets the source range *)
    Theorem vertical_row_nonzero_iff i : (i < n)%nat ->
      (row_total m (interval_overlap sb tb) i <> 0 <->
       flt (fmax (tb i) (sb 0%nat)) (fmin (tb (S i)) (sb m))).
    Proof.
      intros Hi. rewrite (proj1 ov_marginals i Hi).
      rewrite <- ov_pos_iff. split.
      - apply fle_nz_pos, ov_nonneg.
      - intros P. now apply fpos_neq0.
    Qed.

    Theorem vertical_rows i : (i < n)%nat ->
      flt (fmax (tb i) (sb 0%nat)) (fmin (tb (S i)) (sb m)) ->
      (forall j, (j < m)%nat -> fle 0 (vert_weights m sb tb i j)) /\
      sumn m (vert_weights m sb tb i) = 1.
    Proof.
      intros Hi Hx. apply (vertical_row_nonzero_iff i Hi) in Hx. split.
      - intros j Hj. apply weights_nonneg; auto. intros; apply interval_overlap_nonneg.
      - now apply rows_sum_to_one.
    Qed.

    (** thickness-weighted integral over the covered range *)
    Theorem vertical_integral_conserved (x : nat -> F) :
      (forall i, (i < n)%nat -> flt (fmax (tb i) (sb 0%nat)) (fmin (tb (S i)) (sb m))) ->
      sumn n (fun i => ov (tb i) (tb (S i)) (sb 0%nat) (sb m) * apply_weights m (vert_weights m sb tb) x i)
      = sumn m (fun j => ov (sb j) (sb (S j)) (tb 0%nat) (tb n) * x j).
    Proof.
      intros Hx. apply (marginals_conserve n m _ _ _ x ov_marginals).
      intros i Hi. apply fpos_neq0, ov_pos_iff. now apply Hx.
    Qed.

    (** same range, strictly increasing target: plain thickness weights *)
    Corollary vertical_integral_conserved_same_range (x : nat -> F) :
      (forall i, (i < n)%nat -> flt (tb i) (tb (S i))) ->
      tb 0%nat = sb 0%nat -> tb n = sb m ->
      sumn n (fun i => (tb (S i) - tb i) * apply_weights m (vert_weights m sb tb) x i)
      = sumn m (fun j => (sb (S j) - sb j) * x j).
    Proof.
      intros Hst E0 En.
      apply (marginals_conserve n m _ _ _ x (ov_marginals_same_range E0 En)).
      intros i Hi. apply fpos_neq0, flt_sub_pos. now apply Hst.
    Qed.
  End Vertical.

  Definition sin_mono (n m : nat) (tb sb st ss : nat -> F) : Prop :=
    (forall i j, (i <= n)%nat -> (j <= m)%nat -> fle (tb i) (sb j) -> fle (st i) (ss j)) /\
    (forall i j, (i <= n)%nat -> (j <= m)%nat -> fle (sb j) (tb i) -> fle (ss j) (st i)) /\
    (forall i i', (i <= n)%nat -> (i' <= n)%nat -> fle (tb i) (tb i') -> fle (st i) (st i')) /\
    (forall j j', (j <= m)%nat -> (j' <= m)%nat -> fle (sb j) (sb j') -> fle (ss j) (ss j')).

  Lemma sel_overlap (L U sL sU : F) :
    (fle L U -> fle sL sU) -> (fle U L -> fle sU sL) ->
    ind (fltb L U) * (sU - sL) = fmax (sU - sL) 0.
  Proof.
    intros H1 H2. destruct (fltb L U) eqn:E.
    - apply fltb_true in E. rewrite fmax_l; [unfold ind; ring|].
      apply fle_sub_1, H1. now apply flt_le.
    - apply fltb_false_le in E. rewrite fmax_r; [unfold ind; ring|].
      apply fle_sub_nonpos, H2. exact E.
  Qed.

  Theorem lat_overlap_is_ov n m (tb sb st ss : nat -> F) i j :
    sin_mono n m tb sb st ss -> (i < n)%nat -> (j < m)%nat ->
    lat_overlap tb sb st ss i j = ov (st i) (st (S i)) (ss j) (ss (S j)).
  Proof.
    intros (Hts & Hst & Htt & Hss) Hi Hj. unfold lat_overlap, ov. cbv zeta.
    (* the table is monotone: selecting by the bounds selects the smaller (larger) sine *)
    rewrite (fmin_sel (tb (S i)) (sb (S j))), (fmax_sel (tb i) (sb j) (st i) (ss j))
      by (intros H; first [apply Hts|apply Hst]; auto; lia).
    (* whichever bounds are selected, the table compares their sines *)
    apply sel_overlap; destruct (fleb (tb (S i)) (sb (S j))), (fleb (tb i) (sb j)); intros H;
      first [apply Hts|apply Hst|apply Htt|apply Hss]; auto; lia.
  Qed.

  Section Latitude.
    Variables (n m : nat) (tb sb st ss : nat -> F).
    Hypothesis H_sin_mono : sin_mono n m tb sb st ss.
    Hypothesis H_st_incr : forall i, (i < n)%nat -> flt (st i) (st (S i)).
    Hypothesis H_ss_incr : forall j, (j < m)%nat -> fle (ss j) (ss (S j)).
    Hypothesis H_end0 : st 0%nat = ss 0%nat.
    Hypothesis H_end1 : st n = ss m.

    Lemma lat_marginals :
      marginals n m (lat_overlap tb sb st ss) (fun i => st (S i) - st i) (fun j => ss (S j) - ss j).
    Proof.
      apply (marginals_ext n m (interval_overlap ss st)).
      - intros i j Hi Hj. now apply (lat_overlap_is_ov n m).
      - apply ov_marginals_same_range; auto. intros i Hi. apply flt_le. now apply H_st_incr.
    Qed.

    Lemma lat_overlap_nonneg i j : (i < n)%nat -> (j < m)%nat -> fle 0 (lat_overlap tb sb st ss i j).
    Proof. intros Hi Hj. rewrite (lat_overlap_is_ov n m) by assumption. apply ov_nonneg. Qed.

    Lemma lat_width_nz i : (i < n)%nat -> st (S i) - st i <> 0.
    Proof. intros Hi. apply fpos_neq0, flt_sub_pos. now apply H_st_incr. Qed.

    Theorem latitude_rows i : (i < n)%nat ->
      (forall j, (j < m)%nat -> fle 0 (normalize_rows m (lat_overlap tb sb st ss) i j)) /\
      sumn m (normalize_rows m (lat_overlap tb sb st ss) i) = 1.
    Proof.
      intros Hi.
      assert (Hnz : row_total m (lat_overlap tb sb st ss) i <> 0)
        by (rewrite (proj1 lat_marginals i Hi); now apply lat_width_nz).
      split.
      - intros j Hj. apply weights_nonneg; auto. intros; now apply lat_overlap_nonneg.
      - now apply rows_sum_to_one.
    Qed.

    (** area (sin-measure) weighted integral *)
    Theorem latitude_integral_conserved (x : nat -> F) :
      sumn n (fun i => (st (S i) - st i) * apply_weights m (normalize_rows m (lat_overlap tb sb st ss)) x i)
      = sumn m (fun j => (ss (S j) - ss j) * x j).
    Proof. exact (marginals_conserve n m _ _ _ x lat_marginals lat_width_nz). Qed.
  End Latitude.

  (** the einsum of _mean applies the latitude weights, then the longitude
      weights, so the 2-D integral is conserved when each direction has its
      column identity *)
  Lemma mean2_apply nb nd (wlon wlat : nat -> nat -> F) (f : nat -> nat -> F) a c :
    mean2 nb nd wlon wlat f a c
    = apply_weights nb wlon (fun b => apply_weights nd wlat (f b) c) a.
  Proof.
    unfold mean2, apply_weights. apply sumn_ext. intros b _. cbv beta.
    rewrite <- sumn_scal_l. apply sumn_ext. intros d _. cbv beta. ring.
  Qed.

  Theorem tensor_integral_conserved na nb nc nd (A B C D : nat -> F)
          (wlon wlat : nat -> nat -> F) (f : nat -> nat -> F) :
    (forall b, (b < nb)%nat -> sumn na (fun a => A a * wlon a b) = B b) ->
    (forall d, (d < nd)%nat -> sumn nc (fun c => C c * wlat c d) = D d) ->
    sumn na (fun a => sumn nc (fun c => A a * C c * mean2 nb nd wlon wlat f a c))
    = sumn nb (fun b => sumn nd (fun d => B b * D d * f b d)).
  Proof.
    intros HB HD.
    set (g := fun c b => apply_weights nd wlat (f b) c).
    transitivity (sumn nc (fun c => sumn nb (fun b => B b * (C c * g c b)))).
    - rewrite sumn_exchange. apply sumn_ext. intros c _. cbv beta.
      rewrite <- (column_sums_conserve na nb A B wlon (fun b => C c * g c b) HB).
      apply sumn_ext. intros a _. cbv beta. rewrite mean2_apply. fold (g c). unfold apply_weights.
      rewrite <- !sumn_scal_l. apply sumn_ext. intros b _. cbv beta. ring.
    - rewrite sumn_exchange. apply sumn_ext. intros b _. cbv beta.
      rewrite sumn_scal_l. unfold g. rewrite (column_sums_conserve nc nd C D wlat (f b) HD), <- sumn_scal_l.
      apply sumn_ext. intros d _. cbv beta. ring.
  Qed.

  Lemma per_overlap_nonneg period x0 x1 y0 y1 : fle 0 (per_overlap period x0 x1 y0 y1).
  Proof.
    unfold per_overlap. cbv zeta. repeat apply fle_0_add; [apply fle_refl|apply fmax_ge_r..].
  Qed.

  (** the coded periodic overlap is the sum of the overlaps with the three
      images (offsets -period, 0, +period) of the second interval moved as a
      whole by [shift = align(y0,x0) - y0] *)
  Lemma per_overlap_images period x0 x1 y0 y1 :
    let s := align_phase y0 x0 period - y0 in
    per_overlap period x0 x1 y0 y1
    = ov x0 x1 (y0 + s + - period) (y1 + s + - period) + ov x0 x1 (y0 + s + 0) (y1 + s + 0)
      + ov x0 x1 (y0 + s + period) (y1 + s + period).
  Proof. cbv zeta. unfold per_overlap, ov. cbv zeta. ring. Qed.

  Lemma per_overlap_point period x0 x1 u : per_overlap period x0 x1 u u = 0.
  Proof. rewrite per_overlap_images. cbv zeta. rewrite !ov_point. ring. Qed.

  Lemma lon_overlap_nonneg period n m tp sp i j : fle 0 (lon_overlap period n m tp sp i j).
  Proof. apply per_overlap_nonneg. Qed.

  Definition cell_width (n : nat) (period : F) (p : nat -> F) (i : nat) : F :=
    per_upper n period p i - per_lower n period p i.

  (** the periodic partition identity: [marginals] of the overlap matrix with
      the target and source cell widths.  A hypothesis of the horizontal
      conservation theorem in a general ordered field; proved over the reals
      in [lon_partition_R]. *)
  Definition lon_partition (period : F) (n m : nat) (tp sp : nat -> F) : Prop :=
    (forall i, (i < n)%nat -> row_total m (lon_overlap period n m tp sp) i = cell_width n period tp i) /\
    (forall j, (j < m)%nat -> sumn n (fun i => lon_overlap period n m tp sp i j) = cell_width m period sp j).

  Theorem horizontal_integral_conserved_partial
          period na nb (tp sp : nat -> F)             (* longitudes reduced mod period *)
          nc nd (tb sb st ss : nat -> F)              (* latitude bounds and their sin tables *)
          (f : nat -> nat -> F) :
    lon_partition period na nb tp sp ->
    (forall a, (a < na)%nat -> cell_width na period tp a <> 0) ->
    sin_mono nc nd tb sb st ss ->
    (forall c, (c < nc)%nat -> flt (st c) (st (S c))) ->
    (forall d, (d < nd)%nat -> fle (ss d) (ss (S d))) ->
    st 0%nat = ss 0%nat -> st nc = ss nd ->
    sumn na (fun a => sumn nc (fun c => cell_width na period tp a * (st (S c) - st c) *
        mean2 nb nd (lon_weights period na nb tp sp) (normalize_rows nd (lat_overlap tb sb st ss)) f a c))
    = sumn nb (fun b => sumn nd (fun d => cell_width nb period sp b * (ss (S d) - ss d) * f b d)).
  Proof.
    intros Hpart Hw Hmono Hst Hss E0 E1.
    apply tensor_integral_conserved.
    - exact (marginals_normalized na nb (lon_overlap period na nb tp sp) _ _ Hpart Hw).
    - apply (marginals_normalized nc nd (lat_overlap tb sb st ss) _ _ (lat_marginals nc nd tb sb st ss Hmono Hst Hss E0 E1)).
      now apply lat_width_nz.
  Qed.

  Lemma notnull_cases (v : option F) :
    (notnull v = 1 /\ exists x, v = Some x) \/ (notnull v = 0 /\ v = None).
  Proof. destruct v as [x|]; [left; split; [reflexivity|now exists x]|right; split; reflexivity]. Qed.

  Lemma notnull_01 (v : option F) : fle 0 (notnull v) /\ fle 0 (1 - notnull v).
  Proof.
    destruct v; cbn [notnull]; split.
    - apply fle_0_1.
    - apply fle_eq. ring.
    - apply fle_refl.
    - replace (1 - 0) with 1 by ring. apply fle_0_1.
  Qed.

  Section Nan.
    Variables (nb nd : nat) (wlon wlat : nat -> nat -> F) (a c : nat).
    Hypothesis lon_nonneg : forall b, (b < nb)%nat -> fle 0 (wlon a b).
    Hypothesis lat_nonneg : forall d, (d < nd)%nat -> fle 0 (wlat c d).
    Hypothesis lon_sum : sumn nb (wlon a) = 1.
    Hypothesis lat_sum : sumn nd (wlat c) = 1.
    Variable field : nat -> nat -> option F.

    (** weight of source cell (b,d) in output cell (a,c) *)
    Definition W (b d : nat) : F := wlon a b * wlat c d.
    Definition mean_of (g : nat -> nat -> F) : F := mean2 nb nd wlon wlat g a c.
    Definition nan_weight : F := mean_of (fun b d => 1 - notnull (field b d)).
    Definition frac : F := mean_of (fun b d => notnull (field b d)).
    Definition mean : F := mean_of (fun b d => val0 (field b d)).

    Lemma regrid_call_eq skipna tol :
      regrid_call skipna tol nb nd wlon wlat field a c =
      if skipna then (if feqb frac 0 then None else Some (mean / frac))
      else if isclose1 tol frac then Some (mean / frac) else None.
    Proof. reflexivity. Qed.

    Lemma W_nonneg b d : (b < nb)%nat -> (d < nd)%nat -> fle 0 (W b d).
    Proof. intros Hb Hd. apply fle_mul_pos; auto. Qed.

    Lemma W_term_nonneg g b d :
      (forall b d, (b < nb)%nat -> (d < nd)%nat -> fle 0 (g b d)) ->
      (b < nb)%nat -> (d < nd)%nat -> fle 0 (W b d * g b d).
    Proof. intros H Hb Hd. apply fle_mul_pos; [now apply W_nonneg|now apply H]. Qed.
    Lemma notnull_nonneg b d : (b < nb)%nat -> (d < nd)%nat -> fle 0 (notnull (field b d)).
    Proof. intros _ _. apply notnull_01. Qed.
    Lemma null_nonneg b d : (b < nb)%nat -> (d < nd)%nat -> fle 0 (1 - notnull (field b d)).
    Proof. intros _ _. apply notnull_01. Qed.

    Lemma mean_of_nonneg g :
      (forall b d, (b < nb)%nat -> (d < nd)%nat -> fle 0 (g b d)) -> fle 0 (mean_of g).
    Proof.
      intros H. unfold mean_of, mean2. apply sumn_nonneg. intros b Hb. apply sumn_nonneg. intros d Hd.
      now apply W_term_nonneg.
    Qed.
    Lemma mean_of_le g h :
      (forall b d, (b < nb)%nat -> (d < nd)%nat -> fle (W b d * g b d) (W b d * h b d)) ->
      fle (mean_of g) (mean_of h).
    Proof.
      intros H. unfold mean_of, mean2. apply sumn_le. intros b Hb. apply sumn_le. intros d Hd. now apply H.
    Qed.
    Lemma mean_of_ge_term g b d :
      (forall b d, (b < nb)%nat -> (d < nd)%nat -> fle 0 (g b d)) ->
      (b < nb)%nat -> (d < nd)%nat -> fle (W b d * g b d) (mean_of g).
    Proof.
      intros H Hb Hd. unfold mean_of, mean2.
      eapply fle_trans; [|apply (sumn_ge_term nb _ b); [|exact Hb]].
      - cbv beta. apply (sumn_ge_term nd (fun d => wlon a b * wlat c d * g b d) d); [|exact Hd].
        intros d' Hd'. now apply W_term_nonneg.
      - intros b' Hb'. cbv beta. apply sumn_nonneg. intros d' Hd'. now apply W_term_nonneg.
    Qed.
    (** a mean of non-negative values vanishes exactly when they vanish on every
        cell of positive weight *)
    Lemma mean_of_zero_iff g :
      (forall b d, (b < nb)%nat -> (d < nd)%nat -> fle 0 (g b d)) ->
      (mean_of g = 0 <-> forall b d, (b < nb)%nat -> (d < nd)%nat -> flt 0 (W b d) -> g b d = 0).
    Proof.
      intros H. split.
      - intros E b d Hb Hd P.
        destruct (fle_lt_or_eq 0 (g b d) (H b d Hb Hd)) as [G|G]; [exfalso|now symmetry].
        apply (fle_flt_false (W b d * g b d) 0); [|now apply fmul_pos_pos].
        rewrite <- E. now apply mean_of_ge_term.
      - intros Z. unfold mean_of, mean2. apply sumn_zero. intros b Hb. apply sumn_zero. intros d Hd.
        fold (W b d). destruct (fle_lt_or_eq 0 (W b d) (W_nonneg b d Hb Hd)) as [P|P].
        + rewrite (Z b d Hb Hd P). ring.
        + rewrite <- P. ring.
    Qed.
    Lemma mean_of_add g h : mean_of (fun b d => g b d + h b d) = mean_of g + mean_of h.
    Proof.
      unfold mean_of, mean2. rewrite <- sumn_add. apply sumn_ext. intros b _. cbv beta.
      rewrite <- sumn_add. apply sumn_ext. intros d _. cbv beta. ring.
    Qed.
    Lemma mean_of_scal k g : mean_of (fun b d => k * g b d) = k * mean_of g.
    Proof.
      unfold mean_of, mean2. rewrite <- sumn_scal_l. apply sumn_ext. intros b _. cbv beta.
      rewrite <- sumn_scal_l. apply sumn_ext. intros d _. cbv beta. ring.
    Qed.
    Lemma mean_of_one : mean_of (fun _ _ => 1) = 1.
    Proof.
      transitivity (sumn nb (wlon a) * sumn nd (wlat c)); [|rewrite lon_sum, lat_sum; ring].
      unfold mean_of, mean2. rewrite <- (sumn_scal_r nb _ (wlon a)). apply sumn_ext. intros b _. cbv beta.
      rewrite <- (sumn_scal_l nd _ (wlat c)). apply sumn_ext. intros d _. cbv beta. ring.
    Qed.

    Lemma frac_plus_nan_weight : frac + nan_weight = 1.
    Proof.
      unfold frac, nan_weight. rewrite <- mean_of_add.
      transitivity (mean_of (fun _ _ => 1)); [|apply mean_of_one].
      unfold mean_of, mean2. apply sumn_ext. intros b _. apply sumn_ext. intros d _. cbv beta. ring.
    Qed.

    Lemma nan_weight_nonneg : fle 0 nan_weight.
    Proof. exact (mean_of_nonneg _ null_nonneg). Qed.

    Lemma frac_nonneg : fle 0 frac.
    Proof. exact (mean_of_nonneg _ notnull_nonneg). Qed.

    (** frac <= 1, so |frac - 1| is the weight of the NaN cells *)
    Lemma isclose_frac tol : isclose1 tol frac = fleb nan_weight tol.
    Proof.
      unfold isclose1. f_equal. rewrite fabs_nonpos; rewrite <- frac_plus_nan_weight.
      - ring.
      - replace (frac - (frac + nan_weight)) with (- nan_weight) by ring.
        apply fle_opp_0, nan_weight_nonneg.
    Qed.

    Theorem nan_strict_iff tol :
      regrid_call false tol nb nd wlon wlat field a c = None <-> flt tol nan_weight.
    Proof. rewrite regrid_call_eq, isclose_frac. unfold flt. now destruct (fleb nan_weight tol). Qed.

    (** no overlapping source cell is NaN: the result is the plain weighted mean *)
    Theorem nan_strict_clean tol :
      fle 0 tol ->
      (forall b d, (b < nb)%nat -> (d < nd)%nat -> flt 0 (W b d) -> field b d <> None) ->
      regrid_call false tol nb nd wlon wlat field a c = Some mean.
    Proof.
      intros Htol Hclean.
      assert (Z : nan_weight = 0).
      { apply (mean_of_zero_iff _ null_nonneg). intros b d Hb Hd P.
        destruct (notnull_cases (field b d)) as [(E & _)|(_ & E)].
        - rewrite E. ring.
        - exfalso. now apply (Hclean b d Hb Hd P). }
      assert (Fr : frac = 1) by (rewrite <- frac_plus_nan_weight, Z; ring).
      rewrite regrid_call_eq, isclose_frac, Z, Htol, Fr. f_equal. field. apply f1_nz.
    Qed.

    (** an overlapping NaN cell heavier than the isclose slack makes the output NaN *)
    Theorem nan_strict_propagates tol b d :
      (b < nb)%nat -> (d < nd)%nat -> field b d = None -> flt tol (W b d) ->
      regrid_call false tol nb nd wlon wlat field a c = None.
    Proof.
      intros Hb Hd Hn Hw. apply nan_strict_iff.
      eapply flt_le_trans; [exact Hw|].
      assert (T : W b d = W b d * (1 - notnull (field b d))) by (rewrite Hn; cbn [notnull]; ring).
      rewrite T. now apply (mean_of_ge_term (fun b d => 1 - notnull (field b d)) b d null_nonneg).
    Qed.

    Lemma frac_zero_iff :
      frac = 0 <-> (forall b d, (b < nb)%nat -> (d < nd)%nat -> flt 0 (W b d) -> field b d = None).
    Proof.
      unfold frac. rewrite (mean_of_zero_iff _ notnull_nonneg).
      split; intros H b d Hb Hd P; specialize (H b d Hb Hd P).
      - destruct (notnull_cases (field b d)) as [(E & _)|(_ & E)]; [|exact E].
        rewrite E in H. now destruct f1_nz.
      - now rewrite H.
    Qed.

    Theorem nan_skipna_iff tol :
      regrid_call true tol nb nd wlon wlat field a c = None <->
      (forall b d, (b < nb)%nat -> (d < nd)%nat -> flt 0 (W b d) -> field b d = None).
    Proof.
      rewrite <- frac_zero_iff, regrid_call_eq, <- feqb_spec. now destruct (feqb frac 0).
    Qed.

    (** each term of [mean] lies between [lo] and [hi] times the term of [frac] *)
    Lemma mean_bounds lo hi :
      (forall b d x, (b < nb)%nat -> (d < nd)%nat -> flt 0 (W b d) -> field b d = Some x ->
                     fle lo x /\ fle x hi) ->
      fle (lo * frac) mean /\ fle mean (hi * frac).
    Proof.
      intros Hr.
      assert (T : forall b d, (b < nb)%nat -> (d < nd)%nat ->
                fle (W b d * (lo * notnull (field b d))) (W b d * val0 (field b d)) /\
                fle (W b d * val0 (field b d)) (W b d * (hi * notnull (field b d)))).
      { intros b d Hb Hd. destruct (fle_lt_or_eq 0 (W b d) (W_nonneg b d Hb Hd)) as [P|P].
        - destruct (field b d) as [x|] eqn:Fx; cbn [notnull val0].
          + destruct (Hr b d x Hb Hd P Fx) as [L U].
            replace (lo * 1) with lo by ring. replace (hi * 1) with hi by ring.
            split; apply fle_mul_l; auto using flt_le.
          + replace (lo * 0) with 0 by ring. replace (hi * 0) with 0 by ring. split; apply fle_refl.
        - rewrite <- P. split; apply fle_eq; ring. }
      unfold frac, mean. rewrite <- !mean_of_scal.
      split; apply mean_of_le; intros b d Hb Hd; now apply T.
    Qed.

    (** otherwise the result is the weight-renormalised mean of the non-NaN
        overlapping cells and lies within their range *)
    Theorem nan_skipna_value tol v lo hi :
      regrid_call true tol nb nd wlon wlat field a c = Some v ->
      (forall b d x, (b < nb)%nat -> (d < nd)%nat -> flt 0 (W b d) -> field b d = Some x ->
                     fle lo x /\ fle x hi) ->
      frac <> 0 /\ v = mean / frac /\ fle lo v /\ fle v hi.
    Proof.
      intros R Hr. rewrite regrid_call_eq in R.
      destruct (feqb frac 0) eqn:E; [discriminate|]. injection R as <-.
      assert (Fnz : frac <> 0) by (intro Z; apply feqb_spec in Z; rewrite Z in E; discriminate).
      assert (Fpos : flt 0 frac) by (apply fle_nz_pos; [apply frac_nonneg|exact Fnz]).
      destruct (mean_bounds lo hi Hr) as [L U].
      split; [exact Fnz|split; [reflexivity|now apply fdiv_between]].
    Qed.
  End Nan.
End Conservation.

Section Cyclic.
  Context {F : Type} {o : Ops F} {Fc : FieldC o}.
  Add Field FFcyc : (field_c : FieldTh o).

  Definition nxt (n j : nat) : nat := if Nat.eqb (S j) n then 0%nat else S j.
  Definition prv (n j : nat) : nat := if Nat.eqb j 0 then (n - 1)%nat else (j - 1)%nat.

  Lemma nxt_lt n j : (j < n)%nat -> (nxt n j < n)%nat.
  Proof. intros H. unfold nxt. destruct (Nat.eqb_spec (S j) n); lia. Qed.
  Lemma prv_lt n j : (j < n)%nat -> (prv n j < n)%nat.
  Proof. intros H. unfold prv. destruct (Nat.eqb_spec j 0); lia. Qed.
  Lemma nxt_prv n j : (j < n)%nat -> nxt n (prv n j) = j.
  Proof.
    intros H. unfold nxt, prv. destruct (Nat.eqb_spec j 0) as [->|Hj].
    - destruct (Nat.eqb_spec (S (n - 1)) n); lia.
    - destruct (Nat.eqb_spec (S (j - 1)) n); lia.
  Qed.
  Lemma prv_nxt n j : (j < n)%nat -> prv n (nxt n j) = j.
  Proof.
    intros H. unfold nxt, prv. destruct (Nat.eqb_spec (S j) n) as [E|E]; cbn [Nat.eqb]; lia.
  Qed.
  Lemma nxt_mod n j : (j < n)%nat -> Nat.modulo (j + 1) n = nxt n j.
  Proof.
    intros H. unfold nxt. destruct (Nat.eqb_spec (S j) n) as [E|E].
    - replace (j + 1)%nat with n by lia. apply Nat.mod_same. lia.
    - rewrite Nat.mod_small; lia.
  Qed.
  Lemma prv_mod n j : (j < n)%nat -> Nat.modulo (j + n - 1) n = prv n j.
  Proof.
    intros H. unfold prv. destruct (Nat.eqb_spec j 0) as [->|E].
    - replace (0 + n - 1)%nat with (n - 1)%nat by lia. rewrite Nat.mod_small; lia.
    - replace (j + n - 1)%nat with ((j - 1) + 1 * n)%nat by lia.
      rewrite Nat.mod_add by lia. rewrite Nat.mod_small; lia.
  Qed.

  Lemma sumn_cyclic n (f : nat -> F) : sumn n (fun j => f (nxt n j)) = sumn n f.
  Proof.
    rewrite <- (sumn_cyclic_shift n 1 f). apply sumn_ext. intros j Hj. now rewrite nxt_mod.
  Qed.

  Lemma sumn_add_prv n (f : nat -> F) : sumn n (fun j => f j + f (prv n j)) = sumn n f + sumn n f.
  Proof.
    rewrite sumn_add. f_equal. rewrite <- (sumn_cyclic n (fun j => f (prv n j))).
    apply sumn_ext. intros j Hj. now rewrite (prv_nxt n j Hj).
  Qed.

  (** sum_j (hq j - ha j) when, from one j to the next, [ha] exceeds [hq] by X
      times the number of periods by which [a] misses [a j + w j]: around the
      cycle the differences of [ha] and of [a] cancel and the [w j] add up to P *)
  Lemma cyclic_telescope n (pv hq ha a w : nat -> F) (P X : F) :
    P <> 0 -> sumn n w = P ->
    (forall j, (j < n)%nat -> pv j = hq j - ha j) ->
    (forall j, (j < n)%nat -> ha (nxt n j) - hq j = (a (nxt n j) - (a j + w j)) / P * X) ->
    sumn n pv = X.
  Proof.
    intros HP Hw H1 H2.
    rewrite (sumn_ext n pv (fun j => (ha (nxt n j) - ha j) - ((a (nxt n j) - a j) - w j) * (X / P))).
    2:{ intros j Hj. rewrite (H1 j Hj).
        transitivity (ha (nxt n j) - ha j - (ha (nxt n j) - hq j)); [ring|].
        rewrite (H2 j Hj). field. exact HP. }
    rewrite !sumn_sub, sumn_scal_r, !sumn_sub, (sumn_cyclic n ha), (sumn_cyclic n a), Hw.
    field. exact HP.
  Qed.
End Cyclic.

(** Over the reals the tables are the real [sin] of the cell bounds, so the
    table hypotheses become theorems. *)
From Dino Require Import Base.Inst.
From Coq Require Import Reals Lra.

Section LatitudeR.
  Local Open Scope R_scope.

  Lemma lat_bounds_R_eq (hpi : R) n (x : nat -> R) k :
    lat_bounds hpi n x k =
    if Nat.eqb k 0 then - hpi else if Nat.ltb k n then (x (k - 1)%nat + x k) / 2 else hpi.
  Proof.
    unfold lat_bounds, two. cbn.
    destruct (Nat.eqb k 0); [reflexivity|]. destruct (Nat.ltb k n); [|reflexivity].
    replace (1 + 1) with 2 by lra. reflexivity.
  Qed.

  Lemma lat_bounds_R_facts (hpi : R) n (x : nat -> R) :
    0 < hpi -> (0 < n)%nat ->
    (forall i, (S i < n)%nat -> x i < x (S i)) ->
    - hpi <= x 0%nat -> x (n - 1)%nat <= hpi ->
    (forall k, (k < n)%nat -> lat_bounds hpi n x k < lat_bounds hpi n x (S k)) /\
    (forall k, (k <= n)%nat -> - hpi <= lat_bounds hpi n x k <= hpi).
  Proof.
    intros Hh Hn Hinc H0 H1.
    assert (Hch : forall i j, (i < j)%nat -> (j < n)%nat -> x i < x j).
    { intros i j Hij Hj. apply (chain_rel Rlt x (n - 1) Rlt_trans); [intros k Hk; apply Hinc|..]; lia. }
    assert (Hlo : forall i, (i < n)%nat -> - hpi <= x i).
    { intros i Hi. destruct (Nat.eq_dec i 0) as [->|Hne]; [exact H0|].
      apply Rle_trans with (x 0%nat); [exact H0|]. left. apply Hch; lia. }
    assert (Hhi : forall i, (i < n)%nat -> x i <= hpi).
    { intros i Hi. destruct (Nat.eq_dec i (n - 1)) as [->|Hne]; [exact H1|].
      apply Rle_trans with (x (n - 1)%nat); [|exact H1]. left. apply Hch; lia. }
    split.
    - intros k Hk. rewrite !lat_bounds_R_eq.
      destruct (Nat.eqb_spec k 0) as [->|Hk0].
      + cbn [Nat.eqb]. destruct (Nat.ltb_spec 1 n) as [Hn1|Hn1].
        * cbn [Nat.sub]. pose proof (Hlo 0%nat ltac:(lia)). pose proof (Hinc 0%nat ltac:(lia)). lra.
        * lra.
      + destruct (Nat.eqb_spec (S k) 0); [lia|].
        destruct (Nat.ltb_spec k n); [|lia].
        replace (S k - 1)%nat with k by lia.
        pose proof (Hinc (k - 1)%nat ltac:(lia)) as Hi1. replace (S (k - 1)) with k in Hi1 by lia.
        destruct (Nat.ltb_spec (S k) n) as [Hn1|Hn1].
        * pose proof (Hinc k ltac:(lia)). lra.
        * pose proof (Hhi k ltac:(lia)). lra.
    - intros k Hk. rewrite lat_bounds_R_eq.
      destruct (Nat.eqb_spec k 0); [lra|]. destruct (Nat.ltb_spec k n); [|lra].
      pose proof (Hlo (k - 1)%nat ltac:(lia)). pose proof (Hlo k ltac:(lia)).
      pose proof (Hhi (k - 1)%nat ltac:(lia)). pose proof (Hhi k ltac:(lia)). lra.
  Qed.

  Lemma sin_mono_le u v :
    - (PI / 2) <= u <= PI / 2 -> - (PI / 2) <= v <= PI / 2 -> u <= v -> sin u <= sin v.
  Proof.
    intros Hu Hv H. apply sin_incr_1; lra.
  Qed.

  Lemma lat_tables_R n m (tx sx : nat -> R) :
    (0 < n)%nat -> (0 < m)%nat ->
    (forall i, (S i < n)%nat -> tx i < tx (S i)) -> - (PI / 2) <= tx 0%nat -> tx (n - 1)%nat <= PI / 2 ->
    (forall j, (S j < m)%nat -> sx j < sx (S j)) -> - (PI / 2) <= sx 0%nat -> sx (m - 1)%nat <= PI / 2 ->
    let tb := lat_bounds (PI / 2) n tx in
    let sb := lat_bounds (PI / 2) m sx in
    let st := fun k => sin (tb k) in
    let ss := fun k => sin (sb k) in
    sin_mono n m tb sb st ss /\
    (forall i, (i < n)%nat -> flt (st i) (st (S i))) /\
    (forall j, (j < m)%nat -> fle (ss j) (ss (S j))) /\
    st 0%nat = ss 0%nat /\ st n = ss m.
  Proof.
    intros Hn Hm Hti Ht0 Ht1 Hsi Hs0 Hs1 tb sb st ss.
    assert (Hpi : 0 < PI / 2) by (pose proof PI_RGT_0; lra).
    destruct (lat_bounds_R_facts (PI / 2) n tx Hpi Hn Hti Ht0 Ht1) as [Tinc Trng].
    destruct (lat_bounds_R_facts (PI / 2) m sx Hpi Hm Hsi Hs0 Hs1) as [Sinc Srng].
    fold tb in Tinc, Trng. fold sb in Sinc, Srng.
    split; [|split; [|split; [|split]]].
    - repeat split; intros; apply fle_R; apply sin_mono_le; auto; now apply fle_R.
    - intros i Hi. apply flt_R. unfold st. apply sin_increasing_1; try apply Trng; try lia. now apply Tinc.
    - intros j Hj. apply fle_R. unfold ss. apply sin_mono_le; try apply Srng; try lia. left. now apply Sinc.
    - unfold st, ss, tb, sb. rewrite !lat_bounds_R_eq. reflexivity.
    - unfold st, ss, tb, sb. rewrite !lat_bounds_R_eq.
      destruct (Nat.eqb_spec n 0); [lia|]. destruct (Nat.eqb_spec m 0); [lia|].
      rewrite !Nat.ltb_irrefl. reflexivity.
  Qed.
End LatitudeR.

Section PeriodicPartitionR.
  Local Open Scope R_scope.

  Lemma ov_clip_R x0 x1 c d : x0 <= x1 -> c <= d -> ov x0 x1 c d = clip x0 x1 d - clip x0 x1 c.
  Proof. intros H1 H2. exact (ov_clip x0 x1 c d (proj2 (fle_R _ _) H1) (proj2 (fle_R _ _) H2)). Qed.

  Lemma align_cases_R u t P :
    0 < P ->
    (u < t - P / 2 /\ align_phase u t P = u + P) \/
    (t - P / 2 <= u <= t + P / 2 /\ align_phase u t P = u) \/
    (t + P / 2 < u /\ align_phase u t P = u - P).
  Proof.
    intros HP. unfold align_phase, fltb, ind, two. cbn. unfold Rleb.
    destruct (Rle_dec _ _), (Rle_dec _ _); cbn; lra.
  Qed.

  Lemma align_R P u t :
    0 < P -> - (3 * P / 2) < u - t < 3 * P / 2 ->
    (t - P / 2 <= align_phase u t P <= t + P / 2) /\
    (align_phase u t P = u \/ align_phase u t P = u - P \/ align_phase u t P = u + P).
  Proof. intros HP Hr. destruct (align_cases_R u t P HP) as [[H ->]|[[H ->]|[H ->]]]; lra. Qed.

  Lemma align_near P v t :
    0 < P -> - (P / 2) < v - t < P / 2 ->
    align_phase v t P = v /\ align_phase (v - P) t P = v /\ align_phase (v + P) t P = v.
  Proof.
    intros HP Hr.
    destruct (align_cases_R v t P HP) as [[H1 ->]|[[H1 ->]|[H1 ->]]];
      destruct (align_cases_R (v - P) t P HP) as [[H2 ->]|[[H2 ->]|[H2 ->]]];
      destruct (align_cases_R (v + P) t P HP) as [[H3 ->]|[[H3 ->]|[H3 ->]]]; lra.
  Qed.

  Lemma align_antisym_R P x0 y0 :
    0 < P -> - (3 * P / 2) < y0 - x0 < 3 * P / 2 ->
    align_phase x0 y0 P - x0 = - (align_phase y0 x0 P - y0).
  Proof.
    intros HP Hr.
    destruct (align_cases_R x0 y0 P HP) as [[H1 ->]|[[H1 ->]|[H1 ->]]];
      destruct (align_cases_R y0 x0 P HP) as [[H2 ->]|[[H2 ->]|[H2 ->]]]; lra.
  Qed.

  (** the overlap is symmetric: by [per_overlap_images] both sides are sums over
      three images; the two shifts are opposite, so translating by shift + offset
      turns image k of one side into image -k of the other *)
  Lemma pov_sym_R (P x0 x1 y0 y1 : R) :
    0 < P -> - (3 * P / 2) < y0 - x0 < 3 * P / 2 ->
    per_overlap P x0 x1 y0 y1 = per_overlap P y0 y1 x0 x1.
  Proof.
    intros HP Hr. rewrite !per_overlap_images. cbv zeta. cbn [fadd fsub fopp f0 ROps].
    rewrite (align_antisym_R P x0 y0 HP Hr).
    set (s := align_phase y0 x0 P - y0).
    assert (T : forall k, ov x0 x1 (y0 + s + k) (y1 + s + k) = ov y0 y1 (x0 + - s + - k) (x1 + - s + - k)).
    { intros k. rewrite (ov_sym y0 y1), <- (ov_shift (x0 + - s + - k) (x1 + - s + - k) y0 y1 (s + k)).
      cbn [fadd ROps]. f_equal; lra. }
    rewrite (T (- P)), (T 0), (T P).
    replace (- - P) with P by lra. replace (- 0) with 0 by lra. lra.
  Qed.

  (** periodised clip: the images z + kP with |k| <= 2; for the arguments that
      occur below all further images are clipped to an end of the cell *)
  Definition pclip (P x0 x1 z : R) : R :=
    clip x0 x1 (z - 2 * P) + clip x0 x1 (z - P) + clip x0 x1 z + clip x0 x1 (z + P) + clip x0 x1 (z + 2 * P).

  Lemma pov_as_pclip P x0 x1 u w :
    0 < P -> x0 <= x1 -> x1 - x0 <= P -> 0 <= w <= P -> - (3 * P / 2) < u - x0 < 3 * P / 2 ->
    per_overlap P x0 x1 u (u + w) = pclip P x0 x1 (align_phase u x0 P + w) - pclip P x0 x1 (align_phase u x0 P).
  Proof.
    intros HP Hx Hwx Hw Hr.
    destruct (align_R P u x0 HP Hr) as [Ha _].
    rewrite per_overlap_images. cbv zeta. cbn [fadd fsub fopp f0 ROps].
    remember (align_phase u x0 P) as a eqn:Ea.
    transitivity (ov x0 x1 (a - P) (a + w - P) + ov x0 x1 a (a + w) + ov x0 x1 (a + P) (a + w + P));
      [f_equal; [f_equal|]; f_equal; lra|].
    rewrite !ov_clip_R by lra.
    unfold pclip.
    rewrite (clip_hi x0 x1 (a + w + 2 * P)) by (apply fle_R; lra).
    rewrite (clip_hi x0 x1 (a + 2 * P)) by (apply fle_R; lra).
    rewrite (clip_lo x0 x1 (a + w - 2 * P)) by (apply fle_R; lra).
    rewrite (clip_lo x0 x1 (a - 2 * P)) by (apply fle_R; lra).
    lra.
  Qed.

  Lemma pclip_shift P x0 x1 z :
    0 < P -> x0 <= x1 -> x1 - x0 <= P -> x0 - P / 2 <= z <= x0 + P / 2 ->
    pclip P x0 x1 (z + P) = pclip P x0 x1 z + (x1 - x0).
  Proof.
    intros HP Hx Hw Hz. unfold pclip.
    replace (z + P - 2 * P) with (z - P) by lra.
    replace (z + P - P) with z by lra.
    replace (z + P + P) with (z + 2 * P) by lra.
    rewrite (clip_hi x0 x1 (z + P + 2 * P)) by (apply fle_R; lra).
    rewrite (clip_lo x0 x1 (z - 2 * P)) by (apply fle_R; lra).
    lra.
  Qed.

  Lemma pov_full_R (P x0 x1 u : R) :
    0 < P -> x0 <= x1 -> x1 - x0 <= P -> - (3 * P / 2) < u - x0 < 3 * P / 2 ->
    per_overlap P x0 x1 u (u + P) = x1 - x0.
  Proof.
    intros HP Hx Hw Hr. destruct (align_R P u x0 HP Hr) as [Ha _].
    rewrite pov_as_pclip, pclip_shift by lra. lra.
  Qed.

  Lemma pclip_step P x0 x1 z z' :
    0 < P -> x0 <= x1 -> x1 - x0 <= P ->
    x0 - P / 2 <= z <= x0 + 3 * P / 2 -> x0 - P / 2 <= z' <= x0 + P / 2 ->
    (z' = z - 2 * P \/ z' = z - P \/ z' = z \/ z' = z + P) ->
    pclip P x0 x1 z' - pclip P x0 x1 z = (z' - z) / P * (x1 - x0).
  Proof.
    intros HP Hx Hw Hz Hz' [E|[E|[E|E]]].
    - pose proof (pclip_shift P x0 x1 z' HP Hx Hw Hz') as S1.
      pose proof (pclip_shift P x0 x1 (z' + P) HP Hx Hw ltac:(lra)) as S2.
      replace (z' + P + P) with z in S2 by lra.
      replace ((z' - z) / P) with (-2) by (subst z'; field; lra). lra.
    - pose proof (pclip_shift P x0 x1 z' HP Hx Hw Hz') as S1.
      replace (z' + P) with z in S1 by lra.
      replace ((z' - z) / P) with (-1) by (subst z'; field; lra). lra.
    - subst z'. replace ((z - z) / P) with 0 by (field; lra). lra.
    - pose proof (pclip_shift P x0 x1 z HP Hx Hw ltac:(lra)) as S1.
      rewrite <- E in S1.
      replace ((z' - z) / P) with 1 by (subst z'; field; lra). lra.
  Qed.

  (** a periodic chain of cells: consecutive cells share an end point up to one
      period, the widths add up to the period *)
  Definition per_chain (P : R) (m : nat) (lo up : nat -> R) : Prop :=
    (forall j, (j < m)%nat -> lo j <= up j /\ up j - lo j <= P) /\
    (forall j, (j < m)%nat -> lo (nxt m j) = up j \/ lo (nxt m j) = up j - P) /\
    sumn m (fun j => up j - lo j) = P.

  (** the overlaps with the cells of a chain are differences of [pclip] at the
      aligned end points; from one cell to the next [pclip] moves by a multiple of
      the width x1 - x0, and around the circle these multiples add up to -1 *)
  Theorem periodic_row_total_R P x0 x1 m (lo up : nat -> R) :
    0 < P -> x0 <= x1 -> x1 - x0 <= P ->
    per_chain P m lo up ->
    (forall j, (j < m)%nat -> - (3 * P / 2) < lo j - x0 < 3 * P / 2) ->
    sumn m (fun j => per_overlap P x0 x1 (lo j) (up j)) = x1 - x0.
  Proof.
    intros HP Hx Hwx (Hcell & Hnext & Hsum) Hrng.
    set (a := fun j => align_phase (lo j) x0 P).
    set (w := fun j => up j - lo j).
    apply (cyclic_telescope m _ (fun j => pclip P x0 x1 (a j + w j)) (fun j => pclip P x0 x1 (a j)) a w P).
    - cbn. lra.
    - exact Hsum.
    - intros j Hj. destruct (Hcell j Hj) as [C1 C2].
      replace (up j) with (lo j + w j) by (unfold w; lra).
      unfold a. apply pov_as_pclip; auto. unfold w; lra.
    - intros j Hj. destruct (Hcell j Hj) as [C1 C2].
      destruct (align_R P (lo j) x0 HP (Hrng j Hj)) as [A1 A2].
      destruct (align_R P (lo (nxt m j)) x0 HP (Hrng _ (nxt_lt m j Hj))) as [B1 B2].
      fold (a j) in A1, A2. fold (a (nxt m j)) in B1, B2. cbn [fadd fsub fmul fdiv ROps].
      apply pclip_step; auto.
      + unfold w. lra.
      + unfold w. destruct (Hnext j Hj) as [N|N]; rewrite N in B2; lra.
  Qed.

  (** points reduced mod P that advance cyclically by steps [g j] in (0, P/2)
      and go around exactly once *)
  Definition cyclic_points (P : R) (n : nat) (p g : nat -> R) : Prop :=
    (0 < n)%nat /\
    (forall j, (j < n)%nat -> 0 <= p j < P) /\
    (forall j, (j < n)%nat -> 0 < g j < P / 2) /\
    (forall j, (j < n)%nat -> p (nxt n j) = p j + g j \/ p (nxt n j) = p j + g j - P) /\
    @sumn R ROps n g = P.

  Section Cells.
    Variables (P : R) (n : nat) (p g : nat -> R).
    Hypothesis HP : 0 < P.
    Hypothesis Hcyc : cyclic_points P n p g.

    Let lo := per_lower n P p.
    Let up := per_upper n P p.

    Lemma upper_eq j : (j < n)%nat -> up j = p j + g j / 2.
    Proof.
      destruct Hcyc as (Hn & Hp & Hg & Hstep & Hsum). intros Hj.
      unfold up, per_upper, roll_m1. rewrite (nxt_mod n j Hj). pose proof (Hg j Hj) as G.
      destruct (align_near P (p j + g j) (p j) HP ltac:(lra)) as (A1 & A2 & _).
      destruct (Hstep j Hj) as [E|E]; rewrite E; [rewrite A1|rewrite A2]; unfold two; cbn; lra.
    Qed.

    Lemma lower_next_eq j : (j < n)%nat -> lo (nxt n j) = p (nxt n j) - g j / 2.
    Proof.
      destruct Hcyc as (Hn & Hp & Hg & Hstep & Hsum). intros Hj.
      unfold lo, per_lower, roll_p1. rewrite (prv_mod n (nxt n j) (nxt_lt n j Hj)).
      rewrite (prv_nxt n j Hj). pose proof (Hg j Hj) as G.
      set (t := p (nxt n j)).
      destruct (align_near P (t - g j) t HP ltac:(lra)) as (A1 & _ & A3).
      destruct (Hstep j Hj) as [E|E]; fold t in E.
      - replace (p j) with (t - g j) by lra. rewrite A1. unfold two; cbn; lra.
      - replace (p j) with (t - g j + P) by lra. rewrite A3. unfold two; cbn; lra.
    Qed.

    Lemma lower_eq j : (j < n)%nat -> lo j = p j - g (prv n j) / 2.
    Proof.
      intros Hj. pose proof (lower_next_eq (prv n j) (prv_lt n j Hj)) as E.
      now rewrite (nxt_prv n j Hj) in E.
    Qed.

    Lemma cell_facts j : (j < n)%nat ->
      lo j < up j /\ up j - lo j < P / 2 /\ - (P / 4) < lo j < P.
    Proof.
      destruct Hcyc as (Hn & Hp & Hg & Hstep & Hsum). intros Hj.
      rewrite (upper_eq j Hj), (lower_eq j Hj).
      pose proof (Hg j Hj). pose proof (Hg (prv n j) (prv_lt n j Hj)). pose proof (Hp j Hj). lra.
    Qed.

    Lemma cells_chain : per_chain P n lo up.
    Proof.
      pose proof Hcyc as (Hn & Hp & Hg & Hstep & Hsum).
      split; [|split].
      - intros j Hj. destruct (cell_facts j Hj) as (C1 & C2 & _). lra.
      - intros j Hj. rewrite (lower_next_eq j Hj), (upper_eq j Hj).
        destruct (Hstep j Hj) as [E|E]; rewrite E; [left|right]; lra.
      - rewrite (sumn_ext n _ (fun j => g j / 2 + g (prv n j) / 2)).
        2:{ intros j Hj. cbv beta. rewrite (upper_eq j Hj), (lower_eq j Hj). cbn. lra. }
        transitivity (sumn n (fun j => g j / 2) + sumn n (fun j => g j / 2));
          [exact (sumn_add_prv n (fun j => g j / 2))|].
        assert (E : sumn n (fun j => g j / 2) = sumn n g / 2) by exact (sumn_scal_r n (/ 2) g).
        rewrite E, Hsum. lra.
    Qed.
  End Cells.

  Lemma lon_row_total_R P n m (tp gt sp gs : nat -> R) i :
    0 < P -> cyclic_points P n tp gt -> cyclic_points P m sp gs -> (i < n)%nat ->
    row_total m (lon_overlap P n m tp sp) i = cell_width n P tp i /\ 0 < cell_width n P tp i.
  Proof.
    intros HP Ht Hs Hi. destruct (cell_facts P n tp gt HP Ht i Hi) as (T1 & T2 & T3).
    unfold row_total, lon_overlap, cell_width. cbn [fsub ROps]. split; [|lra].
    apply periodic_row_total_R; try lra.
    - now apply (cells_chain P m sp gs).
    - intros j Hj. destruct (cell_facts P m sp gs HP Hs j Hj) as (S1 & S2 & S3). lra.
  Qed.

  Theorem lon_partition_R P n m (tp gt sp gs : nat -> R) :
    0 < P -> cyclic_points P n tp gt -> cyclic_points P m sp gs ->
    lon_partition P n m tp sp.
  Proof.
    intros HP Ht Hs. split.
    - intros i Hi. now apply (lon_row_total_R P n m tp gt sp gs).
    - intros j Hj. rewrite <- (proj1 (lon_row_total_R P m n sp gs tp gt j HP Hs Ht Hj)).
      apply sumn_ext. intros i Hi. apply pov_sym_R; [exact HP|].
      destruct (cell_facts P n tp gt HP Ht i Hi) as (T1 & T2 & T3).
      destruct (cell_facts P m sp gs HP Hs j Hj) as (S1 & S2 & S3). lra.
  Qed.

  Lemma IZR_small (z : Z) P : 0 < P -> - (3 * P / 2) < IZR z * P < P -> z = 0%Z \/ z = (-1)%Z.
  Proof.
    intros HP [H1 H2].
    destruct (Z_lt_le_dec z (-1)) as [L|L].
    - exfalso. assert (z <= -2)%Z by lia. apply IZR_le in H. nra.
    - destruct (Z_lt_le_dec 0 z) as [G|G].
      + exfalso. assert (1 <= z)%Z by lia. apply IZR_le in H. nra.
      + lia.
  Qed.

  (** one step between two residues: the quotient changes by 0 or 1 *)
  Lemma mod_step P u v g (z : Z) :
    0 < P -> 0 <= u < P -> 0 <= v < P -> 0 < g < P / 2 -> v = u + g - IZR z * P ->
    v = u + g \/ v = u + g - P.
  Proof.
    intros HP Hu Hv Hg E. destruct (IZR_small (- z) P HP) as [Z|Z].
    - rewrite opp_IZR. lra.
    - left. replace z with 0%Z in E by lia. lra.
    - right. replace z with 1%Z in E by lia. lra.
  Qed.

  Definition gaps (P : R) (n : nat) (x : nat -> R) (j : nat) : R :=
    if Nat.eqb (S j) n then x 0%nat + P - x (n - 1)%nat else x (S j) - x j.

  (** strictly increasing longitudes with all cyclic gaps in (0, P/2), reduced
      mod P with validated quotients, are cyclic points *)
  Theorem cyclic_points_of_increasing P n (x : nat -> R) (k : nat -> Z) :
    0 < P -> (0 < n)%nat ->
    (forall j, (j < n)%nat -> 0 < gaps P n x j < P / 2) ->
    (forall j, (j < n)%nat -> 0 <= x j - IZR (k j) * P < P) ->
    cyclic_points P n (fun j => pmod P (k j) (x j)) (gaps P n x).
  Proof.
    intros HP Hn Hg Hk.
    assert (Ep : forall j, pmod P (k j) (x j) = x j - IZR (k j) * P) by reflexivity.
    split; [exact Hn|split; [|split; [exact Hg|split]]].
    - intros j Hj. rewrite Ep. now apply Hk.
    - intros j Hj. rewrite !Ep. pose proof (Hg j Hj) as G. pose proof (Hk j Hj) as Kj.
      unfold gaps in *. unfold nxt. destruct (Nat.eqb_spec (S j) n) as [E|E].
      + replace (n - 1)%nat with j in * by lia.
        apply (mod_step P _ _ _ (k 0%nat - k j + 1)%Z HP Kj (Hk 0%nat Hn) G).
        rewrite plus_IZR, minus_IZR. lra.
      + apply (mod_step P _ _ _ (k (S j) - k j)%Z HP Kj (Hk (S j) ltac:(lia)) G).
        rewrite minus_IZR. lra.
    - destruct n as [|q]; [lia|]. cbn [sumn].
      rewrite (sumn_ext q (gaps P (S q) x) (fun j => x (S j) - x j)).
      2:{ intros j Hj. unfold gaps. destruct (Nat.eqb_spec (S j) (S q)); [lia|reflexivity]. }
      assert (T : sumn q (fun j => x (S j) - x j) = x q - x 0%nat) by exact (sumn_telescope q x).
      rewrite T.
      unfold gaps. rewrite Nat.eqb_refl. replace (S q - 1)%nat with q by lia. cbn. lra.
  Qed.

  Theorem longitude_rows_R P n m (tp gt sp gs : nat -> R) i :
    0 < P -> cyclic_points P n tp gt -> cyclic_points P m sp gs -> (i < n)%nat ->
    row_total m (lon_overlap P n m tp sp) i = cell_width n P tp i /\
    0 < cell_width n P tp i /\
    (forall j, (j < m)%nat -> 0 <= lon_weights P n m tp sp i j) /\
    sumn m (lon_weights P n m tp sp i) = 1 /\
    (forall c, apply_weights m (lon_weights P n m tp sp) (fun _ => c) i = c) /\
    (forall x lo hi, (forall j, (j < m)%nat -> lo <= x j <= hi) ->
        lo <= apply_weights m (lon_weights P n m tp sp) x i <= hi).
  Proof.
    intros HP Ht Hs Hi.
    destruct (lon_row_total_R P n m tp gt sp gs i HP Ht Hs Hi) as [Hrow W].
    assert (Hnz : row_total m (lon_overlap P n m tp sp) i <> 0) by (rewrite Hrow; lra).
    destruct (normalized_row m _ i (fun j _ => lon_overlap_nonneg P n m tp sp i j) Hnz) as (R1 & R2 & R3 & R4).
    split; [exact Hrow|split; [exact W|split; [|split; [exact R2|split; [exact R3|]]]]].
    - intros j Hj. apply fle_R. now apply R1.
    - intros x lo hi Hx.
      destruct (R4 x lo hi) as [L U].
      + intros j Hj. destruct (Hx j Hj). split; now apply fle_R.
      + split; now apply fle_R.
  Qed.

  Theorem horizontal_integral_conserved_R
          P na nb (tp gt sp gs : nat -> R) nc nd (tb sb st ss : nat -> R) (f : nat -> nat -> R) :
    0 < P -> cyclic_points P na tp gt -> cyclic_points P nb sp gs ->
    sin_mono nc nd tb sb st ss ->
    (forall c, (c < nc)%nat -> flt (st c) (st (S c))) ->
    (forall d, (d < nd)%nat -> fle (ss d) (ss (S d))) ->
    st 0%nat = ss 0%nat -> st nc = ss nd ->
    sumn na (fun a => sumn nc (fun c =>
        cell_width na P tp a * (st (S c) - st c) *
        mean2 nb nd (lon_weights P na nb tp sp) (normalize_rows nd (lat_overlap tb sb st ss)) f a c))
    = sumn nb (fun b => sumn nd (fun d => cell_width nb P sp b * (ss (S d) - ss d) * f b d)).
  Proof.
    intros HP Ht Hs Hm Hst Hss E0 E1.
    apply (horizontal_integral_conserved_partial (Oc := ROrd) P na nb tp sp nc nd tb sb st ss f); auto.
    - now apply (lon_partition_R P na nb tp gt sp gs).
    - intros a Ha. destruct (lon_row_total_R P na nb tp gt sp gs a HP Ht Hs Ha) as [_ W].
      cbn [f0 ROps]. lra.
  Qed.
End PeriodicPartitionR.
