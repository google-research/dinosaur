(** Concrete fields satisfying [FieldC]: the canonical rationals [Qc]
    (axiom-free, computable: used for non-vacuity examples) and Coq's real
    numbers [R] (statements "over the reals"). *)
From Dino Require Import Base.Ops.
From Coq Require Import Qcanon Reals RealField.

#[export] Instance QcOps : Ops Qc := {|
  f0 := Q2Qc 0; f1 := Q2Qc 1;
  fadd := Qcplus; fmul := Qcmult; fsub := Qcminus; fopp := Qcopp;
  fdiv := Qcdiv; finv := Qcinv;
  fofZ z := Q2Qc (inject_Z z);
  fleb x y := Qle_bool x y; feqb x y := Qeq_bool x y |}.

#[export] Instance QcField : FieldC QcOps.
Proof. exact Qcft. Qed.

Definition Rleb (x y : R) : bool := if Rle_dec x y then true else false.
Definition Reqb (x y : R) : bool := if Req_EM_T x y then true else false.

#[export] Instance ROps : Ops R := {|
  f0 := 0%R; f1 := 1%R;
  fadd := Rplus; fmul := Rmult; fsub := Rminus; fopp := Ropp;
  fdiv := Rdiv; finv := Rinv;
  fofZ := IZR;
  fleb := Rleb; feqb := Reqb |}.

#[export] Instance RFieldC : FieldC ROps.
Proof. exact Rfield. Qed.

Lemma Rleb_true x y : Rleb x y = true <-> (x <= y)%R.
Proof. unfold Rleb. destruct (Rle_dec x y); split; intros; auto; discriminate. Qed.
Lemma Rleb_false x y : Rleb x y = false <-> (y < x)%R.
Proof.
  unfold Rleb. destruct (Rle_dec x y); split; intros; try discriminate; auto.
  - exfalso. apply (Rlt_irrefl x). eapply Rle_lt_trans; eauto.
  - now apply Rnot_le_lt.
Qed.
