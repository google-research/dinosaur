(** Finite sums over index functions, carrier-generic; with the few facts about lists and [Nat.iter] that several theorem files share. *)
From Dino Require Import Base.Ops.
Local Open Scope F_scope.

Section Defs.
  Context {F : Type} {o : Ops F}.

  (** [sumn n f] = f 0 + ... + f (n-1) (left fold, like a sequential loop). *)
  Fixpoint sumn (n : nat) (f : nat -> F) : F :=
    match n with O => 0 | S k => sumn k f + f k end.

  (** [sumr a n f] = f a + ... + f (a+n-1). *)
  Definition sumr (a n : nat) (f : nat -> F) : F := sumn n (fun i => f (a + i)%nat).

  (** Materialise an index function as a list (staging for execution). *)
  Definition tab (n : nat) (f : nat -> F) : list F := map f (seq 0 n).
  Definition memo (n : nat) (f : nat -> F) : nat -> F :=
    let l := tab n f in fun i => nth i l 0.
  Definition ofl (l : list F) : nat -> F := fun i => nth i l 0.

  Definition delta (i j : nat) : F := if Nat.eqb i j then 1 else 0.
End Defs.

Lemma nth_map_seq {A} (g : nat -> A) n i d : (i < n)%nat -> nth i (map g (seq 0 n)) d = g i.
Proof.
  intros Hi. rewrite (nth_indep _ d (g 0%nat)) by (now rewrite map_length, seq_length).
  rewrite map_nth, seq_nth; auto.
Qed.

Lemma nth_map_in {A B} (g : A -> B) l i da db :
  (i < length l)%nat -> nth i (map g l) db = g (nth i l da).
Proof. intros Hi. rewrite (nth_indep _ db (g da)) by (now rewrite map_length). apply map_nth. Qed.

Section Iter.
  Context {St : Type}.
  Implicit Types (f : St -> St).

  Lemma iter_S f n x : Nat.iter (S n) f x = f (Nat.iter n f x).
  Proof. reflexivity. Qed.

  Lemma iter_shift f n x : Nat.iter n f (f x) = f (Nat.iter n f x).
  Proof. induction n as [|n IH]; [reflexivity|]. now rewrite !iter_S, IH. Qed.

  Lemma iter_plus f n m x : Nat.iter (n + m) f x = Nat.iter n f (Nat.iter m f x).
  Proof. induction n as [|n IH]; [reflexivity|]. change (S n + m)%nat with (S (n + m)). now rewrite !iter_S, IH. Qed.

  Lemma iter_mult f k n x : Nat.iter (k * n) f x = Nat.iter k (Nat.iter n f) x.
  Proof.
    induction k as [|k IH]; [reflexivity|].
    change (S k * n)%nat with (n + k * n)%nat. rewrite iter_plus, IH. reflexivity.
  Qed.

  Lemma iter_ext f g n x : (forall c, f c = g c) -> Nat.iter n f x = Nat.iter n g x.
  Proof. intros H. induction n as [|n IH]; [reflexivity|]. now rewrite !iter_S, IH, H. Qed.

  Lemma iter_fixed f n x : f x = x -> Nat.iter n f x = x.
  Proof. intros H. induction n as [|n IH]; [reflexivity|]. now rewrite iter_S, IH. Qed.
End Iter.

Section Lemmas.
  Context {F : Type} {o : Ops F} {Fc : FieldC o}.
  Add Field FF : (field_c : FieldTh o).

  Lemma tab_length n (f : nat -> F) : length (tab n f) = n.
  Proof. unfold tab. now rewrite map_length, seq_length. Qed.

  Lemma tab_nth n (f : nat -> F) i d : (i < n)%nat -> nth i (tab n f) d = f i.
  Proof. apply nth_map_seq. Qed.

  Lemma memo_ok n (f : nat -> F) i : (i < n)%nat -> memo n f i = f i.
  Proof. intros; unfold memo; now apply tab_nth. Qed.

  Lemma memo_out n (f : nat -> F) i : (n <= i)%nat -> memo n f i = 0.
  Proof. intros; unfold memo. apply nth_overflow. now rewrite tab_length. Qed.

  Lemma sumn_ext n (f g : nat -> F) :
    (forall i, (i < n)%nat -> f i = g i) -> sumn n f = sumn n g.
  Proof.
    induction n as [|n IH]; intros H; cbn; [reflexivity|].
    rewrite IH, H; auto.
  Qed.

  Lemma sumn_zero n (f : nat -> F) : (forall i, (i < n)%nat -> f i = 0) -> sumn n f = 0.
  Proof.
    induction n as [|n IH]; intros H; cbn; [reflexivity|].
    rewrite IH, H; auto. ring.
  Qed.

  Lemma sumn_const0 n : sumn n (fun _ => 0) = 0.
  Proof. apply sumn_zero; auto. Qed.

  Lemma sumn_tab n (f : nat -> F) : sumn n (ofl (tab n f)) = sumn n f.
  Proof. apply sumn_ext. intros i Hi. unfold ofl. now apply tab_nth. Qed.

  Lemma sumn_add n (f g : nat -> F) : sumn n (fun i => f i + g i) = sumn n f + sumn n g.
  Proof. induction n as [|n IH]; cbn; [ring|]. rewrite IH. ring. Qed.

  Lemma sumn_sub n (f g : nat -> F) : sumn n (fun i => f i - g i) = sumn n f - sumn n g.
  Proof. induction n as [|n IH]; cbn; [ring|]. rewrite IH. ring. Qed.

  Lemma sumn_opp n (f : nat -> F) : sumn n (fun i => - f i) = - sumn n f.
  Proof. induction n as [|n IH]; cbn; [ring|]. rewrite IH. ring. Qed.

  Lemma sumn_scal_l n c (f : nat -> F) : sumn n (fun i => c * f i) = c * sumn n f.
  Proof. induction n as [|n IH]; cbn; [ring|]. rewrite IH. ring. Qed.

  Lemma sumn_scal_r n c (f : nat -> F) : sumn n (fun i => f i * c) = sumn n f * c.
  Proof. induction n as [|n IH]; cbn; [ring|]. rewrite IH. ring. Qed.

  Lemma sumn_exchange n m (f : nat -> nat -> F) :
    sumn n (fun i => sumn m (fun j => f i j)) = sumn m (fun j => sumn n (fun i => f i j)).
  Proof.
    induction n as [|n IH]; cbn.
    - now rewrite sumn_const0.
    - rewrite IH. now rewrite <- sumn_add.
  Qed.

  Lemma sumn4_exchange n m k q (g : nat -> nat -> nat -> nat -> F) :
    sumn n (fun i => sumn m (fun j => sumn k (fun a => sumn q (fun l => g i j a l))))
    = sumn k (fun a => sumn q (fun l => sumn n (fun i => sumn m (fun j => g i j a l)))).
  Proof.
    transitivity (sumn n (fun i => sumn k (fun a => sumn m (fun j => sumn q (fun l => g i j a l))))).
    { apply sumn_ext; intros i _.
      apply (sumn_exchange m k (fun j a => sumn q (fun l => g i j a l))). }
    rewrite (sumn_exchange n k (fun i a => sumn m (fun j => sumn q (fun l => g i j a l)))).
    apply sumn_ext; intros a _.
    transitivity (sumn n (fun i => sumn q (fun l => sumn m (fun j => g i j a l)))).
    { apply sumn_ext; intros i _. apply (sumn_exchange m q (fun j l => g i j a l)). }
    apply (sumn_exchange n q (fun i l => sumn m (fun j => g i j a l))).
  Qed.

  Lemma sumn_split n m (f : nat -> F) :
    sumn (n + m) f = sumn n f + sumn m (fun i => f (n + i)%nat).
  Proof.
    induction m as [|m IH].
    - rewrite Nat.add_0_r. cbn. ring.
    - rewrite Nat.add_succ_r. cbn. rewrite IH. ring.
  Qed.

  Lemma sumn_S_first n (f : nat -> F) :
    sumn (S n) f = f 0%nat + sumn n (fun i => f (S i)).
  Proof.
    change (S n) with (1 + n)%nat. rewrite sumn_split. cbn. ring.
  Qed.

  Lemma sumn_rev n (f : nat -> F) : sumn n f = sumn n (fun i => f (n - 1 - i)%nat).
  Proof.
    revert f; induction n as [|n IH]; intros f; [reflexivity|].
    rewrite (sumn_S_first n (fun i => f (S n - 1 - i)%nat)).
    change (sumn (S n) f) with (sumn n f + f n).
    rewrite (IH f).
    replace (S n - 1 - 0)%nat with n by lia.
    rewrite (sumn_ext n (fun i => f (S n - 1 - S i)%nat) (fun i => f (n - 1 - i)%nat)).
    - ring.
    - intros i Hi. f_equal. lia.
  Qed.

  Lemma sumn_trunc n n' (g : nat -> F) :
    (n <= n')%nat -> (forall i, (n <= i)%nat -> (i < n')%nat -> g i = 0) -> sumn n' g = sumn n g.
  Proof.
    intros Hn Hz. replace n' with (n + (n' - n))%nat by lia. rewrite sumn_split.
    rewrite (sumn_zero (n' - n)). { ring. }
    intros i Hi. apply Hz; lia.
  Qed.

  Lemma sumn_prefix_mask n k (f : nat -> F) :
    (k <= n)%nat ->
    sumn n (fun i => if Nat.ltb i k then f i else 0) = sumn k f.
  Proof.
    intros Hk. rewrite (sumn_trunc k n _ Hk) by (intros i Hi _; destruct (Nat.ltb_spec i k); [lia|reflexivity]).
    apply sumn_ext. intros i Hi. destruct (Nat.ltb_spec i k); [reflexivity|lia].
  Qed.

  Lemma sumn_telescope n (g : nat -> F) :
    sumn n (fun i => g (S i) - g i) = g n - g 0%nat.
  Proof. induction n as [|n IH]; cbn; [ring|]. rewrite IH. ring. Qed.

  Lemma sumn_delta_l n k (f : nat -> F) :
    (k < n)%nat -> sumn n (fun i => delta k i * f i) = f k.
  Proof.
    induction n as [|n IH]; intros Hk; [lia|]. cbn.
    destruct (Nat.eq_dec k n) as [->|Hne].
    - rewrite sumn_zero.
      + unfold delta. rewrite Nat.eqb_refl. ring.
      + intros i Hi. unfold delta. destruct (Nat.eqb_spec n i); [lia|ring].
    - rewrite IH by lia. unfold delta. destruct (Nat.eqb_spec k n); [lia|ring].
  Qed.

  Lemma sumn_delta_out n k (f : nat -> F) :
    (n <= k)%nat -> sumn n (fun i => delta k i * f i) = 0.
  Proof.
    intros Hk. apply sumn_zero. intros i Hi. unfold delta.
    destruct (Nat.eqb_spec k i); [lia|ring].
  Qed.

  Lemma sumn_shift1 n (g : nat -> F) : sumn n (fun i => g ((i + 1) mod n)%nat) = sumn n g.
  Proof.
    destruct n as [|m]; [reflexivity|]. rewrite (sumn_S_first m g). cbn [sumn].
    rewrite (sumn_ext m _ (fun i => g (S i))) by (intros i Hi; f_equal; rewrite Nat.mod_small; lia).
    replace ((m + 1) mod S m)%nat with 0%nat by (rewrite Nat.add_1_r, Nat.mod_same; lia). ring.
  Qed.

  Lemma sumn_cyclic_shift n k (g : nat -> F) :
    sumn n (fun i => g ((i + k) mod n)%nat) = sumn n g.
  Proof.
    destruct (Nat.eq_dec n 0) as [->|Hn]; [reflexivity|].
    induction k as [|k IH].
    - apply sumn_ext; intros i Hi. f_equal. rewrite Nat.add_0_r. now apply Nat.mod_small.
    - rewrite <- IH, <- (sumn_shift1 n (fun j => g ((j + k) mod n)%nat)).
      apply sumn_ext; intros i Hi. f_equal. rewrite Nat.add_mod_idemp_l by assumption. f_equal. lia.
  Qed.

  Lemma sumn_blocks n c (f : nat -> F) :
    sumn (n * c) f = sumn n (fun q => sumn c (fun j => f (q * c + j)%nat)).
  Proof.
    induction n as [|n IH]; [reflexivity|].
    rewrite Nat.mul_succ_l, sumn_split, IH. reflexivity.
  Qed.

  (** a sum over the triangle i + j < n, by rows and by anti-diagonals *)
  Lemma sumn_triangle n (t : nat -> nat -> F) :
    sumn n (fun i => sumn (n - i) (t i)) = sumn n (fun k => sumn (S k) (fun i => t i (k - i)%nat)).
  Proof.
    induction n as [|n IH]; [reflexivity|]. cbn [sumn] in *. rewrite <- IH.
    rewrite (sumn_ext n (fun i => sumn (S n - i) (t i)) (fun i => sumn (n - i) (t i) + t i (n - i)%nat))
      by (intros i Hi; replace (S n - i)%nat with (S (n - i)) by lia; reflexivity).
    rewrite sumn_add. replace (S n - n)%nat with 1%nat by lia. cbn [sumn]. rewrite Nat.sub_diag. ring.
  Qed.

  Lemma sumn_pairs_even n (g : nat -> F) :
    sumn (2 * n) g = sumn n (fun j => g (2 * j)%nat + g (2 * j + 1)%nat).
  Proof.
    induction n as [|n IH]; [reflexivity|].
    replace (2 * S n)%nat with (S (S (2 * n))) by lia.
    cbn [sumn]. rewrite IH. replace (2 * n + 1)%nat with (S (2 * n)) by lia. ring.
  Qed.

  Lemma sumn_pairs_odd n (g : nat -> F) :
    sumn (2 * n + 1) g = g 0%nat + sumn n (fun j => g (2 * j + 1)%nat + g (2 * j + 2)%nat).
  Proof.
    induction n as [|n IH]; [cbn; ring|].
    replace (2 * S n + 1)%nat with (S (S (2 * n + 1))) by lia.
    cbn [sumn]. rewrite IH.
    replace (2 * n + 2)%nat with (S (2 * n + 1)) by lia. ring.
  Qed.
End Lemmas.
