(** Facts that hold in every field: quotients, non-zero elements (the theorem files
    use them for the side conditions of [field]), the units 1 and -1. *)
From Dino Require Import Base.Ops.
Local Open Scope F_scope.

Section Field.
  Context {F : Type} {o : Ops F} {Fc : FieldC o}.
  Add Field FFbase : (field_c : FieldTh o).

  Lemma fdiv_mul (x y : F) : x / y = x * finv y.
  Proof. exact (Fdiv_def field_c x y). Qed.

  Lemma fdiv0 (x : F) : 0 / x = 0.
  Proof. rewrite fdiv_mul. ring. Qed.

  Lemma fdiv_assoc (a b c : F) : a * b / c = a * (b / c).
  Proof. rewrite !fdiv_mul. ring. Qed.

  Lemma eq_of_sub_zero (x y : F) : x - y = 0 -> x = y.
  Proof. intros H. transitivity ((x - y) + y); [ring|rewrite H; ring]. Qed.

  Lemma f1_nz : (1 : F) <> 0.
  Proof. exact (F_1_neq_0 field_c). Qed.

  Lemma fmul_eq1_nz (x y : F) : x * y = 1 -> x <> 0.
  Proof. intros H E. apply f1_nz. rewrite <- H, E. ring. Qed.

  Lemma fmul_eq1_inv (x y : F) : x * y = 1 -> 1 / x = y.
  Proof.
    intros H. pose proof (fmul_eq1_nz x y H) as Hx.
    transitivity (x * y / x); [now rewrite H | field; exact Hx].
  Qed.

  Lemma fmul_nz (x y : F) : x <> 0 -> y <> 0 -> x * y <> 0.
  Proof.
    intros Hx Hy. apply (fmul_eq1_nz _ (1 / (x * y))). field. now split.
  Qed.

  Lemma fdiv_nz (x y : F) : x <> 0 -> y <> 0 -> x / y <> 0.
  Proof.
    intros Hx Hy. apply (fmul_eq1_nz _ (y / x)). field. now split.
  Qed.

  Lemma fmul_cancel_l (e a b : F) : e <> 0 -> e * a = e * b -> a = b.
  Proof. intros He H. transitivity (e * a / e); [field; exact He|]. rewrite H. field. exact He. Qed.

  Lemma neg1_sq : (- (1)) * (- (1)) = (1 : F).
  Proof. ring. Qed.
  Lemma one_sq : 1 * 1 = (1 : F).
  Proof. ring. Qed.
  Lemma neg1_mul (t : F) : - (1) * t = - t.
  Proof. ring. Qed.
End Field.
