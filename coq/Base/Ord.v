(** Ordered-field interface for the order-dependent models (filters, regridding,
    interpolation, forcings: C15, C16, C17, C20) and for the statements of C03, C11,
    C12, C13 that need an order: boolean tests [fleb]/[feqb] of [Ops] are
    related to a total order compatible with + and *.  Instances: Qc, R. *)
From Dino Require Import Base.Ops Base.Field Base.Sums Base.Inst.
From Coq Require Import Qcanon Reals Lra.
Local Open Scope F_scope.

Section Defs.
  Context {F : Type} {o : Ops F}.
  Definition fle (x y : F) : Prop := fleb x y = true.
  Definition flt (x y : F) : Prop := fleb y x = false.
  Definition fltb (x y : F) : bool := negb (fleb y x).
  Definition fabs (x : F) : F := if fleb 0 x then x else - x.
  Definition fmax (x y : F) : F := if fleb x y then y else x.
  Definition fmin (x y : F) : F := if fleb x y then x else y.
End Defs.

Class OrdFieldC {F} (o : Ops F) : Prop := {
  of_field :> FieldC o;
  fle_refl : forall x, fle x x;
  fle_antisym : forall x y, fle x y -> fle y x -> x = y;
  fle_trans : forall x y z, fle x y -> fle y z -> fle x z;
  fle_total : forall x y, fle x y \/ fle y x;
  fle_add : forall x y z, fle x y -> fle (x + z) (y + z);
  fle_mul_pos : forall x y, fle 0 x -> fle 0 y -> fle 0 (x * y);
  feqb_spec : forall x y : F, feqb x y = true <-> x = y;
  f01 : (0:F) <> 1 }.

Lemma chain_rel {A} (R : A -> A -> Prop) (s : nat -> A) m :
  (forall x y z, R x y -> R y z -> R x z) ->
  (forall j, (j < m)%nat -> R (s j) (s (S j))) ->
  forall i j, (i < j)%nat -> (j <= m)%nat -> R (s i) (s j).
Proof.
  intros Ht H i j Hij Hj. induction j as [|j IH]; [lia|].
  destruct (Nat.eq_dec i j) as [->|Hne]; [apply H; lia|].
  apply Ht with (s j); [apply IH; lia|apply H; lia].
Qed.

Section Lemmas.
  Context {F : Type} {o : Ops F} {Oc : OrdFieldC o}.
  Add Field FFo : (field_c : FieldTh o).

  Lemma fle_eq x y : x = y -> fle x y.
  Proof. intros ->. apply fle_refl. Qed.

  Lemma flt_iff x y : flt x y <-> ~ fle y x.
  Proof. unfold flt, fle. destruct (fleb y x); split; intros; try discriminate; auto. now exfalso. Qed.
  Lemma fle_flt_false x y : fle x y -> flt y x -> False.
  Proof. intros H1 H2. apply (proj1 (flt_iff _ _) H2). exact H1. Qed.
  Lemma fle_or_lt x y : fle x y \/ flt y x.
  Proof. unfold fle, flt. destruct (fleb x y); auto. Qed.
  Lemma fltb_true x y : fltb x y = true <-> flt x y.
  Proof. unfold fltb, flt. destruct (fleb y x); cbn; split; intros; try discriminate; auto. Qed.
  Lemma fltb_false_le x y : fltb x y = false <-> fle y x.
  Proof. unfold fltb, fle. destruct (fleb y x); cbn; split; intros; auto; discriminate. Qed.

  Lemma flt_le x y : flt x y -> fle x y.
  Proof. intros H. apply flt_iff in H. destruct (fle_total x y); tauto. Qed.
  Lemma flt_neq x y : flt x y -> x <> y.
  Proof. intros H E. subst. apply flt_iff in H. apply H, fle_refl. Qed.
  Lemma flt_irrefl x : ~ flt x x.
  Proof. intro H. now apply (flt_neq x x). Qed.
  Lemma fpos_neq0 x : flt 0 x -> x <> 0.
  Proof. intros H E. now apply (flt_neq 0 x). Qed.
  Lemma fle_lt_or_eq x y : fle x y -> flt x y \/ x = y.
  Proof.
    intros H. destruct (fleb y x) eqn:E.
    - right. now apply fle_antisym.
    - now left.
  Qed.
  Lemma fle_neq_lt x y : fle x y -> x <> y -> flt x y.
  Proof. intros H N. destruct (fle_lt_or_eq x y H); [assumption|contradiction]. Qed.
  Lemma fle_nz_pos x : fle 0 x -> x <> 0 -> flt 0 x.
  Proof. intros H N. apply fle_neq_lt; [exact H|]. intros E. now apply N. Qed.

  Lemma flt_le_trans x y z : flt x y -> fle y z -> flt x z.
  Proof. intros H1 H2. apply flt_iff. intro H3. apply flt_iff in H1. apply H1. eapply fle_trans; eauto. Qed.
  Lemma fle_lt_trans x y z : fle x y -> flt y z -> flt x z.
  Proof. intros H1 H2. apply flt_iff. intro H3. apply flt_iff in H2. apply H2. eapply fle_trans; eauto. Qed.
  Lemma flt_trans x y z : flt x y -> flt y z -> flt x z.
  Proof. intros H1 H2. eapply flt_le_trans; eauto using flt_le. Qed.

  Lemma chain_le (s : nat -> F) m :
    (forall j, (j < m)%nat -> fle (s j) (s (S j))) ->
    forall i j, (i <= j)%nat -> (j <= m)%nat -> fle (s i) (s j).
  Proof.
    intros H i j Hij Hj. destruct (Nat.eq_dec i j) as [->|Hne]; [apply fle_refl|].
    apply (chain_rel fle s m fle_trans H); lia.
  Qed.
  Lemma chain_lt (s : nat -> F) m :
    (forall j, (j < m)%nat -> flt (s j) (s (S j))) ->
    forall i j, (i < j)%nat -> (j <= m)%nat -> flt (s i) (s j).
  Proof. exact (chain_rel flt s m flt_trans). Qed.

  Lemma fle_sub_1 x y : fle x y -> fle 0 (y - x).
  Proof.
    intros H. replace 0 with (x + (- x)) by ring. replace (y - x) with (y + (- x)) by ring. now apply fle_add.
  Qed.
  Lemma fle_sub_2 x y : fle 0 (y - x) -> fle x y.
  Proof.
    intros H. replace x with (0 + x) by ring. replace y with ((y - x) + x) by ring. now apply fle_add.
  Qed.
  Lemma fle_sub_nonpos x y : fle x y -> fle (x - y) 0.
  Proof.
    intros H. apply fle_sub_2. replace (0 - (x - y)) with (y - x) by ring. now apply fle_sub_1.
  Qed.
  Lemma fle_add2 a b c d : fle a b -> fle c d -> fle (a + c) (b + d).
  Proof.
    intros H1 H2. eapply fle_trans; [apply fle_add; eassumption|].
    replace (b + c) with (c + b) by ring. replace (b + d) with (d + b) by ring. now apply fle_add.
  Qed.
  Lemma fle_0_add p q : fle 0 p -> fle 0 q -> fle 0 (p + q).
  Proof.
    intros Hp Hq. pose proof (fle_add2 0 p 0 q Hp Hq) as H.
    replace (0 + 0) with (0 : F) in H by ring. exact H.
  Qed.
  Lemma fle_add_r x y : fle 0 y -> fle x (x + y).
  Proof. intros H. apply fle_sub_2. replace (x + y - x) with y by ring. exact H. Qed.
  Lemma fle_opp x y : fle x y -> fle (- y) (- x).
  Proof. intros H. apply fle_sub_2. replace (- x - - y) with (y - x) by ring. now apply fle_sub_1. Qed.
  Lemma fle_opp_0 x : fle 0 x -> fle (- x) 0.
  Proof. intros H. replace 0 with (- 0) by ring. now apply fle_opp. Qed.
  Lemma fle_0_opp x : fle x 0 -> fle 0 (- x).
  Proof. intros H. replace 0 with (- 0) by ring. now apply fle_opp. Qed.
  Lemma flt_add x y z : flt x y -> flt (x + z) (y + z).
  Proof.
    intros H. apply flt_iff. intro H2. apply flt_iff in H. apply H.
    replace y with ((y + z) + (- z)) by ring. replace x with ((x + z) + (- z)) by ring. now apply fle_add.
  Qed.
  Lemma flt_sub x y : flt x y <-> flt 0 (y - x).
  Proof.
    split; intros H.
    - replace 0 with (x + - x) by ring. replace (y - x) with (y + - x) by ring. now apply flt_add.
    - replace x with (0 + x) by ring. replace y with ((y - x) + x) by ring. now apply flt_add.
  Qed.
  Lemma flt_sub_pos x y : flt x y -> flt 0 (y - x).
  Proof. apply flt_sub. Qed.
  Lemma fleb_add x y z : fleb (x + z) (y + z) = fleb x y.
  Proof.
    destruct (fleb x y) eqn:E; [exact (fle_add x y z E)|exact (flt_add y x z E)].
  Qed.

  Lemma fle_mul_l c x y : fle 0 c -> fle x y -> fle (c * x) (c * y).
  Proof.
    intros Hc H. apply fle_sub_2. replace (c * y - c * x) with (c * (y - x)) by ring.
    apply fle_mul_pos; auto. now apply fle_sub_1.
  Qed.
  Lemma fmul_le_mono a b c d : fle 0 a -> fle a b -> fle 0 c -> fle c d -> fle (a * c) (b * d).
  Proof.
    intros Ha Hab Hc Hcd.
    apply (fle_trans _ (b * c)).
    - replace (a * c) with (c * a) by ring. replace (b * c) with (c * b) by ring. now apply fle_mul_l.
    - apply fle_mul_l; [|assumption]. apply (fle_trans 0 a b); assumption.
  Qed.
  Lemma fle_sq x : fle 0 (x * x).
  Proof.
    destruct (fle_total 0 x) as [H|H].
    - now apply fle_mul_pos.
    - replace (x * x) with ((- x) * (- x)) by ring.
      apply fle_mul_pos; now apply fle_0_opp.
  Qed.
  Lemma fle_0_1 : fle (0:F) 1.
  Proof. replace 1 with (1 * 1) by ring. apply fle_sq. Qed.
  Lemma flt_0_1 : flt (0:F) 1.
  Proof. destruct (fle_lt_or_eq _ _ fle_0_1); auto. now destruct f01. Qed.
  Lemma fle_le_add1 x : fle x (x + 1).
  Proof. apply fle_add_r, fle_0_1. Qed.
  Lemma flt_0_2 : flt (0:F) (1 + 1).
  Proof. apply (flt_le_trans 0 1); [apply flt_0_1|apply fle_le_add1]. Qed.
  Lemma fle_mul_le_1 x y : fle 0 x -> fle x 1 -> fle 0 y -> fle y 1 -> fle (x * y) 1.
  Proof.
    intros Hx0 Hx1 Hy0 Hy1. replace 1 with (1 * 1) by ring. now apply fmul_le_mono.
  Qed.
  Lemma fmul_pos_pos x y : flt 0 x -> flt 0 y -> flt 0 (x * y).
  Proof.
    intros Hx Hy. apply fle_nz_pos; [apply fle_mul_pos; now apply flt_le|apply fmul_nz; now apply fpos_neq0].
  Qed.
  Lemma fsq_pos r : r <> 0 -> flt 0 (r * r).
  Proof. intros Hr. apply fle_nz_pos; [apply fle_sq|now apply fmul_nz]. Qed.
  Lemma finv_pos x : flt 0 x -> flt 0 (1 / x).
  Proof.
    intros Hx. pose proof (fpos_neq0 x Hx) as Hn. apply fle_nz_pos; [|apply fdiv_nz; [exact f1_nz|exact Hn]].
    (* 1/x is x times a square *)
    replace (1 / x) with (x * ((1 / x) * (1 / x))) by (field; exact Hn).
    apply fle_mul_pos; [now apply flt_le|apply fle_sq].
  Qed.
  Lemma fdiv_le_mono x y z : fle x y -> flt 0 z -> fle (x / z) (y / z).
  Proof.
    intros H Hz. assert (z <> 0) by now apply fpos_neq0.
    replace (x / z) with ((1 / z) * x) by (field; auto).
    replace (y / z) with ((1 / z) * y) by (field; auto).
    apply fle_mul_l; [|assumption]. apply flt_le. now apply finv_pos.
  Qed.
  Lemma fdiv_pos x y : fle 0 x -> flt 0 y -> fle 0 (x / y).
  Proof. intros Hx Hy. rewrite <- (fdiv0 y). now apply fdiv_le_mono. Qed.
  Lemma fdiv_pos_pos x z : flt 0 x -> flt 0 z -> flt 0 (x / z).
  Proof.
    intros Hx Hz. apply fle_nz_pos; [apply fdiv_pos; [now apply flt_le|exact Hz]|apply fdiv_nz; now apply fpos_neq0].
  Qed.
  Lemma fdiv_between lo hi x c :
    flt 0 c -> fle (lo * c) x -> fle x (hi * c) -> fle lo (x / c) /\ fle (x / c) hi.
  Proof.
    intros Hc L U. pose proof (fpos_neq0 c Hc) as Hnz.
    replace lo with (lo * c / c) by (field; exact Hnz). replace hi with (hi * c / c) by (field; exact Hnz).
    split; now apply fdiv_le_mono.
  Qed.

  Lemma fabs_nonneg x : fle 0 (fabs x).
  Proof.
    unfold fabs. destruct (fleb 0 x) eqn:E; [exact E|].
    apply fle_0_opp, flt_le. exact E.
  Qed.
  Lemma fabs_nonpos x : fle x 0 -> fabs x = - x.
  Proof.
    intros H. unfold fabs. destruct (fleb 0 x) eqn:E; [|reflexivity].
    assert (x = 0) by (apply fle_antisym; [exact H|exact E]). subst x. ring.
  Qed.
  Lemma fmax_ge_l x y : fle x (fmax x y).
  Proof. unfold fmax. destruct (fleb x y) eqn:E; [exact E|apply fle_refl]. Qed.
  Lemma fmax_ge_r x y : fle y (fmax x y).
  Proof. unfold fmax. destruct (fleb x y) eqn:E; [apply fle_refl|]. apply flt_le. exact E. Qed.
  Lemma fmin_le_l x y : fle (fmin x y) x.
  Proof. unfold fmin. destruct (fleb x y) eqn:E; [apply fle_refl|]. apply flt_le. exact E. Qed.
  Lemma fmin_le_r x y : fle (fmin x y) y.
  Proof. unfold fmin. destruct (fleb x y) eqn:E; [exact E|apply fle_refl]. Qed.
  Lemma fmax_lub x y z : fle x z -> fle y z -> fle (fmax x y) z.
  Proof. intros H1 H2. unfold fmax. now destruct (fleb x y). Qed.
  Lemma fmin_glb x y z : fle z x -> fle z y -> fle z (fmin x y).
  Proof. intros H1 H2. unfold fmin. now destruct (fleb x y). Qed.
  Lemma fmax_l x y : fle y x -> fmax x y = x.
  Proof. intros H. apply fle_antisym; [now apply fmax_lub; [apply fle_refl|]|apply fmax_ge_l]. Qed.
  Lemma fmax_r x y : fle x y -> fmax x y = y.
  Proof. intros H. unfold fmax. unfold fle in H. now rewrite H. Qed.
  Lemma fmin_l x y : fle x y -> fmin x y = x.
  Proof. intros H. unfold fmin. unfold fle in H. now rewrite H. Qed.
  Lemma fmin_r x y : fle y x -> fmin x y = y.
  Proof. intros H. apply fle_antisym; [apply fmin_le_r|now apply fmin_glb; [|apply fle_refl]]. Qed.
  Lemma fmax_comm x y : fmax x y = fmax y x.
  Proof.
    destruct (fle_total x y) as [H|H].
    - now rewrite (fmax_r x y H), (fmax_l y x H).
    - now rewrite (fmax_l x y H), (fmax_r y x H).
  Qed.
  Lemma fmin_comm x y : fmin x y = fmin y x.
  Proof.
    destruct (fle_total x y) as [H|H].
    - now rewrite (fmin_l x y H), (fmin_r y x H).
    - now rewrite (fmin_r x y H), (fmin_l y x H).
  Qed.
  Lemma fmin_add x y z : fmin (x + z) (y + z) = fmin x y + z.
  Proof. unfold fmin. rewrite fleb_add. now destruct (fleb x y). Qed.
  Lemma fmax_add x y z : fmax (x + z) (y + z) = fmax x y + z.
  Proof. unfold fmax. rewrite fleb_add. now destruct (fleb x y). Qed.

  Lemma fmin_sel (x y sx sy : F) :
    (fle x y -> fle sx sy) -> (fle y x -> fle sy sx) -> fmin sx sy = if fleb x y then sx else sy.
  Proof.
    intros H1 H2. destruct (fleb x y) eqn:E; [apply fmin_l, H1, E|apply fmin_r, H2, flt_le, E].
  Qed.
  Lemma fmax_sel (x y sx sy : F) :
    (fle x y -> fle sx sy) -> (fle y x -> fle sy sx) -> fmax sx sy = if fleb x y then sy else sx.
  Proof.
    intros H1 H2. destruct (fleb x y) eqn:E; [apply fmax_r, H1, E|apply fmax_l, H2, flt_le, E].
  Qed.

  Lemma convex_between (a b w : F) :
    fle 0 w -> fle 0 (1 - w) ->
    fle (fmin a b) (a + w * (b - a)) /\ fle (a + w * (b - a)) (fmax a b).
  Proof.
    intros H0 H1. split.
    - apply fle_sub_2.
      replace (a + w * (b - a) - fmin a b)
        with ((1 - w) * (a - fmin a b) + w * (b - fmin a b)) by ring.
      apply fle_0_add; apply fle_mul_pos; auto; apply fle_sub_1;
        [apply fmin_le_l|apply fmin_le_r].
    - apply fle_sub_2.
      replace (fmax a b - (a + w * (b - a)))
        with ((1 - w) * (fmax a b - a) + w * (fmax a b - b)) by ring.
      apply fle_0_add; apply fle_mul_pos; auto; apply fle_sub_1;
        [apply fmax_ge_l|apply fmax_ge_r].
  Qed.

  Lemma sumn_le n (f g : nat -> F) :
    (forall i, (i < n)%nat -> fle (f i) (g i)) -> fle (sumn n f) (sumn n g).
  Proof.
    induction n as [|n IH]; intros H; cbn [sumn]; [apply fle_refl|].
    apply fle_add2; [apply IH; intros; apply H; lia|apply H; lia].
  Qed.
  Lemma sumn_nonneg n (f : nat -> F) : (forall i, (i < n)%nat -> fle 0 (f i)) -> fle 0 (sumn n f).
  Proof. intros H. rewrite <- (sumn_const0 n). now apply sumn_le. Qed.
  Lemma sumn_ge_term n (f : nat -> F) k :
    (forall i, (i < n)%nat -> fle 0 (f i)) -> (k < n)%nat -> fle (f k) (sumn n f).
  Proof.
    intros H Hk. rewrite <- (sumn_delta_l n k f Hk) at 1. apply sumn_le. intros i Hi.
    unfold delta. destruct (Nat.eqb k i).
    - apply fle_eq. ring.
    - replace (0 * f i) with 0 by ring. now apply H.
  Qed.
End Lemmas.

#[export] Instance QcOrd : OrdFieldC QcOps.
Proof.
  assert (L : forall x y : Qc, @fle Qc QcOps x y <-> (x <= y)%Qc).
  { intros x y. unfold fle; cbn. rewrite Qle_bool_iff. reflexivity. }
  constructor.
  - exact QcField.
  - intros x. apply L. apply Qcle_refl.
  - intros x y H1 H2. apply L in H1, H2. now apply Qcle_antisym.
  - intros x y z H1 H2. apply L in H1, H2. apply L. eapply Qcle_trans; eauto.
  - intros x y. destruct (Qclt_le_dec x y) as [H|H].
    + left. apply L. now apply Qclt_le_weak.
    + right. now apply L.
  - intros x y z H. apply L in H. apply L. cbn. now apply Qcplus_le_compat; [|apply Qcle_refl].
  - intros x y H1 H2. apply L in H1, H2. apply L. cbn.
    pose proof (Qcmult_le_compat_r _ _ _ H1 H2) as H3. now rewrite Qcmult_0_l in H3.
  - intros x y. cbn. rewrite Qeq_bool_iff. split; [apply Qc_is_canon|intros ->; reflexivity].
  - cbn. intro H. discriminate H.
Qed.

#[export] Instance ROrd : OrdFieldC ROps.
Proof.
  assert (L : forall x y : R, @fle R ROps x y <-> (x <= y)%R) by (intros; apply Rleb_true).
  constructor.
  - exact RFieldC.
  - intros x. apply L. lra.
  - intros x y H1 H2. apply L in H1, H2. lra.
  - intros x y z H1 H2. apply L in H1, H2. apply L. lra.
  - intros x y. destruct (Rle_dec x y); [left|right]; apply L; lra.
  - intros x y z H. apply L in H. apply L. cbn. lra.
  - intros x y H1 H2. apply L in H1, H2. apply L. cbn in *. now apply Rmult_le_pos.
  - intros x y. cbn. unfold Reqb. destruct (Req_EM_T x y); split; intros; auto; discriminate.
  - cbn. lra.
Qed.

Lemma fle_R (x y : R) : @fle R ROps x y <-> (x <= y)%R.
Proof. apply Rleb_true. Qed.
Lemma flt_R (x y : R) : @flt R ROps x y <-> (x < y)%R.
Proof. unfold flt; cbn. apply Rleb_false. Qed.
Lemma fmin_R (x y : R) : @fmin R ROps x y = Rmin x y.
Proof. unfold fmin, Rmin; cbn; unfold Rleb. destruct (Rle_dec x y); reflexivity. Qed.
Lemma fmax_R (x y : R) : @fmax R ROps x y = Rmax x y.
Proof. unfold fmax, Rmax; cbn; unfold Rleb. destruct (Rle_dec x y); reflexivity. Qed.
